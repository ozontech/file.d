(* Proofs about Model/Antispam.v (pipeline/antispam): one source's counter under calls and Maintenance rounds — when a
   ban sets in ([ban_onset]), that it ends within U + 1 quiet rounds ([unban_wf]), that sources do not influence each
   other, and what a disabled or excepted source never does. *)
From Verif Require Import Base.Sx Base.GoSem Model.Admission Model.Antispam.
From Coq Require Import Lia ZifyBool.

Theorem antispam_disabled_never MI U s exc isNew t :
  astep MI U s (Ev (resolve (-1) None exc) isNew t) = (s, false).
Proof. reflexivity. Qed.

Theorem antispam_exception_never T MI U s exc isNew t :
  existsb (fun m => m) exc = true ->
  astep MI U s (Ev (resolve T None exc) isNew t) = (s, false).
Proof.
  intros He. unfold resolve. rewrite He. destruct (T =? -1); reflexivity.
Qed.

Theorem antispam_rule_unlimited_never T MI U s rs exc isNew t :
  first_rule rs = Some (-1) ->
  astep MI U s (Ev (resolve T (Some rs) exc) isNew t) = (s, false).
Proof. intros Hr. unfold resolve. rewrite Hr. reflexivity. Qed.

(* invariant of a source that is always counted against the same threshold T.  sthr is the threshold recorded when the entry was
   created (antispammer.go sourcesThresholds[id]), the one Maintenance uses; count_step compares with the threshold of the call.
   The theorems assume the two equal: uniform_op T on every op *)
Definition wf (T : Z) (s : option src) : Prop :=
  match s with Some x => sthr x = T /\ 0 <= counter x | None => True end.

Lemma wf_thr_is T s : wf T s -> thr_is T s.
Proof. destruct s; cbn; tauto. Qed.

Lemma counter_of_nonneg T s : wf T s -> 0 <= counter_of s.
Proof. destruct s; cbn; lia. Qed.

(* IsSpam in terms of what the statements speak of: the counter and the time of the previous event *)
Lemma count_step_eq MI U T s isNew t :
  wf T s ->
  count_step MI U T s isNew t =
    let p := match ts_of s with Some q => q | None => t end in
    if isNew then (Some {| counter := 0; ts := p; sthr := T |}, false)
    else
      let x := if t - p <? MI then counter_of s + 1 else counter_of s in
      (Some {| counter := if x =? T then U * T else x; ts := t; sthr := T |}, T <=? x).
Proof. destruct s as [x|]; [intros [<- _]|intros _]; reflexivity. Qed.

(* a round subtracts the threshold, between 0 and the ban value *)
Lemma maint_step_counter U T s :
  0 < T -> 0 <= U -> wf T s ->
  counter_of (maint_step U s) = Z.min (U * T) (Z.max (counter_of s - T) 0).
Proof.
  intros HT HU Hwf. assert (0 <= U * T) by nia. unfold maint_step.
  destruct s as [x|]; cbn [counter_of]; [|lia]. destruct Hwf as [-> _].
  destruct (counter x =? 0) eqn:E0; cbn [counter_of counter]; [lia|].
  destruct (U * T <? Z.max (counter x - T) 0) eqn:E; lia.
Qed.

Lemma maint_step_wf U T s : 0 < T -> 0 <= U -> wf T s -> wf T (maint_step U s).
Proof.
  intros HT HU Hwf. unfold maint_step. destruct s as [x|]; [|exact I]. destruct Hwf as [H1 H2].
  destruct (counter x =? 0); [exact I|]. split; [exact H1|]. cbn [counter]. rewrite H1.
  destruct (_ <? _); nia.
Qed.

Lemma uniform_op_inv T o : uniform_op T o = true -> o = Maint \/ exists isNew t, o = Ev (Count T) isNew t.
Proof.
  destruct o as [[| |thr] isNew t|]; cbn [uniform_op]; try discriminate; [|auto].
  intros H. apply Z.eqb_eq in H. subst thr. eauto.
Qed.

Lemma is_count_uniform T o : is_count_ev T o = true -> uniform_op T o = true.
Proof. destruct o as [[| |thr] isNew t|]; cbn; congruence. Qed.

Lemma forallb_count_uniform T ops :
  forallb (is_count_ev T) ops = true -> forallb (uniform_op T) ops = true.
Proof.
  rewrite !forallb_forall. intros H o Ho. apply is_count_uniform, H, Ho.
Qed.

Lemma is_count_ev_inv T o : is_count_ev T o = true -> exists isNew t, o = Ev (Count T) isNew t.
Proof.
  intros H. destruct (uniform_op_inv T o (is_count_uniform T o H)) as [->|E]; [discriminate H | exact E].
Qed.

(* a step keeps the source well-formed, and the counter rises by one at most, from the ban value if it was below it *)
Lemma astep_inv MI U T s o :
  0 < T -> 0 <= U -> uniform_op T o = true -> wf T s ->
  wf T (fst (astep MI U s o)) /\ counter_of (fst (astep MI U s o)) <= Z.max (counter_of s) (U * T) + 1.
Proof.
  intros HT HU Hu Hwf. pose proof (counter_of_nonneg T s Hwf).
  destruct (uniform_op_inv T o Hu) as [->|(isNew & t & ->)]; cbn [astep fst].
  - split; [apply maint_step_wf; assumption|]. rewrite (maint_step_counter U T) by assumption. lia.
  - rewrite (count_step_eq MI U T s isNew t Hwf). cbv zeta.
    destruct isNew; cbn [fst wf counter_of counter sthr]; [lia|].
    destruct (_ <? MI); destruct (_ =? T); nia.
Qed.

Lemma arun_cons MI U s o r :
  arun MI U s (o :: r) =
  (fst (arun MI U (fst (astep MI U s o)) r), snd (astep MI U s o) :: snd (arun MI U (fst (astep MI U s o)) r)).
Proof.
  cbn [arun]. destruct (astep MI U s o) as [s1 v]. cbn [fst snd].
  destruct (arun MI U s1 r) as [s2 vs]. reflexivity.
Qed.

Lemma arun_wf MI U T ops : forall s,
  0 < T -> 0 <= U -> forallb (uniform_op T) ops = true -> wf T s -> wf T (fst (arun MI U s ops)).
Proof.
  induction ops as [|o r IH]; intros s HT HU Hu Hwf.
  - exact Hwf.
  - cbn [forallb] in Hu. apply andb_true_iff in Hu. destruct Hu as [Ho Hr].
    rewrite arun_cons. cbn [fst]. apply IH; try assumption. apply astep_inv; assumption.
Qed.

Lemma arun_app MI U a : forall s b,
  arun MI U s (a ++ b) =
  (fst (arun MI U (fst (arun MI U s a)) b), snd (arun MI U s a) ++ snd (arun MI U (fst (arun MI U s a)) b)).
Proof.
  induction a as [|o r IH]; intros s b.
  - cbn [app arun fst snd]. destruct (arun MI U s b); reflexivity.
  - cbn [app]. rewrite !arun_cons. rewrite IH. cbn [fst snd app]. reflexivity.
Qed.

Lemma quick_count_nonneg MI ops : forall p, 0 <= quick_count MI p ops.
Proof.
  induction ops as [|o r IH]; intros p; cbn [quick_count]; [lia|].
  destruct o as [[| |thr] [|] t|]; try apply IH.
  specialize (IH (Some t)). destruct (_ <? MI); lia.
Qed.

(* The counter plus the quick calls still to come never grows over a call that is not flagged, and a call is flagged
   only when it has reached T: the counter rises by one exactly on a quick call, and a new source resets it.  The
   unflagged branch is what [ban_onset] needs to go on from the next state by induction. *)
Lemma count_step_potential MI U T s isNew t r :
  wf T s -> counter_of s < T ->
  let s1 := fst (count_step MI U T s isNew t) in
  let before := counter_of s + quick_count MI (ts_of s) (Ev (Count T) isNew t :: r) in
  if snd (count_step MI U T s isNew t) then T <= before
  else wf T s1 /\ counter_of s1 < T /\ counter_of s1 + quick_count MI (ts_of s1) r <= before.
Proof.
  intros Hwf Hlt. pose proof (counter_of_nonneg T s Hwf).
  rewrite (count_step_eq MI U T s isNew t Hwf). cbv zeta.
  destruct isNew; cbn [quick_count fst snd counter_of ts_of counter ts wf sthr]; [lia|].
  pose proof (quick_count_nonneg MI r (Some t)).
  destruct (_ <? MI); (destruct (T <=? _) eqn:Hv; [lia|]); (destruct (_ =? T) eqn:He; lia).
Qed.

(* From a state with counter r < T (in particular: what a Maintenance round left behind), a call of a
   run of IsSpam calls without a round in between is flagged only if r plus the number of quick calls
   up to and including it reaches T. *)
Theorem ban_onset MI U T s seg i :
  0 < T -> 0 <= U ->
  forallb (is_count_ev T) seg = true -> wf T s -> counter_of s < T ->
  nth_error (snd (arun MI U s seg)) i = Some true ->
  T <= counter_of s + quick_count MI (ts_of s) (firstn (S i) seg).
Proof.
  intros HT HU. revert s i. induction seg as [|o r IH]; intros s i Hall Hwf Hlt Hi.
  - destruct i; discriminate Hi.
  - cbn [forallb] in Hall. apply andb_true_iff in Hall. destruct Hall as [Ho Hr].
    destruct (is_count_ev_inv T o Ho) as (isNew & t & ->).
    rewrite arun_cons in Hi. cbn [astep snd fst] in Hi. cbn [firstn].
    pose proof (count_step_potential MI U T s isNew t (firstn i r) Hwf Hlt) as Hstep. cbv zeta in Hstep.
    destruct (snd (count_step MI U T s isNew t)); [exact Hstep|].
    destruct Hstep as (Hwf1 & Hlt1 & Hle). destruct i as [|j]; [discriminate Hi|]. cbn [nth_error] in Hi.
    exact (Z.le_trans _ _ _ (IH _ j Hr Hwf1 Hlt1 Hi) Hle).
Qed.

(* the same for the state reached by any history that ends with a Maintenance round *)
Theorem ban_onset_reachable MI U T ops0 seg i :
  0 < T -> 0 <= U ->
  forallb (uniform_op T) ops0 = true -> forallb (is_count_ev T) seg = true ->
  let s := fst (arun MI U None (ops0 ++ [Maint])) in
  banned T s = false ->
  nth_error (snd (arun MI U s seg)) i = Some true ->
  T <= counter_of s + quick_count MI (ts_of s) (firstn (S i) seg).
Proof.
  intros HT HU Hu Hall s Hb Hi.
  apply (ban_onset MI U T s seg i HT HU Hall); try assumption.
  - apply arun_wf; try assumption; [|exact I].
    rewrite forallb_app, Hu. reflexivity.
  - unfold banned in Hb. lia.
Qed.

Theorem ban_onset_needs_T MI U T ops0 seg i :
  0 < T -> 0 <= U ->
  forallb (uniform_op T) ops0 = true -> forallb (is_count_ev T) seg = true ->
  let s := fst (arun MI U None (ops0 ++ [Maint])) in
  counter_of s = 0 ->
  nth_error (snd (arun MI U s seg)) i = Some true ->
  T <= quick_count MI (ts_of s) (firstn (S i) seg).
Proof.
  intros HT HU Hu Hall s H0 Hi. subst s.
  assert (Hb : banned T (fst (arun MI U None (ops0 ++ [Maint]))) = false) by (unfold banned; rewrite H0; lia).
  pose proof (ban_onset_reachable MI U T ops0 seg i HT HU Hu Hall Hb Hi) as H.
  rewrite H0 in H. exact H.
Qed.

(* what a round leaves behind: 0 for a source that was not banned before it ... *)
Theorem maint_unbanned_leaves_zero U T s :
  0 < T -> 0 <= U -> wf T s -> banned T s = false -> counter_of (maint_step U s) = 0.
Proof.
  intros HT HU Hwf Hb. unfold banned in Hb. rewrite (maint_step_counter U T) by assumption. nia.
Qed.

(* ... and x - T for a banned source whose ban ends with this round (the residual) *)
Theorem maint_residual U T x :
  1 <= U -> sthr x = T -> T <= counter x < 2 * T ->
  maint_step U (Some x) = Some {| counter := counter x - T; ts := ts x; sthr := T |}.
Proof.
  intros HU <- H2. unfold maint_step.
  destruct (counter x =? 0) eqn:E0; [lia|]. destruct (_ <? _) eqn:E1; [nia|].
  do 2 f_equal. lia.
Qed.

(* a flagged call leaves the source banned (U >= 1), a banned source is flagged *)
Theorem flagged_iff_banned_after MI U T s t :
  0 < T -> 1 <= U ->
  snd (count_step MI U T s false t) = banned T (fst (count_step MI U T s false t)).
Proof.
  intros HT HU. unfold count_step, banned. cbn [fst snd counter_of counter].
  set (x := if _ <? MI then _ else _).
  destruct (x =? T) eqn:E; nia.
Qed.

Theorem banned_is_flagged MI U T s t :
  banned T s = true -> snd (count_step MI U T s false t) = true.
Proof.
  unfold banned, count_step. intros Hb.
  destruct s as [x|]; cbn [counter_of snd counter ts] in *; destruct (_ <? MI); lia.
Qed.

Theorem maint_never_bans U T s :
  0 < T -> 0 <= U -> wf T s -> banned T s = false -> banned T (maint_step U s) = false.
Proof.
  intros HT HU Hwf Hb. unfold banned.
  rewrite (maint_unbanned_leaves_zero U T s HT HU Hwf Hb). lia.
Qed.

Lemma decay U T n : forall s,
  0 < T -> 0 <= U -> wf T s -> counter_of s <= Z.of_nat n * T -> counter_of (maint_n U n s) = 0.
Proof.
  induction n as [|n IH]; intros s HT HU Hwf Hc; cbn [maint_n].
  - pose proof (counter_of_nonneg T s Hwf). lia.
  - apply IH; try assumption; [apply maint_step_wf; assumption|].
    rewrite (maint_step_counter U T) by assumption. nia.
Qed.

Lemma maint_n_succ_r U n : forall s, maint_n U (S n) s = maint_step U (maint_n U n s).
Proof.
  induction n as [|n IH]; intros s; [reflexivity|].
  change (maint_n U (S (S n)) s) with (maint_n U (S n) (maint_step U s)). rewrite IH. reflexivity.
Qed.

Lemma maint_n_wf U T n : forall s, 0 < T -> 0 <= U -> wf T s -> wf T (maint_n U n s).
Proof.
  induction n as [|n IH]; intros s HT HU Hwf; [exact Hwf|].
  cbn [maint_n]. apply IH; try assumption. apply maint_step_wf; assumption.
Qed.

Lemma arun_repeat_maint MI U n : forall s, fst (arun MI U s (repeat Maint n)) = maint_n U n s.
Proof.
  induction n as [|n IH]; intros s; [reflexivity|].
  cbn [repeat]. rewrite arun_cons. cbn [fst astep maint_n]. apply IH.
Qed.

Lemma maint_zero_deletes U s : counter_of s = 0 -> maint_step U s = None.
Proof.
  unfold maint_step. destruct s as [x|]; [|reflexivity]. cbn [counter_of]. intros ->. reflexivity.
Qed.

(* whatever the source did before: the first round brings the counter down to the ban value U*T at most, each of the
   next U takes T off, and the round after that removes the entry *)
Theorem unban_wf U T s :
  0 < T -> 0 <= U -> wf T s ->
  let s' := maint_n U (S (Z.to_nat U)) s in
  banned T s' = false /\ counter_of s' = 0 /\ maint_step U s' = None.
Proof.
  intros HT HU Hwf s'.
  assert (H0 : counter_of s' = 0).
  { unfold s'. cbn [maint_n]. apply (decay U T); try assumption; [apply maint_step_wf; assumption|].
    rewrite (maint_step_counter U T) by assumption. lia. }
  split; [unfold banned; lia|]. split; [exact H0|]. apply maint_zero_deletes. exact H0.
Qed.

Theorem unban_within_U_plus_1 MI U T ops :
  0 < T -> 0 <= U -> forallb (uniform_op T) ops = true ->
  let s := fst (arun MI U None ops) in
  let s' := fst (arun MI U s (repeat Maint (Z.to_nat (U + 1)))) in
  banned T s' = false /\ counter_of s' = 0 /\ fst (arun MI U s' [Maint]) = None.
Proof.
  intros HT HU Hu s s'.
  assert (Hwf : wf T s) by (apply arun_wf; try assumption; exact I).
  unfold s'. rewrite arun_repeat_maint.
  replace (Z.to_nat (U + 1)) with (S (Z.to_nat U)) by lia.
  exact (unban_wf U T s HT HU Hwf).
Qed.

(* the defect: the residual lowers the next ban's threshold *)
Definition ev10 : aop := Ev (Count 10) false 0.

Theorem ban_onset_residual_refuted :
  exists T MI U ops0 seg i,
    0 < T /\ 0 <= U /\
    forallb (uniform_op T) ops0 = true /\ forallb (is_count_ev T) seg = true /\
    let s := fst (arun MI U None (ops0 ++ [Maint])) in
    banned T s = false /\
    nth_error (snd (arun MI U s seg)) i = Some true /\
    quick_count MI (ts_of s) (firstn (S i) seg) < T.
Proof.
  exists 10, 1, 4, (repeat ev10 15 ++ repeat Maint 3), (repeat ev10 5), 4%nat.
  vm_compute. repeat split; congruence.
Qed.

Lemma nth_error_set_nth {A} (l : list A) : forall k j v,
  nth_error (set_nth k v l) j =
  if Nat.eqb k j then match nth_error l j with Some _ => Some v | None => None end else nth_error l j.
Proof.
  induction l as [|y l IH]; intros [|k] [|j] v; cbn; try reflexivity.
  - destruct (Nat.eqb k j); reflexivity.
  - apply IH.
Qed.

Lemma mstep_proj MI U ms o id s :
  nth_error ms id = Some s ->
  nth_error (fst (mstep MI U ms o)) id = Some (fst (arun MI U s (proj id o))).
Proof.
  intros Hs. destruct o as [id' d isNew t| |]; cbn [mstep proj].
  - destruct (Nat.eqb_spec id' id) as [->|E]; cbn [arun fst].
    + rewrite Hs. destruct (astep MI U s (Ev d isNew t)) as [s' v]. cbn [fst].
      rewrite nth_error_set_nth, Nat.eqb_refl, Hs. reflexivity.
    + destruct (nth_error ms id') as [s0|]; [|exact Hs].
      destruct (astep MI U s0 (Ev d isNew t)) as [s' v]. cbn [fst].
      rewrite nth_error_set_nth, (proj2 (Nat.eqb_neq id' id) E). exact Hs.
  - cbn [arun astep fst]. apply map_nth_error. exact Hs.
  - exact Hs.
Qed.

Lemma mrun_cons MI U ms o r :
  fst (mrun MI U ms (o :: r)) = fst (mrun MI U (fst (mstep MI U ms o)) r).
Proof.
  cbn [mrun]. destruct (mstep MI U ms o) as [ms1 v]. cbn [fst].
  destruct (mrun MI U ms1 r) as [ms2 vs]. reflexivity.
Qed.

(* several sources: each one sees only its own calls and the rounds *)
Theorem sources_independent MI U ops : forall ms id s,
  nth_error ms id = Some s ->
  nth_error (fst (mrun MI U ms ops)) id = Some (fst (arun MI U s (flat_map (proj id) ops))).
Proof.
  induction ops as [|o r IH]; intros ms id s Hs.
  - exact Hs.
  - rewrite mrun_cons. cbn [flat_map]. rewrite arun_app. cbn [fst].
    apply IH. apply mstep_proj. exact Hs.
Qed.
