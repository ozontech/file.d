(* Final statements about the per-stream end-to-end flow model Model/StreamFlow.v, each proved here
   from the invariant [finv], what is read off it and the accounting identity [fconservation_cnt] of
   Proofs/StreamFlow.v; only the commit frontier is proved there ([frontier]).  Formal core of C02 (per-stream commits arrive in read order, once per event;
   every accepted event ends in exactly one commit or one silent drop) and C01 (when an event is
   committed every earlier event of its stream has been committed or deliberately dropped).

   All statements quantify over every number of actions n, both kinds of output (sync) and every label
   sequence ls accepted by [fstep] from the initial state; the real pipeline traces are replayed
   through [fstep] on every check (Model/PipeGlue.v, flow_step), except those of the cases with spread routing, a dead queue
   or the k8s multiline action ([lts_ok] there).

   [ordered] (kind 0 regular or 2 child-parent) is Proofs/Proc.v's; it is the same function as
   Model/StreamFlow.v's ([flow_ordered_same]).  [ftaken ls] lists the ordered events e of every
   [FProc (PTake e _)] in ls, in order ([flow_taken_spec]).

   The model carries guard F0 (a synchronous output has no batcher, so FAdd of an ordered event is
   rejected when sync_out), which is there for these theorems: without it the split of the output history and the
   commit frontier are false ([flow_out_history_split_noF0_refuted], [flow_frontier_noF0_refuted]). *)
From Verif Require Import Base.Sx Model.Proc Model.StreamFlow Proofs.ListFacts Proofs.Proc Proofs.StreamFlow.
From Coq Require Import Lia Bool List ZArith Sorted Permutation.
Import ListNotations.
Local Open Scope Z_scope.

Lemma flow_ordered_same : Model.StreamFlow.ordered = ordered.
Proof. reflexivity. Qed.

Lemma flow_taken_spec : forall e ls,
  In e (ftaken ls) <-> ordered e = true /\ exists start, In (FProc (PTake e start)) ls.
Proof. exact In_ftaken. Qed.

Lemma flow_run_invariant : forall (P : fst_ -> Prop),
  (forall s l s', P s -> fstep s l = Some s' -> P s') ->
  forall ls s s', P s -> frun s ls = Some s' -> P s'.
Proof. exact (Lts.run_invariant fstep). Qed.

Lemma flow_invariant : forall n sync ls s, frun (finit n sync) ls = Some s -> finv s.
Proof. exact finv_reachable. Qed.

(* the processor component of a flow run is a processor run: all of Proofs/ProcTheorems.v applies *)
Lemma flow_proc_run : forall n sync ls s, frun (finit n sync) ls = Some s ->
  prun (pinit n) (fproj ls) = Some (proc s).
Proof. intros n sync ls s H. exact (frun_proc _ _ _ H). Qed.

(* everything ever handed to the output, in hand-over order, is exactly
   committed ++ added-not-committed ++ waiting-to-be-added *)
Theorem flow_out_history_split : forall n sync ls s, frun (finit n sync) ls = Some s ->
  map pseq (filter ordered (rev (outs (proc s)))) =
  map pseq (rev (commits s)) ++ map pseq (addq s) ++ map pseq (outq s).
Proof. intros n sync ls s H. rewrite (fi_split _ (finv_reachable _ _ _ _ H)), !map_app. reflexivity. Qed.

(* the same for the events themselves, not only their sequence numbers *)
Theorem flow_out_history_split_events : forall n sync ls s, frun (finit n sync) ls = Some s ->
  filter ordered (rev (outs (proc s))) = rev (commits s) ++ addq s ++ outq s.
Proof. intros n sync ls s H. exact (fi_split _ (finv_reachable _ _ _ _ H)). Qed.

(* with a synchronous output nothing is ever in the batcher *)
Lemma flow_sync_addq_empty : forall n ls s, frun (finit n true) ls = Some s -> addq s = [].
Proof.
  intros n ls s H. apply (fi_sync _ (finv_reachable _ _ _ _ H)). revert H.
  apply (flow_run_invariant (fun s => sync_out s = true)); [|reflexivity].
  intros s0 l s1 H0 E. rewrite (proj1 (fstep_proc _ _ _ E)). exact H0.
Qed.

(* C02: commit notifications of a stream carry strictly increasing sequence numbers *)
Theorem flow_commits_increasing : forall n sync ls s, frun (finit n sync) ls = Some s ->
  StronglySorted Z.lt (map pseq (rev (commits s))).
Proof.
  intros n sync ls s H. pose proof (split_sorted _ (finv_reachable _ _ _ _ H)) as Hs.
  rewrite map_app in Hs. exact (sorted_app_l _ _ Hs).
Qed.

(* hence no event is committed twice *)
Corollary flow_commits_nodup : forall n sync ls s, frun (finit n sync) ls = Some s ->
  NoDup (map pseq (commits s)).
Proof.
  intros n sync ls s H. apply flow_commits_increasing, sorted_nodup in H. rewrite map_rev in H.
  apply NoDup_rev in H. rewrite rev_involutive in H. exact H.
Qed.

(* the two queues are in read order as well, and everything committed is older than everything queued *)
Lemma flow_queues_increasing : forall n sync ls s, frun (finit n sync) ls = Some s ->
  StronglySorted Z.lt (map pseq (addq s ++ outq s)) /\
  (forall c q, In c (commits s) -> In q (addq s ++ outq s) -> pseq c < pseq q).
Proof.
  intros n sync ls s H. pose proof (split_sorted _ (finv_reachable _ _ _ _ H)) as Hs.
  rewrite map_app in Hs. apply ListFacts.sorted_app in Hs as (_ & Hq & Hlt). split; [exact Hq|].
  intros c q Hc Hq'. apply Hlt; apply in_map; [apply -> in_rev; exact Hc|exact Hq'].
Qed.

(* C02: conservation: the ordered events in all places are exactly the ordered events taken, each once *)
Theorem flow_conservation : forall n sync ls s, frun (finit n sync) ls = Some s ->
  Permutation
    (filter ordered (commits s ++ addq s ++ outq s ++ dropped (proc s) ++
                     map snd (held (proc s)) ++ map fev (stack (proc s))))
    (ftaken ls) /\
  NoDup (ftaken ls).
Proof.
  intros n sync ls s H. pose proof (fconservation_cnt _ _ _ _ H) as Ha. split; [exact (accounts_perm _ _ Ha)|apply Ha].
Qed.

(* the same by counting: a taken ordered event occurs exactly once, nothing foreign occurs *)
Theorem flow_conservation_once : forall n sync ls s, frun (finit n sync) ls = Some s ->
  forall e, ordered e = true ->
    ((exists start, In (FProc (PTake e start)) ls) ->
       count_occ pev_eq_dec (commits s ++ addq s ++ outq s ++ dropped (proc s) ++
                             map snd (held (proc s)) ++ map fev (stack (proc s))) e = 1%nat) /\
    (~ (exists start, In (FProc (PTake e start)) ls) ->
       ~ In e (commits s ++ addq s ++ outq s ++ dropped (proc s) ++
               map snd (held (proc s)) ++ map fev (stack (proc s)))).
Proof.
  intros n sync ls s H e He. destruct (accounts_once _ _ e (fconservation_cnt _ _ _ _ H) He) as [H1 H2].
  fold (ftaken ls) in H1, H2. rewrite In_ftaken in H1, H2. tauto.
Qed.

(* at quiescence each accepted event ended in exactly one commit or one silent drop *)
Corollary flow_quiescent_all_accounted : forall n sync ls s, frun (finit n sync) ls = Some s ->
  stack (proc s) = [] -> held (proc s) = [] -> outq s = [] -> addq s = [] ->
  Permutation (commits s ++ filter ordered (dropped (proc s))) (ftaken ls).
Proof.
  intros n sync ls s H Hst Hh Hq Ha. destruct (flow_conservation _ _ _ _ H) as [Hp _].
  pose proof (split_members _ (finv_reachable _ _ _ _ H)) as Hm.
  rewrite Hst, Hh, Hq, Ha in Hp. cbn [map app] in Hp. rewrite app_nil_r, filter_app in Hp.
  rewrite filter_all in Hp; [exact Hp|]. intros x Hx. apply Hm. apply in_or_app; left; exact Hx.
Qed.

(* C01: the commit frontier: when the commit of e is accepted, the event e' actually committed (the
   queue head, same sequence number) has every earlier accepted event of the stream committed or silently
   dropped *)
Theorem flow_frontier : forall n sync ls s e s', frun (finit n sync) ls = Some s ->
  fstep s (FCommit e) = Some s' ->
  exists e', commits s' = e' :: commits s /\ pseq e' = pseq e /\
    forall x, In x (ftaken ls) -> pseq x < pseq e' -> In x (commits s') \/ In x (dropped (proc s')).
Proof. exact frontier. Qed.

(* ... that is: not held by an action, not on the processor's stack, not waiting in either queue *)
Theorem flow_frontier_not_pending : forall n sync ls s e s', frun (finit n sync) ls = Some s ->
  fstep s (FCommit e) = Some s' ->
  exists e', commits s' = e' :: commits s /\ pseq e' = pseq e /\
    forall x, In x (ftaken ls) -> pseq x < pseq e' ->
      ~ In x (addq s' ++ outq s' ++ map snd (held (proc s')) ++ map fev (stack (proc s'))).
Proof.
  intros n sync ls s e s' Hrun Hc. destruct (frontier _ _ _ _ _ _ Hrun Hc) as (x & Hcm & Hx & Hf).
  exists x. split; [exact Hcm|]. split; [exact Hx|]. intros y Hy Hlt Hin.
  assert (Hrun' : frun (finit n sync) (ls ++ [FCommit e]) = Some s').
  { rewrite frun_app, Hrun. cbn [frun]. rewrite Hc. reflexivity. }
  pose proof (proj1 (In_ftaken _ _) Hy) as [Hoy [start Hst]].
  destruct (flow_conservation_once _ _ _ _ Hrun' y Hoy) as [Hone _].
  specialize (Hone ltac:(exists start; apply in_or_app; left; exact Hst)).
  (* y occurs once in all places, so not both in a final and in a pending one *)
  apply (count_occ_In pev_eq_dec) in Hin.
  assert (Hfin : (cnt (commits s' ++ dropped (proc s')) y > 0)%nat) by (apply count_occ_In, in_or_app, Hf; assumption).
  rewrite !count_occ_app in *. lia.
Qed.

(* a committed event was handed to the output before *)
Theorem flow_commit_was_handed_to_output : forall n sync ls s e s', frun (finit n sync) ls = Some s ->
  fstep s (FCommit e) = Some s' ->
  exists e', commits s' = e' :: commits s /\ pseq e' = pseq e /\ ordered e' = true /\ In e' (outs (proc s)).
Proof.
  intros n sync ls s e s' Hrun Hc. pose proof (finv_reachable _ _ _ _ Hrun) as Hinv.
  destruct (fcommit_inv _ _ _ Hinv Hc) as (x & rest & Hx & Hcm & _ & Hq).
  exists x. split; [exact Hcm|]. split; [exact Hx|]. apply (split_members _ Hinv).
  rewrite Hq, !in_app_iff. cbn [In]. auto.
Qed.

Corollary flow_committed_were_handed_to_output : forall n sync ls s, frun (finit n sync) ls = Some s ->
  forall x, In x (commits s) -> ordered x = true /\ In x (outs (proc s)).
Proof.
  intros n sync ls s Hrun x Hx. apply (split_members _ (finv_reachable _ _ _ _ Hrun)). apply in_or_app; left; exact Hx.
Qed.

(* necessity of guard F0: [fstep_noF0] is [fstep] whose FAdd is accepted also for a synchronous output *)
Lemma flow_fstep_noF0_weaker : forall s l s', fstep s l = Some s' -> fstep_noF0 s l = Some s'.
Proof.
  intros s l s'. destruct l as [pl|e|e]; cbn [fstep_noF0]; auto. cbn [fstep]. intros H.
  destruct (negb (Model.StreamFlow.ordered e)); [exact H|]. destruct (sync_out s); [discriminate|exact H].
Qed.

Lemma flow_out_history_split_noF0_refuted :
  exists n sync ls s, frun_noF0 (finit n sync) ls = Some s /\
    map pseq (filter ordered (rev (outs (proc s)))) <>
    map pseq (rev (commits s)) ++ map pseq (addq s) ++ map pseq (outq s).
Proof. exists 0, true, w_sync_add. eexists. split; [vm_compute; reflexivity|]. vm_compute. discriminate. Qed.

Lemma flow_frontier_noF0_refuted :
  exists n sync ls s e s' x, frun_noF0 (finit n sync) ls = Some s /\ fstep_noF0 s (FCommit e) = Some s' /\
    In x (ftaken ls) /\ pseq x < pseq e /\ ~ (In x (commits s') \/ In x (dropped (proc s'))).
Proof.
  exists 0, true, (removelast w_sync_add). eexists. exists (ev 2 0). eexists. exists (ev 1 0).
  split; [vm_compute; reflexivity|]. split; [vm_compute; reflexivity|].
  split; [vm_compute; auto|]. split; [reflexivity|]. cbn. intros [[H|[]]|[]]. discriminate H.
Qed.

Example flow_F0_rejects_sync_add : frun (finit 0 true) w_sync_add = None /\
  (forall s, frun (finit 0 true) (firstn 4 w_sync_add) = Some s -> fstep s (FAdd (ev 1 0)) = None).
Proof.
  split; [vm_compute; reflexivity|]. intros s H. vm_compute in H. injection H as <-. vm_compute. reflexivity.
Qed.

(* one action (a join).  It holds e1.  e2 arrives: the action flushes e1 (out), then lets e2 pass (out).
   Both are added to the batcher and committed, in read order. *)
Definition hold_flush : list flabel :=
  [FProc (PTake (ev 1 0) 0); FProc (PDo (ev 1 0) 0 false); FProc (PResult (ev 1 0) 0 RHold);
   FProc (PTake (ev 2 0) 0); FProc (PDo (ev 2 0) 0 true); FProc (PPropagate (ev 1 0) 1); FProc (POut (ev 1 0));
   FProc (PResult (ev 2 0) 0 RPass); FProc (POut (ev 2 0));
   FAdd (ev 1 0); FAdd (ev 2 0); FCommit (ev 1 0); FCommit (ev 2 0)].

Example flow_nonvacuous :
  (* e1 is held after the third label *)
  option_map (fun s => (held (proc s), stack (proc s), outq s))
    (frun (finit 1 false) (firstn 3 hold_flush)) = Some ([(0, ev 1 0)], [], []) /\
  (* both out, waiting to be added *)
  option_map (fun s => (rev (outs (proc s)), outq s, addq s, held (proc s)))
    (frun (finit 1 false) (firstn 9 hold_flush)) = Some ([ev 1 0; ev 2 0], [ev 1 0; ev 2 0], [], []) /\
  (* both added *)
  option_map (fun s => (outq s, addq s, commits s))
    (frun (finit 1 false) (firstn 11 hold_flush)) = Some ([], [ev 1 0; ev 2 0], []) /\
  (* the whole run: committed in read order, nothing left anywhere *)
  option_map (fun s => (rev (commits s), addq s, outq s, held (proc s), stack (proc s), dropped (proc s)))
    (frun (finit 1 false) hold_flush) = Some ([ev 1 0; ev 2 0], [], [], [], [], []) /\
  ftaken hold_flush = [ev 1 0; ev 2 0] /\
  (* F2: a commit label for the wrong event (e2 while e1 is the oldest added) is rejected *)
  frun (finit 1 false) (firstn 11 hold_flush ++ [FCommit (ev 2 0)]) = None /\
  (* F1: so is an Add out of hand-over order *)
  frun (finit 1 false) (firstn 9 hold_flush ++ [FAdd (ev 2 0)]) = None.
Proof. vm_compute. repeat split; reflexivity. Qed.

(* the hypotheses of the frontier theorem are satisfiable with something to say: two actions, e1 is
   discarded by action 0, e2 is held by action 1 and flushed by e3; when e2's commit is accepted the
   older e1 is a silent drop, and when e3's commit is accepted e2 is committed and e1 dropped *)
Definition drop_hold_flush : list flabel :=
  [FProc (PTake (ev 1 0) 0); FProc (PDo (ev 1 0) 0 false); FProc (PResult (ev 1 0) 0 RDiscard);
   FProc (PTake (ev 2 0) 0); FProc (PDo (ev 2 0) 0 false); FProc (PResult (ev 2 0) 0 RPass);
   FProc (PDo (ev 2 0) 1 false); FProc (PResult (ev 2 0) 1 RHold);
   FProc (PTake (ev 3 0) 0); FProc (PDo (ev 3 0) 0 false); FProc (PResult (ev 3 0) 0 RPass);
   FProc (PDo (ev 3 0) 1 true); FProc (PPropagate (ev 2 0) 2); FProc (POut (ev 2 0));
   FProc (PResult (ev 3 0) 1 RPass); FProc (POut (ev 3 0));
   FAdd (ev 2 0); FAdd (ev 3 0); FCommit (ev 2 0)].

Example flow_frontier_nonvacuous :
  exists s s', frun (finit 2 false) drop_hold_flush = Some s /\ fstep s (FCommit (ev 3 0)) = Some s' /\
    ftaken drop_hold_flush = [ev 1 0; ev 2 0; ev 3 0] /\
    commits s' = [ev 3 0; ev 2 0] /\ dropped (proc s') = [ev 1 0] /\
    addq s' = [] /\ outq s' = [] /\ held (proc s') = [] /\ stack (proc s') = [].
Proof.
  destruct (frun (finit 2 false) drop_hold_flush) as [s|] eqn:E; [|vm_compute in E; discriminate].
  destruct (fstep s (FCommit (ev 3 0))) as [s'|] eqn:E2;
    [|exfalso; vm_compute in E; inversion E; subst s; vm_compute in E2; discriminate].
  exists s, s'. split; [reflexivity|]. split; [exact E2|].
  vm_compute in E. inversion E; subst s. vm_compute in E2. inversion E2; subst s'.
  vm_compute. repeat split; reflexivity.
Qed.

(* while e2 is still held, a commit of the newer e3 cannot be accepted: e3 is not out yet *)
Example flow_frontier_blocks_newer :
  forall s, frun (finit 2 false) (firstn 12 drop_hold_flush) = Some s ->
    held (proc s) = [(1, ev 2 0)] /\ fstep s (FCommit (ev 3 0)) = None /\ fstep s (FAdd (ev 3 0)) = None.
Proof. intros s H. vm_compute in H. inversion H; subst s. vm_compute. repeat split; reflexivity. Qed.

(* synchronous output, no action: Out commits at once, the batcher queue stays empty *)
Example flow_sync_nonvacuous :
  option_map (fun s => (rev (commits s), addq s, outq s))
    (frun (finit 0 true) [FProc (PTake (ev 1 0) 0); FProc (POut (ev 1 0)); FCommit (ev 1 0);
                          FProc (PTake (ev 2 0) 0); FProc (POut (ev 2 0)); FCommit (ev 2 0)])
    = Some ([ev 1 0; ev 2 0], [], []).
Proof. vm_compute. reflexivity. Qed.

Print Assumptions flow_out_history_split.
Print Assumptions flow_commits_increasing.
Print Assumptions flow_conservation.
Print Assumptions flow_conservation_once.
Print Assumptions flow_quiescent_all_accounted.
Print Assumptions flow_frontier.
Print Assumptions flow_frontier_not_pending.
Print Assumptions flow_commit_was_handed_to_output.
Print Assumptions flow_out_history_split_noF0_refuted.
Print Assumptions flow_frontier_noF0_refuted.
