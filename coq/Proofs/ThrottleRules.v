(* Proofs about the rule-level limit distributions of Model/Throttle.v (drun / spec_cfg):
   a limiter created for a rule carries the shares of THAT rule — share(value) = round(ratio x the rule's own limit),
   default share from the same limit — and the decisions of a key are those of the reference semantics with these
   shares; the sum of the specified shares is within the rule's limit up to the rounding of each share (half up: at
   most 1/2 per share), and within the limit itself when no share is rounded.                                     *)
From Verif Require Import Base.Sx Base.GoSem Model.Throttle Proofs.GoSemFacts Proofs.Throttle.
From Coq Require Import Lia ZifyBool.

Lemma dops_for_cons p k gs e es :
  dops_for p k gs (e :: es) = if dfor_key p k e then dev_op gs e :: dops_for p k gs es else dops_for p k gs es.
Proof. unfold dops_for. cbn [filter]. destruct (dfor_key p k e); reflexivity. Qed.

Lemma dkey_rule_cons p k e es :
  dkey_rule p k (e :: es) = if dfor_key p k e then dev_rule p e else dkey_rule p k es.
Proof. unfold dkey_rule. cbn [filter]. destruct (dfor_key p k e); reflexivity. Qed.

(* what the theorem says of key k when its limiter, if it has one already, is x *)
Definition dkeyed (p : dpcfg) (k : bytes) (x : option (cfg * groups * lim)) (es : list dev) (ds : list bool) : Prop :=
  match x with
  | Some (c, gs, l) => pick (dfor_key p k) es ds = fst (lrun c l (dops_for p k gs es))
  | None =>
      match dkey_rule p k es with
      | Some (r, gs) => pick (dfor_key p k) es ds =
                        fst (lrun (spec_cfg p r gs) (lim0 (spec_cfg p r gs)) (dops_for p k gs es))
      | None => pick (dfor_key p k) es ds = []
      end
  end.

Lemma dkeyed_skip p k x e es b bs :
  dfor_key p k e = false -> dkeyed p k x es bs -> dkeyed p k x (e :: es) (b :: bs).
Proof.
  intros Hfk H. unfold dkeyed in *. cbn [pick]. rewrite dkey_rule_cons, Hfk.
  destruct x as [[[c gs] l]|]; [rewrite dops_for_cons, Hfk; exact H|].
  destruct (dkey_rule p k es) as [[r gs]|]; [rewrite dops_for_cons, Hfk|]; exact H.
Qed.

Lemma dkeyed_hit p k x e es b bs r gs0 c gs l l' :
  dfor_key p k e = true -> dev_rule p e = Some (r, gs0) ->
  match x with Some y => y | None => (spec_cfg p r gs0, gs0, lim0 (spec_cfg p r gs0)) end = (c, gs, l) ->
  allow c l (v_now e) (v_ts e) (v_size e) (dv_slot gs (v_dv e)) = Ok (l', b) ->
  dkeyed p k (Some (c, gs, l')) es bs -> dkeyed p k x (e :: es) (b :: bs).
Proof.
  intros Hfk Hru Hfind Hal H. unfold dkeyed in *. cbn [pick]. rewrite dkey_rule_cons, Hfk, Hru.
  destruct x as [[[c0 g0] l0]|]; injection Hfind as -> -> ->;
    rewrite dops_for_cons, Hfk, (lrun_cons _ _ (dev_op gs e) _ _ _ Hal), H; reflexivity.
Qed.

Lemma rule_keys_independent_gen p k : forall es m ds m',
  drun p m es = (ds, Ok m') -> dkeyed p k (a_get m k) es ds.
Proof.
  induction es as [|e es IH]; intros m ds m' Hrun; cbn [drun] in Hrun.
  - injection Hrun as <- _. unfold dkeyed. destruct (a_get m k) as [[[c gs] l]|]; reflexivity.
  - unfold dstep in Hrun.
    destruct (first_match2 (w_rules p) 0 (v_fields e)) as [[[n r] gs0]|] eqn:Efm.
    + set (k' := lim_key n (throttle_key (v_fields e))) in *.
      assert (Hfk : dfor_key p k e = bytes_eqb k' k) by (unfold dfor_key, dev_key; rewrite Efm; reflexivity).
      assert (Hru : dev_rule p e = Some (r, gs0)) by (unfold dev_rule; rewrite Efm; reflexivity).
      destruct (dm_find p m k' r gs0) as [[c gs] l] eqn:Efind.
      destruct (allow c l (o_now (dev_op gs e)) (o_ts (dev_op gs e)) (o_size (dev_op gs e)) (o_dv (dev_op gs e)))
        as [[l' b]| |] eqn:Eal; cbn [bind] in Hrun; try discriminate Hrun.
      destruct (drun p (a_set m k' (c, gs, l')) es) as [bs fin] eqn:Erest.
      injection Hrun as <- ->. specialize (IH _ _ _ Erest). rewrite a_get_set in IH.
      destruct (bytes_eqb k' k) eqn:Ek.
      * apply bytes_eqb_eq in Ek. subst k. exact (dkeyed_hit p k' _ e es b bs r gs0 c gs l l' Hfk Hru Efind Eal IH).
      * exact (dkeyed_skip p k _ e es b bs Hfk IH).
    + destruct (drun p m es) as [bs fin] eqn:Erest. injection Hrun as <- ->.
      apply dkeyed_skip; [unfold dfor_key, dev_key; rewrite Efm; reflexivity|exact (IH _ _ _ Erest)].
Qed.

(* keys never share a budget, and a key's limiter has the configuration of the rule its first event matched *)
Theorem rule_keys_independent p es ds m' k :
  drun p [] es = (ds, Ok m') ->
  match dkey_rule p k es with
  | Some (r, gs) => pick (dfor_key p k) es ds =
                    fst (lrun (spec_cfg p r gs) (lim0 (spec_cfg p r gs)) (dops_for p k gs es))
  | None => pick (dfor_key p k) es ds = []
  end.
Proof. intros H. exact (rule_keys_independent_gen p k es [] ds m' H). Qed.

Lemma group_idx_range : forall gs id i j, group_idx gs id i = Some j -> i <= j < i + len gs.
Proof.
  induction gs as [|[q ids] gs IH]; intros id i j H; cbn [group_idx] in H; [discriminate|].
  unfold len in *. cbn [length]. destruct (zmem id ids).
  - injection H as <-. lia.
  - apply IH in H. lia.
Qed.

Lemma spec_shares_len lm gs : len (spec_shares lm gs) = len gs.
Proof. unfold spec_shares. rewrite !len_map. reflexivity. Qed.

Lemma dops_well_timed p r gs k es :
  forallb (d_timed p) es = true -> well_timed (spec_cfg p r gs) (dops_for p k gs es) = true.
Proof.
  intros Ht. unfold well_timed, dops_for. rewrite forallb_forall in *. intros o Ho.
  apply in_map_iff in Ho. destruct Ho as [e [<- He]]. apply filter_In in He. destruct He as [He _].
  specialize (Ht e He). unfold d_timed in Ht. apply andb_true_intro. split.
  - unfold timed, dev_op, spec_cfg. cbn [count interval o_now]. exact Ht.
  - unfold dv_ok, dev_op. cbn [o_dv]. unfold dv_slot. destruct (v_dv e) as [id|]; [|reflexivity].
    destruct (group_idx gs id 0) as [j|] eqn:Eg; [|reflexivity].
    apply group_idx_range in Eg. unfold spec_cfg. cbn [shares]. rewrite spec_shares_len. lia.
Qed.

(* the decisions of a key in a whole-plugin trace = the reference semantics on that key's events alone, with the limit
   and the SPECIFIED shares of the rule its first event matched — this is the predicate c16_pred11 of the check *)
Theorem rule_key_decisions p es ds m' k r gs :
  drun p [] es = (ds, Ok m') -> dkey_rule p k es = Some (r, gs) ->
  1 <= w_count p -> 1 <= w_interval p -> forallb (d_timed p) es = true ->
  pick (dfor_key p k) es ds = snd (s_run (spec_cfg p r gs) spec0 (dops_for p k gs es)).
Proof.
  intros Hrun Hk Hc Hi Ht. pose proof (rule_keys_independent p es ds m' k Hrun) as H. rewrite Hk in H.
  assert (Hwf : wf_cfg (spec_cfg p r gs) = true) by (unfold wf_cfg, spec_cfg; cbn [count interval]; lia).
  destruct (ring_refines_map _ _ Hwf (dops_well_timed p r gs k es Ht)) as [l [Hl _]].
  rewrite H, Hl. reflexivity.
Qed.

(* rounding half up moves a share by at most 1/2; Z.div is the floor, so the sign of q * lm does not matter *)
Lemma share_of_near lm q : -50 < 100 * share_of lm q - q * lm <= 50.
Proof.
  unfold share_of, round_div. generalize (q * lm). intros a.
  pose proof (Z.div_mod (2 * a + 100) (2 * 100) ltac:(lia)) as Hd.
  pose proof (Z.mod_pos_bound (2 * a + 100) (2 * 100) ltac:(lia)) as Hm. lia.
Qed.

Lemma share_of_nonneg lm q : 0 <= lm -> 0 <= q -> 0 <= share_of lm q.
Proof. intros Hl Hq. pose proof (share_of_near lm q). nia. Qed.

Lemma share_of_exact lm q : (q * lm) mod 100 = 0 -> 100 * share_of lm q = q * lm.
Proof.
  unfold share_of, round_div. generalize (q * lm). intros a Hm.
  pose proof (Z.div_mod a 100 ltac:(lia)) as Hd. rewrite Hm in Hd.
  replace (2 * a + 100) with ((a / 100) * (2 * 100) + 100) by lia.
  rewrite Z.div_add_l by lia. rewrite (Z.div_small 100 (2 * 100)) by lia. lia.
Qed.

Lemma shares_sum_near lm qs : 100 * sumZ (map (share_of lm) qs) <= lm * sumZ qs + 50 * len qs.
Proof.
  induction qs as [|q qs IH]; unfold len in *; cbn [map length]; [cbn; lia|].
  rewrite !sumZ_cons. pose proof (share_of_near lm q). lia.
Qed.

Lemma shares_sum_exact lm qs :
  Forall (fun q => (q * lm) mod 100 = 0) qs -> 100 * sumZ (map (share_of lm) qs) = lm * sumZ qs.
Proof.
  induction 1 as [|q qs He _ IH]; cbn [map]; [cbn; lia|].
  rewrite !sumZ_cons. pose proof (share_of_exact lm q He). lia.
Qed.

Lemma groups_wf_pcts : forall gs seen, groups_wf seen gs = true -> Forall (fun q => 0 <= q) (map fst gs).
Proof.
  induction gs as [|[q ids] gs IH]; intros seen H; cbn [map]; [constructor|].
  cbn [groups_wf] in H. destruct (nodup_ids seen ids) as [s|]; [|rewrite andb_false_r in H; discriminate].
  apply andb_prop in H. destruct H as [H1 H2]. constructor; [cbn [fst]; lia|]. exact (IH s H2).
Qed.

Lemma Forall_nonneg_nth (l : list Z) n : Forall (fun x => 0 <= x) l -> 0 <= nth n l 0.
Proof.
  intros H. destruct (nth_in_or_default n l 0) as [Hin| ->]; [|lia]. rewrite Forall_forall in H. exact (H _ Hin).
Qed.

Lemma Forall_nonneg_max (l : list Z) : Forall (fun x => 0 <= x) l -> map (Z.max 0) l = l.
Proof. induction 1 as [|x l Hx _ IH]; cbn [map]; [reflexivity|]. rewrite IH. f_equal. lia. Qed.

(* distr_shares when no share is negative: the bounds are the shares themselves *)
Lemma distr_shares_nonneg c ops :
  wf_cfg c = true -> well_timed c ops = true -> 0 <= limit c -> shares c <> [] ->
  0 <= deflimit c -> Forall (fun x => 0 <= x) (shares c) -> Forall (fun o => 0 <= o_size o) ops ->
  (forall id slot, passed_size (hist_of c ops) id slot <= cell_limit c slot) /\
  (forall id, passed_size_id (hist_of c ops) id <= deflimit c + sumZ (shares c)) /\
  hist_attr c (rev ops) (hist_of c ops).
Proof.
  intros Hwf Hw Hl Hne Hd Hsh Hs. destruct (distr_shares c ops Hwf Hw Hl Hne Hs) as (H1 & H2 & H3).
  rewrite (Forall_nonneg_max _ Hsh), Z.max_r in H2 by exact Hd.
  split; [|split; [exact H2|exact H3]]. intros id slot. rewrite <- (Z.max_r 0 (cell_limit c slot)); [apply H1|].
  unfold cell_limit. destruct (shares c); [congruence|]. destruct (slot =? 0); [exact Hd|].
  apply Forall_nonneg_nth. exact Hsh.
Qed.

Section SpecShares.
  Variables (p : dpcfg) (r : rule) (gs : groups).
  Hypothesis Hlim : 0 <= r_limit r.
  Hypothesis Hgs : groups_ok gs = true.
  Hypothesis Hne : gs <> [].
  Let c := spec_cfg p r gs.
  Let qs := (100 - gsum gs) :: map fst gs.

  Lemma qs_sum : sumZ qs = 100.
  Proof. unfold qs, gsum. rewrite sumZ_cons. lia. Qed.

  Lemma spec_all_shares : deflimit c :: shares c = map (share_of (r_limit r)) qs.
  Proof.
    unfold c, spec_cfg, qs. cbn [deflimit shares map]. unfold spec_deflimit, spec_shares.
    destruct gs; [contradiction|reflexivity].
  Qed.

  Lemma spec_shares_nonneg : 0 <= deflimit c /\ Forall (fun x => 0 <= x) (shares c).
  Proof.
    pose proof spec_all_shares as Ha.
    assert (Hq : Forall (fun q => 0 <= q) qs).
    { unfold groups_ok in Hgs. apply andb_prop in Hgs. destruct Hgs as [H1 H2].
      constructor; [lia|]. exact (groups_wf_pcts gs [] H1). }
    assert (H : Forall (fun x => 0 <= x) (deflimit c :: shares c)).
    { rewrite Ha. apply Forall_forall. intros x Hx. apply in_map_iff in Hx. destruct Hx as [q [<- Hin]].
      apply share_of_nonneg; [exact Hlim|]. rewrite Forall_forall in Hq. exact (Hq q Hin). }
    inversion H; subst. split; assumption.
  Qed.

  Lemma spec_shares_ne : shares c <> [].
  Proof. unfold c, spec_cfg, spec_shares. cbn [shares]. destruct gs; [contradiction|discriminate]. Qed.

  Lemma spec_shares_sum_near :
    100 * (deflimit c + sumZ (shares c)) <= 100 * r_limit r + 50 * (len gs + 1).
  Proof.
    pose proof (shares_sum_near (r_limit r) qs) as H. rewrite <- spec_all_shares, qs_sum in H.
    rewrite sumZ_cons in H.
    replace (len qs) with (len gs + 1) in H by (unfold qs, len; cbn [length]; rewrite map_length; lia). lia.
  Qed.

  Lemma spec_shares_sum_exact :
    Forall (fun q => (q * r_limit r) mod 100 = 0) qs -> deflimit c + sumZ (shares c) = r_limit r.
  Proof.
    intros He. pose proof (shares_sum_exact (r_limit r) qs He) as H.
    rewrite <- spec_all_shares, qs_sum, sumZ_cons in H. lia.
  Qed.

  (* what a key gets through per bucket under a rule with its own distribution: every slot within the SPECIFIED share
     of that rule, the total within the rule's limit + 1/2 per share (within the limit itself without rounding) *)
  Theorem rule_distr_shares ops :
    1 <= w_count p -> 1 <= w_interval p -> well_timed c ops = true ->
    Forall (fun o => 0 <= o_size o) ops ->
    (forall id slot, passed_size (hist_of c ops) id slot <= cell_limit c slot) /\
    (forall id, passed_size_id (hist_of c ops) id <= deflimit c + sumZ (shares c)) /\
    (forall id, 100 * passed_size_id (hist_of c ops) id <= 100 * r_limit r + 50 * (len gs + 1)) /\
    (Forall (fun q => (q * r_limit r) mod 100 = 0) qs ->
     forall id, passed_size_id (hist_of c ops) id <= r_limit r) /\
    hist_attr c (rev ops) (hist_of c ops).
  Proof.
    intros Hc Hi Hw Hs.
    assert (Hwf : wf_cfg c = true) by (unfold wf_cfg, c, spec_cfg; cbn [count interval]; lia).
    destruct spec_shares_nonneg as [Hd Hsh].
    destruct (distr_shares_nonneg c ops Hwf Hw Hlim spec_shares_ne Hd Hsh Hs) as (H1 & H2 & H3).
    split; [exact H1|]. split; [exact H2|]. split; [|split; [|exact H3]].
    - intros id. apply (Z.le_trans _ (100 * (deflimit c + sumZ (shares c)))); [|exact spec_shares_sum_near].
      apply Z.mul_le_mono_nonneg_l; [lia|apply H2].
    - intros He id. rewrite <- (spec_shares_sum_exact He). apply H2.
  Qed.
End SpecShares.

(* the rounding is real: limit 1 split 50 % / 50 % gives two shares of 1 (0.5 rounds half up) and a default share of 0,
   so one key passes 2 events in one bucket against the rule's limit of 1.  (This is the rounding of the LISTED shares;
   the rounding of the default ratio to a whole percent — finding C16-default-share-rounding — needs ratios finer than
   a percent and is a different matter.) *)
Definition p_round : dpcfg := {| w_count := 2; w_interval := 10; w_rules := [] |}.
Definition r_round : rule := {| r_conds := []; r_limit := 1; r_size := false |}.
Definition gs_round : groups := [(50, [0]); (50, [1])].
Lemma rule_shares_limit_refuted :
  let c := spec_cfg p_round r_round gs_round in
  let ops := [ {| o_now := 20; o_ts := 20; o_size := 1; o_dv := Some 0 |};
               {| o_now := 20; o_ts := 20; o_size := 1; o_dv := Some 1 |} ] in
  groups_ok gs_round = true /\ wf_cfg c = true /\ well_timed c ops = true /\
  deflimit c :: shares c = [0; 1; 1] /\
  snd (s_run c spec0 ops) = [true; true] /\ passed_size_id (hist_of c ops) 2 = 2 /\ r_limit r_round = 1.
Proof. vm_compute. repeat split. Qed.

(* non-vacuity of rule_key_decisions / rule_distr_shares: a rule with limit 10 split 40 % / 30 % (default 30 %) next to
   a default rule with limit 5000: the key of the rule passes 4 + 3 + 3 events, whatever default_limit is *)
Definition ru10 : rule := {| r_conds := [([97%N], [120%N])]; r_limit := 10; r_size := false |}.
Definition gs10 : groups := [(40, [0]); (30, [1])].
Definition p10 : dpcfg :=
  {| w_count := 2; w_interval := 10;
     w_rules := [(ru10, gs10); ({| r_conds := []; r_limit := 5000; r_size := false |}, [])] |}.
Definition ev10 (dv : option Z) : dev :=
  {| v_now := 20; v_ts := 20; v_size := 1; v_dv := dv; v_fields := [([97%N], [120%N])] |}.
Lemma rule_distr_nonvacuous :
  let es := repeat (ev10 (Some 0)) 5 ++ repeat (ev10 (Some 1)) 4 ++ repeat (ev10 None) 5 in
  deflimit (spec_cfg p10 ru10 gs10) :: shares (spec_cfg p10 ru10 gs10) = [3; 4; 3] /\
  forallb (d_timed p10) es = true /\
  fst (drun p10 [] es) = repeat true 4 ++ [false] ++ repeat true 3 ++ [false] ++ repeat true 3 ++ [false; false] /\
  c16_pred11 p10 es (sx_of_drun (drun p10 [] es)) = true.
Proof. vm_compute. repeat split. Qed.
