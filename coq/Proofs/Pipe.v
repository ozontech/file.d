(* Proofs about Model/Pipe.v, the product of the batcher and the per-stream flows.  A product run is a batcher run
   and, for every stream, a flow run ([pipe_proj_batcher], [pipe_proj_flow]); per stream the ordered events the batcher
   added are committed ++ added-queue of the flow and those it committed are the flow's commits ([link]).  Hence, without a
   dead queue in play, guard F2 is redundant (a commit the batcher allows is never refused by the flow:
   committed_prefix_of_added), and the theorems of Proofs/Batcher.v and Proofs/StreamFlow.v hold end to end, of every run of
   the product. *)
From Verif Require Import Base.Sx Model.Batcher Model.Proc Model.StreamFlow Model.Pipe
  Proofs.Batcher Proofs.Proc Proofs.StreamFlow Proofs.StreamFlowTheorems.
From Verif Require Proofs.Lts.
From Coq Require Import Lia ZifyBool Bool List ZArith Sorted Permutation.
Import ListNotations.
Local Open Scope Z_scope.

Lemma gget_gset l s v s' : gget (gset l s v) s' = if s' =? s then Some v else gget l s'.
Proof.
  rewrite (Z.eqb_sym s' s). induction l as [|[k w] r IH]; cbn [gset gget]; [reflexivity|].
  destruct (Z.eqb_spec k s) as [->|Hks]; cbn [gget].
  - destruct (s =? s'); reflexivity.
  - rewrite IH. destruct (Z.eqb_spec s s') as [->|_]; [|reflexivity].
    apply Z.eqb_neq in Hks. rewrite Hks. reflexivity.
Qed.

Lemma gflow_set n b fs s v s' :
  gflow n {| gb := b; gf := gset fs s v |} s' = if s' =? s then v else gflow n {| gb := b; gf := fs |} s'.
Proof. unfold gflow; cbn [gf]. rewrite gget_gset. destruct (s' =? s); reflexivity. Qed.

Lemma gflow_gb n b b' fs s : gflow n {| gb := b; gf := fs |} s = gflow n {| gb := b'; gf := fs |} s.
Proof. reflexivity. Qed.

Lemma gflow_eta n g s : gflow n g s = gflow n {| gb := gb g; gf := gf g |} s.
Proof. reflexivity. Qed.

Lemma grun_lts c n ls g : grun c n g ls = Lts.run (gstep c n) g ls.
Proof. apply Lts.run_unique; reflexivity. Qed.

Lemma grun_invariant c n (P : gst -> Prop) :
  (forall g l g', P g -> gstep c n g l = Some g' -> P g') ->
  forall ls g g', P g -> grun c n g ls = Some g' -> P g'.
Proof. intros Hstep ls g g'. rewrite grun_lts. exact (Lts.run_invariant (gstep c n) P Hstep ls g g'). Qed.

Lemma grun_app c n g a b : grun c n g (a ++ b) = match grun c n g a with Some g' => grun c n g' b | None => None end.
Proof. rewrite !grun_lts, Lts.run_app. destruct (Lts.run (gstep c n) g a); [symmetry; apply grun_lts|reflexivity]. Qed.

Lemma gstep_GP c n g s pl g' : gstep c n g (GP s pl) = Some g' ->
  exists f', fstep (gflow n g s) (FProc pl) = Some f' /\ g' = {| gb := gb g; gf := gset (gf g) s f' |}.
Proof.
  cbn [gstep]. destruct (fstep (gflow n g s) (FProc pl)) as [f'|]; [|discriminate].
  intros [= <-]. exists f'. split; reflexivity.
Qed.

Lemma gstep_GB c n g bl g' : gstep c n g (GB bl) = Some g' ->
  step c (gb g) bl = Some (gb g') /\
  match bl with
  | LAdd e => exists f', fstep (gflow n g (esrc e)) (FAdd (pev_of e)) = Some f' /\ gf g' = gset (gf g) (esrc e) f'
  | LCommitEv e =>
      if Model.StreamFlow.ordered (pev_of e)
      then exists f', fstep (gflow n g (esrc e)) (FCommit (pev_of e)) = Some f' /\ gf g' = gset (gf g) (esrc e) f'
      else gf g' = gf g
  | _ => gf g' = gf g
  end.
Proof.
  cbn [gstep]. destruct (step c (gb g) bl) as [b'|]; [|discriminate].
  destruct bl; try (intros [= <-]; split; reflexivity).
  - destruct (fstep _ (FAdd _)) as [f'|]; [|discriminate]. intros [= <-]. split; [reflexivity|]. exists f'. split; reflexivity.
  - destruct (Model.StreamFlow.ordered (pev_of e)); [|intros [= <-]; split; reflexivity].
    destruct (fstep _ (FCommit _)) as [f'|]; [|discriminate]. intros [= <-]. split; [reflexivity|]. exists f'. split; reflexivity.
Qed.

Fixpoint bproj (ls : list glabel) : list label :=
  match ls with
  | [] => []
  | GB l :: r => l :: bproj r
  | GP _ _ :: r => bproj r
  end.

(* the labels stream s sees *)
Definition slabels (s : Z) (l : glabel) : list flabel :=
  match l with
  | GP s' pl => if s' =? s then [FProc pl] else []
  | GB (LAdd e) => if esrc e =? s then [FAdd (pev_of e)] else []
  | GB (LCommitEv e) => if (esrc e =? s) && Model.StreamFlow.ordered (pev_of e) then [FCommit (pev_of e)] else []
  | GB _ => []
  end.
Definition sproj (s : Z) (ls : list glabel) : list flabel := flat_map (slabels s) ls.

Lemma bproj_flat ls : bproj ls = flat_map (fun l => match l with GB bl => [bl] | GP _ _ => [] end) ls.
Proof. induction ls as [|[] r IH]; cbn [bproj flat_map app]; congruence. Qed.

Lemma bproj_app a b : bproj (a ++ b) = bproj a ++ bproj b.
Proof. rewrite !bproj_flat. apply flat_map_app. Qed.

Lemma sproj_app s a b : sproj s (a ++ b) = sproj s a ++ sproj s b.
Proof. unfold sproj. apply flat_map_app. Qed.

Lemma run_app c s a b : run c s (a ++ b) = match run c s a with Some s' => run c s' b | None => None end.
Proof. exact (Proofs.Batcher.run_app c a s b). Qed.

Lemma frun_one f l f' : frun f [l] = Some f' -> fstep f l = Some f'.
Proof. cbn [frun]. destruct (fstep f l); [exact (fun H => H)|discriminate]. Qed.

(* a step of the flow of stream s, seen from every stream s0 *)
Lemma frun_gset n g g' s l f' s0 : fstep (gflow n g s) l = Some f' -> gf g' = gset (gf g) s f' ->
  frun (gflow n g s0) (if s =? s0 then [l] else []) = Some (gflow n g' s0).
Proof.
  intros H Hg. unfold gflow at 2. rewrite Hg, gget_gset, (Z.eqb_sym s0 s).
  destruct (Z.eqb_spec s s0) as [<-|_]; cbn [frun]; [rewrite H|]; reflexivity.
Qed.

Lemma gstep_flow c n g l g' s : gstep c n g l = Some g' -> frun (gflow n g s) (slabels s l) = Some (gflow n g' s).
Proof.
  intros H. destruct l as [bl|s' pl]; cbn [slabels].
  - destruct (gstep_GB c n g bl g' H) as [_ Hf].
    destruct bl; try (unfold gflow; rewrite Hf; reflexivity).
    + destruct Hf as (f' & Hf & Hg). exact (frun_gset n g g' _ _ f' s Hf Hg).
    + destruct (Model.StreamFlow.ordered (pev_of e)).
      * destruct Hf as (f' & Hf & Hg). rewrite andb_true_r. exact (frun_gset n g g' _ _ f' s Hf Hg).
      * rewrite andb_false_r. unfold gflow. rewrite Hf. reflexivity.
  - destruct (gstep_GP c n g s' pl g' H) as (f' & Hf & ->). apply (frun_gset n g _ _ _ f' s Hf). reflexivity.
Qed.

Lemma pipe_proj_batcher_from c n ls : forall g g', grun c n g ls = Some g' -> run c (gb g) (bproj ls) = Some (gb g').
Proof.
  intros g g'. rewrite grun_lts, run_lts, bproj_flat. apply (Lts.run_sim (gstep c n) (step c) gb).
  intros a l a' E. destruct l; cbn [Lts.run].
  - rewrite (proj1 (gstep_GB c n a _ a' E)). reflexivity.
  - destruct (gstep_GP c n a _ _ a' E) as (f' & _ & ->). reflexivity.
Qed.

Theorem pipe_proj_batcher c n ls g : grun c n (ginit c) ls = Some g -> run c (init c) (bproj ls) = Some (gb g).
Proof. intros H. exact (pipe_proj_batcher_from c n ls _ _ H). Qed.

Lemma pipe_proj_flow_from c n s ls : forall g g', grun c n g ls = Some g' -> frun (gflow n g s) (sproj s ls) = Some (gflow n g' s).
Proof.
  intros g g'. rewrite grun_lts.
  exact (Lts.run_sim (gstep c n) fstep (fun g => gflow n g s) (slabels s) (fun a l a' => gstep_flow c n a l a' s) ls g g').
Qed.

Theorem pipe_proj_flow c n ls g s : grun c n (ginit c) ls = Some g -> frun (finit n false) (sproj s ls) = Some (gflow n g s).
Proof. intros H. exact (pipe_proj_flow_from c n s ls _ _ H). Qed.

(* [esrc e] is the id of the event's stream, the key of the flows in Model/Pipe.v; [sel s] of a batcher history is what
   [flink] below calls A or C *)
Definition of_stream (s : Z) (e : Model.Batcher.ev) : bool := (esrc e =? s) && Model.StreamFlow.ordered (pev_of e).
Definition sel (s : Z) (l : list Model.Batcher.ev) : list Z := map eid (filter (of_stream s) l).

Lemma sel_app s a b : sel s (a ++ b) = sel s a ++ sel s b.
Proof. unfold sel. rewrite filter_app, map_app. reflexivity. Qed.

Lemma sel_snoc s l e : sel s (l ++ [e]) = sel s l ++ (if of_stream s e then [eid e] else []).
Proof. rewrite sel_app. unfold sel at 2. cbn [filter]. destruct (of_stream s e); reflexivity. Qed.

(* the history variables of the batcher move only on Add and Commit *)
Lemma step_histories c b l b' : step c b l = Some b' ->
  added b' = match l with LAdd e => e :: added b | _ => added b end /\
  committed b' = match l with LCommitEv e => e :: committed b | _ => committed b end.
Proof. intros H. apply step_Step in H. destruct H; split; reflexivity. Qed.

Lemma fstep_FProc_queues f pl f' : fstep f (FProc pl) = Some f' ->
  addq f' = addq f /\ commits f' = commits f /\ sync_out f' = sync_out f.
Proof. cbn [fstep]. destruct (pstep (proc f) pl); [|discriminate]. intros [= <-]. auto. Qed.

Lemma fstep_FAdd f e f' : sync_out f = false -> fstep f (FAdd e) = Some f' ->
  sync_out f' = false /\ commits f' = commits f /\
  if Model.StreamFlow.ordered e then exists x, addq f' = addq f ++ [x] /\ pseq x = pseq e else addq f' = addq f.
Proof.
  intros Hs. cbn [fstep]. destruct (Model.StreamFlow.ordered e); cbn [negb]; [|intros [= <-]; auto].
  rewrite Hs. intros H. apply pop_head in H as (x & r & _ & Hx & ->). cbn. eauto.
Qed.

(* what [link] says of the flow f of one stream s: A and C are the sequence numbers of the ordered events of s that
   the batcher added and committed, oldest first *)
Definition flink (f : fst_) (A C : list Z) : Prop :=
  sync_out f = false /\ A = map pseq (rev (commits f) ++ addq f) /\ C = map pseq (rev (commits f)).

Lemma flink_proc f pl f' A C : flink f A C -> fstep f (FProc pl) = Some f' -> flink f' A C.
Proof. intros L H. destruct (fstep_FProc_queues f pl f' H) as (Ha & Hc & Hs). unfold flink. rewrite Ha, Hc, Hs. exact L. Qed.

Lemma flink_add f e f' A C : flink f A C -> fstep f (FAdd e) = Some f' ->
  flink f' (A ++ if Model.StreamFlow.ordered e then [pseq e] else []) C.
Proof.
  intros (Hs & -> & ->) H. destruct (fstep_FAdd f e f' Hs H) as (Hs' & Hc & Ha). unfold flink. rewrite Hc.
  split; [exact Hs'|]. split; [|reflexivity]. destruct (Model.StreamFlow.ordered e).
  - destruct Ha as (x & -> & <-). rewrite app_assoc. symmetry. apply map_app.
  - rewrite Ha. apply app_nil_r.
Qed.

Lemma fstep_FCommit_eq f e f' : sync_out f = false -> fstep f (FCommit e) = Some f' ->
  exists x r, addq f = x :: r /\ pseq x = pseq e /\
    f' = {| proc := proc f; outq := outq f; addq := r; commits := x :: commits f; sync_out := sync_out f |}.
Proof.
  intros Hs. cbn [fstep]. rewrite Hs. apply pop_head.
Qed.

Lemma fstep_FCommit f e f' : sync_out f = false -> fstep f (FCommit e) = Some f' ->
  sync_out f' = false /\ exists x r, addq f = x :: r /\ pseq x = pseq e /\ addq f' = r /\ commits f' = x :: commits f.
Proof.
  intros Hs H. destruct (fstep_FCommit_eq f e f' Hs H) as (x & r & Hq & Hx & ->). split; [exact Hs|]. exists x, r. auto.
Qed.

Lemma fstep_FCommit_enabled f e x r : sync_out f = false -> addq f = x :: r -> pseq x = pseq e ->
  exists f', fstep f (FCommit e) = Some f'.
Proof.
  intros Hs Ha Hx. cbn [fstep]. rewrite Hs, Ha, Hx, Z.eqb_refl. eexists; reflexivity.
Qed.

Lemma flink_commit f e f' A C : flink f A C -> fstep f (FCommit e) = Some f' -> flink f' A (C ++ [pseq e]).
Proof.
  intros (Hs & -> & ->) H. destruct (fstep_FCommit f e f' Hs H) as (Hs' & x & r & Hq & <- & Ha & Hc).
  unfold flink. rewrite Ha, Hc, Hq. cbn [rev]. rewrite <- app_assoc.
  split; [exact Hs'|]. split; [reflexivity|]. symmetry. apply map_app.
Qed.

(* guard F2 never refuses: if what was added continues what was committed with x, the oldest event added and
   not yet committed carries x *)
Lemma flink_commit_enabled f A C e rest : flink f A C -> A = C ++ pseq e :: rest ->
  exists f', fstep f (FCommit e) = Some f'.
Proof.
  intros (Hs & -> & ->) H. rewrite map_app in H. apply app_inv_head in H.
  destruct (addq f) as [|x q] eqn:Hq; [discriminate|]. injection H as Hx _.
  exact (fstep_FCommit_enabled f e x q Hs Hq Hx).
Qed.

Lemma flink_caught_up f A : flink f A A -> addq f = [].
Proof.
  intros (_ & -> & H). rewrite map_app, <- app_nil_r in H. apply app_inv_head in H.
  destruct (addq f); [reflexivity|discriminate].
Qed.

Definition link (n : Z) (g : gst) : Prop :=
  forall s,
    sync_out (gflow n g s) = false /\
    sel s (rev (added (gb g))) = map pseq (rev (commits (gflow n g s)) ++ addq (gflow n g s)) /\
    sel s (rev (committed (gb g))) = map pseq (rev (commits (gflow n g s))).

Lemma link_init c n : link n (ginit c).
Proof. intros s. unfold gflow; cbn. auto. Qed.

Lemma link_step c n g l g' : link n g -> gstep c n g l = Some g' -> link n g'.
Proof.
  intros L H s. specialize (L s). pose proof (gstep_flow c n g l g' s H) as Hf.
  change (flink (gflow n g' s) (sel s (rev (added (gb g')))) (sel s (rev (committed (gb g'))))).
  destruct l as [bl|s' pl]; cbn [slabels] in Hf.
  - destruct (step_histories c _ _ _ (proj1 (gstep_GB c n g bl g' H))) as [-> ->].
    destruct bl; try (injection Hf as <-; exact L); cbn [rev]; rewrite sel_snoc; unfold of_stream.
    + destruct (esrc e =? s); cbn [andb].
      * exact (flink_add _ _ _ _ _ L (frun_one _ _ _ Hf)).
      * injection Hf as <-. rewrite app_nil_r. exact L.
    + destruct ((esrc e =? s) && _).
      * exact (flink_commit _ _ _ _ _ L (frun_one _ _ _ Hf)).
      * injection Hf as <-. rewrite app_nil_r. exact L.
  - destruct (gstep_GP c n g s' pl g' H) as (f' & _ & ->). cbn [gb].
    destruct (s' =? s); [exact (flink_proc _ _ _ _ _ L (frun_one _ _ _ Hf))|injection Hf as <-; exact L].
Qed.

Theorem pipe_link c n ls g : grun c n (ginit c) ls = Some g -> link n g.
Proof. intros H. exact (grun_invariant c n (link n) (link_step c n) ls _ _ (link_init c n) H). Qed.

Lemma app_prefix_head (a : list Z) x b rest : a ++ [x] ++ rest = a ++ b -> exists r, b = x :: r.
Proof. intros H. apply app_inv_head in H. destruct b as [|y r]; [discriminate|]. injection H as <- _. eexists; reflexivity. Qed.

Theorem pipe_F2_redundant c n ls g e b' :
  (retriable c = false \/ deadq c = false) ->
  grun c n (ginit c) ls = Some g ->
  step c (gb g) (LCommitEv e) = Some b' ->
  exists g', gstep c n g (GB (LCommitEv e)) = Some g'.
Proof.
  intros Hcfg Hrun Hstep. cbn [gstep]. rewrite Hstep.
  destruct (Model.StreamFlow.ordered (pev_of e)) eqn:Ho; [|eexists; reflexivity].
  (* the batcher after the commit is reachable: its committed list is a prefix of its added list (the one use of [Hcfg]) *)
  assert (Hb' : run c (init c) (bproj ls ++ [LCommitEv e]) = Some b').
  { rewrite run_app, (pipe_proj_batcher c n ls g Hrun). cbn [run]. rewrite Hstep. reflexivity. }
  destruct (committed_prefix_of_added c _ _ Hcfg Hb') as [rest Hpre].
  destruct (step_histories c _ _ _ Hstep) as [Had Hcm].
  rewrite Had, Hcm in Hpre. cbn [rev] in Hpre.
  apply (f_equal (sel (esrc e))) in Hpre. rewrite sel_app, sel_snoc in Hpre.
  unfold of_stream in Hpre. rewrite Z.eqb_refl, Ho, <- app_assoc in Hpre.
  destruct (flink_commit_enabled _ _ _ (pev_of e) _ (pipe_link c n ls g Hrun (esrc e)) Hpre) as [f' Hf].
  rewrite Hf. eexists; reflexivity.
Qed.

(* C02: the commits of a stream carry strictly increasing sequence numbers, each event once *)
Theorem pipe_commits_increasing c n ls g s : grun c n (ginit c) ls = Some g ->
  StronglySorted Z.lt (map pseq (rev (commits (gflow n g s)))).
Proof. intros H. exact (flow_commits_increasing n false _ _ (pipe_proj_flow c n ls g s H)). Qed.

Theorem pipe_commits_nodup c n ls g s : grun c n (ginit c) ls = Some g ->
  NoDup (map pseq (commits (gflow n g s))).
Proof. intros H. exact (flow_commits_nodup n false _ _ (pipe_proj_flow c n ls g s H)). Qed.

(* ... and they are exactly what the batcher committed for that stream *)
Theorem pipe_commits_are_batcher_commits c n ls g s : grun c n (ginit c) ls = Some g ->
  map eid (filter (of_stream s) (rev (committed (gb g)))) = map pseq (rev (commits (gflow n g s))).
Proof. intros H. exact (proj2 (proj2 (pipe_link c n ls g H s))). Qed.

(* C01, acknowledgement: when the batcher commits an event, the event belongs to the batch inside
   its commit section, and if that batch has anything to deliver its OutFn has returned *)
Theorem pipe_commit_acked c n ls g e g' : grun c n (ginit c) ls = Some g ->
  gstep c n g (GB (LCommitEv e)) = Some g' ->
  exists b, committing_bat (flight (gb g)) = Some b /\ In e (bevs b) /\
            In (bseq b) (commit_batches (gb g)) /\
            (has_iter (bevs b) = true -> In (bseq b) (sent_hist (gb g))).
Proof.
  intros Hrun Hstep. apply gstep_GB in Hstep as [Hs _].
  pose proof (pipe_proj_batcher _ _ _ _ Hrun) as Hb.
  destruct (commit_event_acknowledged c _ _ e _ Hb Hs) as (b & k & Hcb & _ & Hn & _).
  exists b. split; [exact Hcb|]. split; [exact (nth_error_In _ _ Hn)|].
  apply committing_bat_Some in Hcb as [Hin Hcm]. pose proof (wf_reach _ _ _ Hb) as Hwf. split.
  - (* the batch inside the commit section has sequence number commitSeq - 1, and the commit sections started
       so far are those of 0 .. commitSeq - 1 *)
    pose proof (commit_in_seq_order c _ _ Hb) as [_ Hrev].
    pose proof (wf_cmt _ _ Hwf b Hin Hcm) as Hlo. pose proof (wf_lo _ _ Hwf) as Hlo0.
    unfold lo_seq in Hlo, Hlo0. rewrite (existsb_committing_true _ _ Hin Hcm) in Hlo, Hlo0.
    apply in_rev. rewrite Hrev. apply in_map_iff. exists (Z.to_nat (bseq b)). split; [lia|].
    apply in_seq. lia.
  - intros Hi. apply (proj1 (sent_reach c _ _ Hb)); [exact Hin|]. right. split; assumption.
Qed.

Lemma gstep_commit_flow c n g e g' : gstep c n g (GB (LCommitEv e)) = Some g' ->
  Model.StreamFlow.ordered (pev_of e) = true ->
  fstep (gflow n g (esrc e)) (FCommit (pev_of e)) = Some (gflow n g' (esrc e)).
Proof.
  intros H Ho. apply frun_one. rewrite <- (gstep_flow c n g _ g' (esrc e) H). cbn [slabels].
  rewrite Z.eqb_refl, Ho. reflexivity.
Qed.

(* C01, frontier: when the batcher commits an (ordered) event of stream s, every event of s taken
   from the stream before it — smaller sequence number — is committed or was dropped by an action *)
Theorem pipe_frontier c n ls g e g' : grun c n (ginit c) ls = Some g ->
  gstep c n g (GB (LCommitEv e)) = Some g' -> Model.StreamFlow.ordered (pev_of e) = true ->
  let f' := gflow n g' (esrc e) in
  exists x, commits f' = x :: commits (gflow n g (esrc e)) /\ pseq x = eid e /\
    forall y, In y (ftaken (sproj (esrc e) ls)) -> pseq y < eid e ->
      In y (commits f') \/ In y (dropped (proc f')).
Proof.
  intros Hrun Hstep Ho f'.
  destruct (frontier n false _ _ _ _ (pipe_proj_flow c n ls g (esrc e) Hrun) (gstep_commit_flow c n g e g' Hstep Ho))
    as (x & Hc & Hx & Hall).
  rewrite Hx in Hall. exists x. split; [exact Hc|]. split; [exact Hx|exact Hall].
Qed.

(* ... and none of them is still anywhere in the pipeline *)
Theorem pipe_frontier_not_pending c n ls g e g' : grun c n (ginit c) ls = Some g ->
  gstep c n g (GB (LCommitEv e)) = Some g' -> Model.StreamFlow.ordered (pev_of e) = true ->
  let f' := gflow n g' (esrc e) in
  forall y, In y (ftaken (sproj (esrc e) ls)) -> pseq y < eid e ->
    ~ In y (addq f' ++ outq f' ++ map snd (held (proc f')) ++ map fev (stack (proc f'))).
Proof.
  intros Hrun Hstep Ho f'.
  destruct (flow_frontier_not_pending n false _ _ _ _ (pipe_proj_flow c n ls g (esrc e) Hrun) (gstep_commit_flow c n g e g' Hstep Ho))
    as (x & _ & Hx & Hall).
  rewrite Hx in Hall. exact Hall.
Qed.

(* C02, conservation per stream *)
Theorem pipe_conservation c n ls g s : grun c n (ginit c) ls = Some g ->
  let f := gflow n g s in
  Permutation
    (filter ordered (commits f ++ addq f ++ outq f ++ dropped (proc f) ++ map snd (held (proc f)) ++ map fev (stack (proc f))))
    (ftaken (sproj s ls)) /\
  NoDup (ftaken (sproj s ls)).
Proof. intros H f. exact (flow_conservation n false _ _ (pipe_proj_flow c n ls g s H)). Qed.

(* C02, quiescence: nothing in the processor, nothing waiting for the output, and the batcher has
   committed everything it was given — every taken event of the stream was committed once or dropped *)
Theorem pipe_quiescent c n ls g s : grun c n (ginit c) ls = Some g ->
  let f := gflow n g s in
  stack (proc f) = [] -> held (proc f) = [] -> outq f = [] ->
  rev (committed (gb g)) = rev (added (gb g)) ->
  Permutation (commits f ++ filter ordered (dropped (proc f))) (ftaken (sproj s ls)).
Proof.
  intros H f Hst Hh Ho Hb. pose proof (pipe_link c n ls g H s) as L. rewrite Hb in L.
  exact (flow_quiescent_all_accounted n false _ _ (pipe_proj_flow c n ls g s H) Hst Hh Ho (flink_caught_up _ _ L)).
Qed.

(* the input plugin is notified of a prefix of the flow's commits, in that order (the replay of every real trace checks
   exactly this: the k-th InputPlugin.Commit of a stream carries the k-th commit of its flow): the notifications of a
   stream are strictly increasing and never repeat *)
Theorem pipe_input_commits_increasing c n ls g s ics rest : grun c n (ginit c) ls = Some g ->
  map pseq (rev (commits (gflow n g s))) = ics ++ rest ->
  StronglySorted Z.lt ics /\ NoDup ics.
Proof.
  intros H Hp. pose proof (pipe_commits_increasing c n ls g s H) as Hs. rewrite Hp in Hs.
  apply sorted_app_l in Hs. split; [exact Hs|apply sorted_nodup; exact Hs].
Qed.

(* non-vacuity: two streams through one batcher (2 workers, batches of 2); stream 0 holds its first
   event and flushes it with the second; the batch holds events of both streams                   *)
Definition nv_c : cfg :=
  {| workers := 2; maxCount := 2; maxBytes := 0; retriable := false; retry := 0; deadq := false; atomic_push := true |}.
Definition bev (id src : Z) : Model.Batcher.ev := {| eid := id; esrc := src; esize := 5; ekind := 0 |}.
Definition nv_run : list glabel :=
  [ GP 0 (PTake (ev 1 0) 0); GP 0 (PDo (ev 1 0) 0 false); GP 0 (PResult (ev 1 0) 0 RHold);
    GP 1 (PTake (ev 1 0) 0); GP 1 (PDo (ev 1 0) 0 false); GP 1 (PResult (ev 1 0) 0 RPass); GP 1 (POut (ev 1 0));
    GB LFree; GB (LAdd (bev 1 1)); GB (LNotReady 1 5 0 100);
    GP 0 (PTake (ev 2 0) 0); GP 0 (PDo (ev 2 0) 0 true); GP 0 (PPropagate (ev 1 0) 1); GP 0 (POut (ev 1 0));
    GB (LAdd (bev 1 0)); GB (LSeal 0 2 1 10); GB (LPush 0);
    GP 0 (PResult (ev 2 0) 0 RPass); GP 0 (POut (ev 2 0));
    GB LFree; GB (LAdd (bev 2 0)); GB (LNotReady 1 5 0 100);
    GB (LTake 0); GB (LOutBegin 0 2); GB (LOutSaw 0 [1; 1]); GB (LOutEnd 0 2 1);
    GB (LCommitBegin 0 2); GB (LCommitEv (bev 1 1)); GB (LCommitEv (bev 1 0)) ].

(* The state a run of the example ends in.  Given as witness in place of the evaluated state, it keeps the states
   out of the goals: every clause is small and is evaluated on its own. *)
Definition nv_at (ls : list glabel) : gst :=
  match grun nv_c 1 (ginit nv_c) ls with Some g => g | None => ginit nv_c end.

Example pipe_nonvacuous :
  exists g, grun nv_c 1 (ginit nv_c) nv_run = Some g /\
    rev (committed (gb g)) = [bev 1 1; bev 1 0] /\
    commits (gflow 1 g 0) = [ev 1 0] /\ addq (gflow 1 g 0) = [ev 2 0] /\ commits (gflow 1 g 1) = [ev 1 0] /\
    ftaken (sproj 0 nv_run) = [ev 1 0; ev 2 0] /\
    (* the batcher itself refuses to commit the event of the next batch now *)
    gstep nv_c 1 g (GB (LCommitEv (bev 2 0))) = None.
Proof.
  exists (nv_at nv_run). split; [vm_compute; reflexivity|].
  do 5 (split; [vm_compute; reflexivity|]). vm_compute. reflexivity.
Qed.
