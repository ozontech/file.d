(* Facts about plain lists that the standard library lacks, and the two tactics every transition-system
   proof starts with: [bnorm] turns the boolean guards of a step function into propositions, [step_split]
   opens a step function along the branch that returned [Some].  By subject: [firstn] / [skipn] against [++];
   [filter]; [existsb] / [forallb]; [NoDup] and [rev]; [nth_error] / [combine]; [StronglySorted] over [++] and
   under [insert] (Section Insert: insertion before the first element that [before] says comes later, which
   the models write out for several orders); and a fold that keeps the lower of two numbers (Section FoldPick). *)
From Coq Require Import List ZArith Bool Lia Permutation Sorted.
Import ListNotations.

Ltac bnorm :=
  repeat match goal with
  | H : _ && _ = true |- _ => apply andb_true_iff in H; destruct H
  | H : _ || _ = false |- _ => apply orb_false_iff in H; destruct H
  | H : negb _ = true |- _ => apply negb_true_iff in H
  | H : negb _ = false |- _ => apply negb_false_iff in H
  | H : Z.eqb _ _ = true |- _ => apply Z.eqb_eq in H
  | H : Z.eqb _ _ = false |- _ => apply Z.eqb_neq in H
  | H : Z.ltb _ _ = true |- _ => apply Z.ltb_lt in H
  | H : Z.ltb _ _ = false |- _ => apply Z.ltb_ge in H
  | H : Z.leb _ _ = true |- _ => apply Z.leb_le in H
  | H : Z.leb _ _ = false |- _ => apply Z.leb_gt in H
  | H : Bool.eqb _ _ = true |- _ => apply Bool.eqb_prop in H
  | H : true = false |- _ => discriminate H
  | H : false = true |- _ => discriminate H
  end.

Ltac step_split H :=
  repeat match type of H with
  | (if ?c then _ else _) = Some _ => destruct c eqn:?; try discriminate H
  | match ?x with _ => _ end = Some _ => destruct x eqn:?; try discriminate H
  end.

Section Lists.
  Context {A : Type}.
  Implicit Types (l : list A) (f : A -> bool).

  Lemma firstn_plus (a b : nat) l : firstn (a + b) l = firstn a l ++ firstn b (skipn a l).
  Proof.
    revert l. induction a as [|a IH]; intros l; [reflexivity|].
    destruct l as [|x l]; cbn [Nat.add firstn skipn app]; [now rewrite firstn_nil | now rewrite IH].
  Qed.

  Lemma skipn_plus (a b : nat) l : skipn b (skipn a l) = skipn (a + b) l.
  Proof.
    revert l. induction a as [|a IH]; intros l; [reflexivity|].
    destruct l as [|x l]; cbn [Nat.add skipn]; [now rewrite skipn_nil | apply IH].
  Qed.

  Lemma firstn_length_app (a b : list A) : firstn (length a) (a ++ b) = a.
  Proof. rewrite firstn_app, Nat.sub_diag, firstn_all. apply app_nil_r. Qed.

  Lemma skipn_length_app (a b : list A) : skipn (length a) (a ++ b) = b.
  Proof. rewrite skipn_app, Nat.sub_diag, skipn_all. reflexivity. Qed.

  Lemma filter_all f l : (forall x, In x l -> f x = true) -> filter f l = l.
  Proof.
    induction l as [|x r IH]; intros H; [reflexivity|]. cbn [filter].
    rewrite (H x (or_introl eq_refl)), IH; [reflexivity|]. intros y Hy. apply H. now right.
  Qed.

  Lemma filter_rev f l : filter f (rev l) = rev (filter f l).
  Proof.
    induction l as [|x r IH]; [reflexivity|]. cbn [rev filter]. rewrite filter_app, IH. cbn [filter].
    destruct (f x); [reflexivity|apply app_nil_r].
  Qed.

  Lemma filter_perm f l l' : Permutation l l' -> Permutation (filter f l) (filter f l').
  Proof.
    induction 1 as [|x l l' _ IH|x y l|l l' l'' _ IH1 _ IH2]; cbn [filter].
    - constructor.
    - destruct (f x); [now constructor|exact IH].
    - destruct (f x), (f y); try reflexivity. apply perm_swap.
    - now transitivity (filter f l').
  Qed.

  Lemma existsb_filter (p q : A -> bool) l :
    existsb p (filter q l) = existsb (fun c => q c && p c) l.
  Proof.
    induction l as [|x r IH]; cbn [filter existsb]; [reflexivity|].
    destruct (q x); cbn [existsb andb]; rewrite IH; reflexivity.
  Qed.

  Lemma existsb_map {B} (p : B -> bool) (g : A -> B) l :
    existsb p (map g l) = existsb (fun x => p (g x)) l.
  Proof. induction l as [|x r IH]; cbn [map existsb]; [reflexivity|]. rewrite IH. reflexivity. Qed.

  Lemma existsb_ext_in (p q : A -> bool) l :
    (forall x, In x l -> p x = q x) -> existsb p l = existsb q l.
  Proof.
    induction l as [|x r IH]; intros H; cbn [existsb]; [reflexivity|].
    rewrite (H x (or_introl eq_refl)), (IH (fun y Hy => H y (or_intror Hy))). reflexivity.
  Qed.

  Lemma forallb_ext_in (p q : A -> bool) l :
    (forall x, In x l -> p x = q x) -> forallb p l = forallb q l.
  Proof.
    induction l as [|x r IH]; intros H; cbn [forallb]; [reflexivity|].
    rewrite (H x (or_introl eq_refl)), (IH (fun y Hy => H y (or_intror Hy))). reflexivity.
  Qed.

  Lemma existsb_perm (p : A -> bool) l l' : Permutation l l' -> existsb p l = existsb p l'.
  Proof.
    induction 1 as [|x l l' _ IH|x y l|l l' l'' _ IH1 _ IH2]; cbn [existsb].
    - reflexivity.
    - rewrite IH. reflexivity.
    - destruct (p x), (p y); reflexivity.
    - rewrite IH1. exact IH2.
  Qed.

  Lemma forallb_perm f l l' : Permutation l l' -> forallb f l = forallb f l'.
  Proof.
    induction 1 as [|x l l' _ IH|x y l|l l' l'' _ IH1 _ IH2]; cbn [forallb].
    - reflexivity.
    - now rewrite IH.
    - destruct (f x), (f y); reflexivity.
    - now rewrite IH1.
  Qed.

  Lemma existsb_eqb_In q (l : list Z) : existsb (Z.eqb q) l = true <-> In q l.
  Proof.
    rewrite existsb_exists. split; [intros (x & Hx & E); apply Z.eqb_eq in E; subst; exact Hx|].
    intros H. exists q. split; [exact H|apply Z.eqb_refl].
  Qed.

  Lemma existsb_eqb_notIn q (l : list Z) : existsb (Z.eqb q) l = false <-> ~ In q l.
  Proof. rewrite <- existsb_eqb_In, not_true_iff_false. reflexivity. Qed.

  Lemma NoDup_app_iff l l' : NoDup (l ++ l') <-> NoDup l /\ NoDup l' /\ forall x, In x l -> ~ In x l'.
  Proof.
    induction l as [|a r IH]; cbn [app].
    - split; [intros H; repeat split; [constructor|exact H|intros x []]|intros (_ & H & _); exact H].
    - rewrite !NoDup_cons_iff, IH, in_app_iff. cbn [In]. split.
      + intros (Hn & Hr & Hl' & Hd). split; [split; [intros H; apply Hn; left; exact H|exact Hr]|]. split; [exact Hl'|].
        intros x [<-|Hx]; [intros H; apply Hn; right; exact H|exact (Hd x Hx)].
      + intros ((Hn & Hr) & Hl' & Hd). split.
        * intros [H|H]; [exact (Hn H)|exact (Hd a (or_introl eq_refl) H)].
        * split; [exact Hr|]. split; [exact Hl'|]. intros x Hx. exact (Hd x (or_intror Hx)).
  Qed.

  Lemma NoDup_snoc l x : NoDup (l ++ [x]) <-> NoDup l /\ ~ In x l.
  Proof. rewrite <- Permutation_cons_append, NoDup_cons_iff. apply and_comm. Qed.

  Lemma rev_eq_cons l x r : rev l = x :: r -> l = rev r ++ [x].
  Proof. intros H. now rewrite <- (rev_involutive l), H. Qed.
End Lists.

Lemma nth_error_map_mid {A B} (f : A -> B) pre x post :
  nth_error (map f (pre ++ x :: post)) (length pre) = Some (f x).
Proof. rewrite map_app, nth_error_app2; rewrite map_length; [|reflexivity]. rewrite Nat.sub_diag. reflexivity. Qed.

Lemma nth_error_firstn_skipn {A} (l : list A) k e :
  nth_error l k = Some e -> l = firstn k l ++ e :: skipn (S k) l.
Proof.
  revert k. induction l as [|x r IH]; intros [|k] H; cbn in *; try discriminate.
  - now injection H as ->.
  - f_equal. now apply IH.
Qed.

Lemma combine_map {A B C} (f : A -> B) (g : A -> C) (l : list A) :
  combine (map f l) (map g l) = map (fun x => (f x, g x)) l.
Proof. induction l as [|x l IH]; [reflexivity|]. cbn [map combine]. rewrite IH. reflexivity. Qed.

(* induction for functions that look one element ahead and may skip it *)
Lemma list_ind_tl {A} (P : list A -> Prop) :
  P [] -> (forall x r, P r -> P (tl r) -> P (x :: r)) -> forall s, P s.
Proof.
  intros H0 HS s. enough (P s /\ P (tl s)) by tauto.
  induction s as [|x r [IH1 IH2]]; [split; exact H0|]. split; [apply HS; assumption|exact IH1].
Qed.

Lemma sorted_app {A} (R : A -> A -> Prop) l1 l2 :
  StronglySorted R (l1 ++ l2) <->
  StronglySorted R l1 /\ StronglySorted R l2 /\ forall a b, In a l1 -> In b l2 -> R a b.
Proof.
  induction l1 as [|x r IH]; cbn [app].
  - split; [intros H; repeat split; [constructor|exact H|intros a b []]|tauto].
  - split.
    + intros H. inversion H as [|? ? Hs Hall]; subst. apply IH in Hs as (H1 & H2 & H3).
      apply Forall_app in Hall as [Ha1 Ha2]. rewrite Forall_forall in Ha2.
      repeat split; [constructor; assumption|assumption|]. intros a b [<-|Ha] Hb; auto.
    + intros (H1 & H2 & H3). inversion H1; subst. constructor.
      * apply IH. repeat split; [assumption..|]. intros a b Ha Hb. apply H3; [right|]; assumption.
      * apply Forall_app. split; [assumption|]. apply Forall_forall. intros b Hb. apply H3; [left; reflexivity|exact Hb].
Qed.

Lemma sorted_mid {A} (R : A -> A -> Prop) a z b :
  StronglySorted R (a ++ z :: b) -> Forall (R z) b /\ StronglySorted R (a ++ b).
Proof.
  rewrite !sorted_app. intros (Ha & Hzb & Hx). inversion Hzb; subst. repeat split; try assumption.
  intros x y Hx' Hy. apply Hx; [assumption | now right].
Qed.

(* Insertion into a sorted list, as the models write it for several orders: [before a b] puts a in front of b.  The instances:
   Model.Mask.insert_sec and Model.Decoders.JsonCut.insert_desc are [insert] by conversion ([change]); Model.Fields.insert_len
   rebuilds the list it matched, so there it is an induction (Fields.insert_len_insert). *)
Section Insert.
  Context {A : Type} (before : A -> A -> bool) (R : A -> A -> Prop).
  Hypothesis R_before : forall a b, before a b = true -> R a b.
  Hypothesis R_after : forall a b, before a b = false -> R b a.
  Hypothesis R_trans : forall a b c, R a b -> R b c -> R a c.

  Fixpoint insert (a : A) (l : list A) : list A :=
    match l with
    | [] => [a]
    | b :: r => if before a b then a :: l else b :: insert a r
    end.

  Lemma insert_perm a l : Permutation (insert a l) (a :: l).
  Proof.
    induction l as [|b r IH]; [reflexivity|]. cbn [insert]. destruct (before a b); [reflexivity|].
    rewrite IH. apply perm_swap.
  Qed.

  Lemma insert_sorted a l : StronglySorted R l -> StronglySorted R (insert a l).
  Proof.
    induction 1 as [|b r Hs IH Hb]; cbn [insert]; [repeat constructor|]. destruct (before a b) eqn:E.
    - constructor; [now constructor|]. constructor; [now apply R_before|].
      eapply Forall_impl; [|exact Hb]. intros x. apply R_trans. now apply R_before.
    - constructor; [exact IH|]. eapply Permutation_Forall; [symmetry; apply insert_perm|].
      constructor; [now apply R_after | exact Hb].
  Qed.
End Insert.

(* a fold that keeps the [R]-lower of two numbers ends on the greatest lower bound of what it has seen; so over a
   non-empty list started on its head it depends on the members only *)
Section FoldPick.
  Context {A : Type} (g : A -> Z) (pick : Z -> Z -> Z) (R : Z -> Z -> Prop).
  Hypothesis R_refl : forall a, R a a.
  Hypothesis R_trans : forall a b c, R a b -> R b c -> R a c.
  Hypothesis R_antisym : forall a b, R a b -> R b a -> a = b.
  Hypothesis pick_l : forall a b, R (pick a b) a.
  Hypothesis pick_r : forall a b, R (pick a b) b.
  Hypothesis pick_glb : forall a b k, R k a -> R k b -> R k (pick a b).

  Lemma fold_pick_below l : forall a,
    R (fold_left (fun m x => pick m (g x)) l a) a /\
    forall x, In x l -> R (fold_left (fun m x => pick m (g x)) l a) (g x).
  Proof.
    induction l as [|y r IH]; intros a; cbn [fold_left]; [split; [apply R_refl|intros x []]|].
    destruct (IH (pick a (g y))) as [H1 H2]. split; [exact (R_trans _ _ _ H1 (pick_l a (g y)))|].
    intros x [<-|Hx]; [exact (R_trans _ _ _ H1 (pick_r a (g y)))|exact (H2 x Hx)].
  Qed.

  Lemma fold_pick_glb l : forall a k,
    R k a -> (forall x, In x l -> R k (g x)) -> R k (fold_left (fun m x => pick m (g x)) l a).
  Proof.
    induction l as [|y r IH]; intros a k Ha Hl; cbn [fold_left]; [exact Ha|].
    apply IH; [apply pick_glb; [exact Ha|apply Hl; left; reflexivity]|].
    intros x Hx. apply Hl. right. exact Hx.
  Qed.

  Lemma fold_pick_least x0 xs x :
    In x (x0 :: xs) -> R (fold_left (fun m x => pick m (g x)) xs (g x0)) (g x).
  Proof. destruct (fold_pick_below xs (g x0)) as [H1 H2]. intros [<-|Hx]; [exact H1|exact (H2 x Hx)]. Qed.

  Lemma fold_pick_perm x0 xs y0 ys :
    Permutation (x0 :: xs) (y0 :: ys) ->
    fold_left (fun m x => pick m (g x)) xs (g x0) = fold_left (fun m x => pick m (g x)) ys (g y0).
  Proof.
    intros HP. apply R_antisym; apply fold_pick_glb; try intros y Hy; apply fold_pick_least.
    - exact (Permutation_in _ (Permutation_sym HP) (or_introl eq_refl)).
    - exact (Permutation_in _ (Permutation_sym HP) (or_intror Hy)).
    - exact (Permutation_in _ HP (or_introl eq_refl)).
    - exact (Permutation_in _ HP (or_intror Hy)).
  Qed.
End FoldPick.
