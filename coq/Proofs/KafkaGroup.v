(* Proofs about Model/KafkaGroup.v: what a restart of the consumer group from the committed offsets redelivers, and
   that the group's marks and committed offsets belong to acknowledged records ([ginv]). *)
From Verif Require Import Base.Sx Base.GoSem Model.KafkaInt Gen.KafkaGen Model.Kafka Model.KafkaGroup Proofs.ListFacts Proofs.Kafka.
From Coq Require Import Lia ZifyBool.

Theorem redelivered_spec b oldest log r :
  In r (redelivered b oldest log) <->
  In r log /\ match lookup b (key_of r) with Some h => fst h <= k_off r | None => oldest = true end.
Proof.
  unfold redelivered, from_commit. rewrite filter_In. change (rkey r) with (key_of r).
  destruct (lookup b (key_of r)) as [h|]; [rewrite Z.leb_le|]; tauto.
Qed.

(* the filter the executable model applies to the records-with-kinds of a fetch is [redelivered] *)
Lemma begin_filter_is_redelivered b oldest (rs : list grec) :
  map fst (filter (fun x : grec => from_commit b oldest (fst x)) rs) = redelivered b oldest (map fst rs).
Proof.
  unfold redelivered. induction rs as [|x rs IH]; cbn [filter map]; [reflexivity|].
  destruct (from_commit b oldest (fst x)); cbn [map]; now rewrite IH.
Qed.

(* rs = the records Commit was called for during ONE lifetime that starts with no marks (any completion order,
   repetitions); m = commit_records topics [] rs = the heads kgo then holds = what CommitMarkedOffsets sends to Kafka
   (tick_commits_only_marks below). A rejoin sets the marks to the fetched broker offsets (g_begin); lifetimes are not
   composed here.
   A record of a partition's log that lies ABOVE every committed record of its partition is handed over again. *)
Theorem restart_redelivers_above_commits topics rs log oldest m r :
  len topics <= 2 ^ 48 -> Forall (rec_in_range topics) rs ->
  commit_records topics [] rs = Ok m ->
  In r log ->
  (forall r', In r' rs -> key_of r' = key_of r -> k_off r' < k_off r) ->
  (oldest = true \/ lookup m (key_of r) <> None) ->
  In r (redelivered m oldest log).
Proof.
  intros Hlen HF Hc Hin Habove Hstart.
  rewrite commit_records_spec in Hc by assumption. injection Hc as <-.
  apply redelivered_spec. split; [assumption|].
  destruct (lookup (marks_of rs []) (key_of r)) as [h|] eqn:L.
  - destruct (marks_of_from_records rs _ _ (lookup_In _ _ _ L)) as (r' & Hr' & Hk & ->).
    specialize (Habove r' Hr' Hk). cbn [head_of fst]. lia.
  - destruct Hstart as [H|H]; [assumption | now elim H].
Qed.

(* conversely: a record of the log that is NOT handed over again lies at or below a committed record of its own
   partition (or nothing was ever committed for the partition and the group starts at the end: offset newest).
   This is the frontier hazard seen from Kafka: the only records a restart can skip are those that a Commit of a
   record at or above them has passed. *)
Theorem restart_skips_only_passed topics rs log oldest m r :
  len topics <= 2 ^ 48 -> Forall (rec_in_range topics) rs ->
  commit_records topics [] rs = Ok m ->
  In r log -> ~ In r (redelivered m oldest log) ->
  (lookup m (key_of r) = None /\ oldest = false) \/
  (exists r', In r' rs /\ key_of r' = key_of r /\ k_off r <= k_off r').
Proof.
  intros Hlen HF Hc Hin Hnot.
  rewrite commit_records_spec in Hc by assumption. injection Hc as <-.
  rewrite redelivered_spec in Hnot.
  destruct (lookup (marks_of rs []) (key_of r)) as [h|] eqn:L.
  - right. destruct (marks_of_from_records rs _ _ (lookup_In _ _ _ L)) as (r' & Hr' & Hk & ->).
    exists r'. split; [assumption|]. split; [assumption|]. cbn [head_of fst] in Hnot.
    assert (~ k_off r' + 1 <= k_off r) by tauto. lia.
  - left. split; [reflexivity|]. destruct oldest; [elim Hnot; tauto | reflexivity].
Qed.

(* The property's last sentence, under its frontier clause. If nothing at or below a committed record is
   unfinished (every record of the log at or below a committed record of its partition has itself been
   committed — what the frontier clause demands and spread routing does not give, known finding), then a
   restart hands over EVERY unfinished record of every partition that has a commit (and of the others too when
   the group starts at the oldest offset). *)
Theorem restart_redelivers_everything_unfinished topics rs log oldest m :
  len topics <= 2 ^ 48 -> Forall (rec_in_range topics) rs ->
  commit_records topics [] rs = Ok m ->
  (forall r r', In r log -> In r' rs -> key_of r' = key_of r -> k_off r <= k_off r' -> In r rs) ->
  forall r, In r log -> ~ In r rs ->
            (oldest = true \/ lookup m (key_of r) <> None) ->
            In r (redelivered m oldest log).
Proof.
  intros Hlen HF Hc Hfront r Hin Hunf Hstart.
  eapply restart_redelivers_above_commits; eauto.
  intros r' Hr' Hk. destruct (Z_lt_ge_dec (k_off r') (k_off r)) as [Hlt|Hge]; [assumption|].
  elim Hunf. apply (Hfront r r'); auto. lia.
Qed.

(* a partition a record of which was committed has a head: the last Commit for it left one *)
Lemma committed_partition_has_head topics rs m r0 :
  len topics <= 2 ^ 48 -> Forall (rec_in_range topics) rs ->
  commit_records topics [] rs = Ok m -> In r0 rs -> lookup m (key_of r0) <> None.
Proof.
  intros Hlen HF Hc Hin.
  rewrite commit_records_spec in Hc by assumption. injection Hc as <-.
  destruct (covers_marks_of rs [] r0 (or_intror Hin)) as (h & L & _). now rewrite L.
Qed.

(* CommitMarkedOffsets (the commit tick, Plugin.Stop): every offset the group has committed afterwards was
   committed before or is a head kgo holds -- by marks_of_from_records (for heads built by Commit from no marks)
   offset + 1 and the epoch of a record Commit was called for. Nothing else ever reaches Kafka. *)
Theorem tick_commits_only_marks m : forall b c k h,
  lookup (fst (tick_marks m (b, c))) k = Some h ->
  lookup b k = Some h \/ In (k, h) m.
Proof.
  unfold tick_marks. induction m as [|[k0 h0] m IH]; intros b c k h L; cbn [fold_left fst snd] in L.
  - now left.
  - destruct (live c (k0, h0)); apply IH in L; destruct L as [L|L]; [|right; now right|now left|right; now right].
    rewrite lookup_mark_set in L. destruct (key_eqb_spec k0 k) as [->|_]; [|now left].
    injection L as <-. right. now left.
Qed.

(* A mark / a committed offset exists only for an ACKNOWLEDGED record.
   The three maps of the group model — B (Kafka), M (kgo's heads), C (what the member knows to be committed) — under
   the operations the model applies to them: a member joins (M = C = the fetched B), Commit of the event of an
   acknowledged record, the commit tick / Stop. [ginv acked B M C] is kept by all of them and says what the
   observations of which = 5 show (MarkedOffsets = the heads of M that differ from C; the broker's offsets = B):
   every one of them is (offset + 1, epoch) of a record in [acked], under that record's own topic and partition. *)
Definition keys_unique (m : marks) : Prop := NoDup (map fst m).

(* The fourth clause speaks of the heads that differ from C only: after a join M = C = the fetched B, with epoch -1 when
   the group has no KIP-320 epochs (fetched_head), and such a head is (offset + 1, epoch) of no record. *)
Definition ginv (acked : list krec) (B M C : marks) : Prop :=
  from_records acked B /\ keys_unique B /\ keys_unique M /\
  (forall k h, In (k, h) M -> live C (k, h) = true -> exists r, In r acked /\ key_of r = k /\ h = head_of r).

Lemma lookup_none_iff m k : lookup m k = None <-> ~ In k (map fst m).
Proof.
  induction m as [|[k0 c] m IH]; cbn [lookup map fst In]; [easy|].
  destruct (key_eqb_spec k0 k) as [->|N]; [|tauto]. split; [discriminate | intros H; elim H; now left].
Qed.

Lemma lookup_none_not_key m k : ~ In k (map fst m) -> lookup m k = None.
Proof. apply lookup_none_iff. Qed.

Lemma keys_mark_set m k h :
  map fst (mark_set m k h) = match lookup m k with Some _ => map fst m | None => map fst m ++ [k] end.
Proof.
  induction m as [|[k0 c] m IH]; cbn [mark_set lookup]; [reflexivity|].
  destruct (key_eqb_spec k0 k) as [->|_]; cbn [map fst]; [reflexivity|].
  rewrite IH. now destruct (lookup m k).
Qed.

Lemma keys_unique_mark_set m k h : keys_unique m -> keys_unique (mark_set m k h).
Proof.
  unfold keys_unique. rewrite keys_mark_set. destruct (lookup m k) eqn:L; [trivial|].
  intros ND. apply NoDup_snoc. split; [exact ND | now apply lookup_none_iff].
Qed.

Lemma unique_in_lookup m k h : keys_unique m -> In (k, h) m -> lookup m k = Some h.
Proof.
  unfold keys_unique. induction m as [|[k0 c] m IH]; cbn [lookup map fst]; intros ND Hin; [contradiction|].
  inversion ND as [|? ? Hn ND']; subst. destruct Hin as [[= -> ->]|Hin]; [now rewrite key_eqb_refl|].
  destruct (key_eqb_spec k0 k) as [->|_]; [|now apply IH].
  elim Hn. exact (in_map fst _ _ Hin).
Qed.

Lemma eo_eqb_eq a b : eo_eqb a b = true <-> a = b.
Proof. destruct a, b. unfold eo_eqb. cbn [fst snd]. split; [intros H; f_equal; lia | intros [= -> ->]; lia]. Qed.

(* the heads MarkedOffsets leaves out are those `committed` holds *)
Lemma not_live c k h : live c (k, h) = false <-> lookup c k = Some h.
Proof.
  unfold live. cbn [fst snd]. destruct (lookup c k) as [h'|]; [|easy].
  rewrite negb_false_iff, eo_eqb_eq. split; congruence.
Qed.

(* CommitMarkedOffsets over heads with unique keys: `committed` is overridden by the heads, Kafka by the heads that
   differed from `committed`. The step for a head writes at its key only, and that key does not come again. *)
Lemma tick_lookup : forall m b c k, keys_unique m ->
  lookup (snd (tick_marks m (b, c))) k = match lookup m k with Some h => Some h | None => lookup c k end /\
  lookup (fst (tick_marks m (b, c))) k =
    match lookup m k with Some h => if live c (k, h) then Some h else lookup b k | None => lookup b k end.
Proof.
  unfold tick_marks, keys_unique. induction m as [|[k0 h0] m IH]; intros b c k ND; cbn [fold_left map fst snd lookup].
  - now split.
  - inversion ND as [|? ? Hn ND']; subst. apply lookup_none_not_key in Hn.
    destruct (live c (k0, h0)) eqn:L0.
    + (* h0 differed from `committed` and is written at k0 in both maps *)
      destruct (IH (mark_set b k0 h0) (mark_set c k0 h0) k ND') as (-> & ->). rewrite !lookup_mark_set.
      destruct (key_eqb_spec k0 k) as [->|N].
      * (* no later head has the key k0 *)
        now rewrite Hn, L0.
      * (* another key: whether its head differs from `committed` is not changed by the write at k0 *)
        unfold live. cbn [fst snd]. rewrite lookup_mark_set. now destruct (key_eqb_spec k0 k).
    + (* h0 did not differ, both maps stay *)
      destruct (IH b c k ND') as (-> & ->). destruct (key_eqb_spec k0 k) as [->|N].
      * (* `committed` holds h0 already, Kafka keeps what it has *)
        now rewrite Hn, L0, (proj1 (not_live _ _ _) L0).
      * now split.
Qed.

Lemma tick_keys_unique m : forall b c, keys_unique b -> keys_unique (fst (tick_marks m (b, c))).
Proof.
  unfold tick_marks. induction m as [|[k0 h0] m IH]; intros b c U; cbn [fold_left fst snd]; [exact U|].
  destruct (live c (k0, h0)); apply IH; [|exact U]. now apply keys_unique_mark_set.
Qed.

Theorem group_marks_only_acked :
  ginv [] [] [] [] /\
  (forall c acked B M C, ginv acked B M C -> ginv acked B (map (fetched_head c) B) (map (fetched_head c) B)) /\
  (forall topics acked B M C r,
     len topics <= 2 ^ 48 -> rec_in_range topics r -> ginv acked B M C ->
     exists M', commit topics M (event_of topics r) = Ok M' /\ ginv (r :: acked) B M' C) /\
  (forall acked B M C, ginv acked B M C -> ginv acked (fst (tick_marks M (B, C))) M (snd (tick_marks M (B, C)))) /\
  (forall acked B M C, ginv acked B M C ->
     forallb (head_of_some_record acked) (filter (live C) M) = true /\
     forallb (head_of_some_record acked) B = true /\
     (forall k h, In (k, h) B -> exists r, In r acked /\ key_of r = k /\ h = head_of r)).
Proof.
  split; [|split; [|split; [|split]]].
  - (* nothing acknowledged, nothing marked, nothing committed *)
    repeat split; try constructor; intros k h [].
  - (* a member joins (Start, or Lost + Assigned of an eager rebalance): kgo takes the group's offsets as its
       heads, so none of them differs from `committed` *)
    intros c acked B M C (FB & UB & _ & _).
    assert (UM : keys_unique (map (fetched_head c) B)).
    { unfold keys_unique in *. rewrite map_map. cbn [fetched_head fst]. exact UB. }
    repeat split; try assumption.
    intros k h Hin Hl. apply (unique_in_lookup _ _ _ UM), not_live in Hin. congruence.
  - (* Commit of the event the consumer built for an in-range record: the record is acknowledged now *)
    intros topics acked B M C r Hlen Hr (FB & UB & UM & HM).
    exists (mark_update M (key_of r) (head_of r)). split; [now apply commit_of_record|].
    split; [eapply from_records_incl; [|exact FB]; intros x Hx; now right|].
    split; [assumption|]. split; [rewrite mark_update_set; now apply keys_unique_mark_set|].
    intros k h Hin Hl. destruct (in_mark_update _ _ _ _ Hin) as [H|[= -> ->]].
    + destruct (HM k h H Hl) as (r' & Hr' & Hk). exists r'. split; [now right | exact Hk].
    + exists r. split; [now left | split; reflexivity].
  - (* CommitMarkedOffsets (the auto-commit tick, Plugin.Stop) *)
    intros acked B M C (FB & UB & UM & HM). pose proof (tick_keys_unique M B C UB) as UB'.
    split; [|split; [exact UB' | split; [assumption|]]]; intros k h Hin.
    + (* what Kafka holds at k afterwards is the head of k if that differed from `committed`, else what it held *)
      apply (unique_in_lookup _ _ _ UB') in Hin. rewrite (proj2 (tick_lookup M B C k UM)) in Hin.
      destruct (lookup M k) as [h'|] eqn:LM; [destruct (live C (k, h')) eqn:Ll|].
      2, 3: apply FB; now apply lookup_In.
      injection Hin as <-. apply HM; [now apply lookup_In | assumption].
    + (* `committed` holds every head afterwards, so none differs from it *)
      intros Hl. rewrite (proj2 (not_live _ _ _)) in Hl; [discriminate|].
      now rewrite (proj1 (tick_lookup M B C k UM)), (unique_in_lookup _ _ _ UM Hin).
  - (* what the observations show: every head MarkedOffsets shows and every offset Kafka holds passes the
       executable test of the harness against the acknowledged records *)
    intros acked B M C (FB & _ & _ & HM). split; [|split; [|exact FB]]; apply from_records_forallb; [|exact FB].
    intros k h Hin. apply filter_In in Hin as (Hin & Hl). now apply HM.
Qed.
