(* Proofs about the hold ledger of Model/PipeGlue.v (monitor 17 of C02) and about how Model/Proc.v treats the trace of an
   action that clears its busy mark while it still holds an event. *)
From Verif Require Import Base.Sx Proofs.Lts Model.Proc Proofs.Proc Model.PipeGlue.
From Coq Require Import List ZArith Lia Bool Permutation.
Import ListNotations.
Open Scope Z_scope.

Lemma key_eqb_spec (a b : Z * Z) : reflect (a = b) (key_eqb a b).
Proof.
  destruct a as [a1 a2], b as [b1 b2]. unfold key_eqb. cbn [fst snd].
  destruct (Z.eqb_spec a1 b1) as [->|N1]; [destruct (Z.eqb_spec a2 b2) as [->|N2]|]; constructor; congruence.
Qed.

Lemma key_eqb_eq (a b : Z * Z) : key_eqb a b = true <-> a = b.
Proof. destruct (key_eqb_spec a b); split; congruence. Qed.

Lemma key_eqb_refl (a : Z * Z) : key_eqb a a = true.
Proof. apply key_eqb_eq. reflexivity. Qed.

Lemma key_eqb_neq (a b : Z * Z) : key_eqb a b = false <-> a <> b.
Proof. destruct (key_eqb_spec a b); split; congruence. Qed.

Lemma h_marked_mark_same k l : h_marked k (h_mark k l) = true.
Proof.
  unfold h_mark. destruct (h_marked k l) eqn:E; [exact E|].
  cbn [h_marked existsb]. rewrite key_eqb_refl. reflexivity.
Qed.

Lemma h_marked_mark_mono k k' l : h_marked k l = true -> h_marked k (h_mark k' l) = true.
Proof.
  intros H. unfold h_mark. destruct (h_marked k' l); [exact H|].
  unfold h_marked in *. cbn [existsb]. rewrite H. apply orb_true_r.
Qed.

Lemma h_marked_unmark_other k k' l : k <> k' -> h_marked k (h_unmark k' l) = h_marked k l.
Proof.
  intros N. unfold h_marked, h_unmark. induction l as [|x r IH]; [reflexivity|].
  cbn [filter existsb]. destruct (key_eqb_spec x k') as [->|_]; cbn [negb existsb]; rewrite IH; [|reflexivity].
  destruct (key_eqb_spec k' k); [congruence|reflexivity].
Qed.

Lemma h_marked_unmark_same k l : h_marked k (h_unmark k l) = false.
Proof.
  unfold h_marked, h_unmark. induction l as [|x r IH]; [reflexivity|].
  cbn [filter]. destruct (key_eqb x k) eqn:E; cbn [negb]; [exact IH|].
  cbn [existsb]. now rewrite E, IH.
Qed.

Lemma h_find_none_notin k l : h_find k l = None -> ~ In k (map fst l).
Proof.
  induction l as [|[k' v] r IH]; cbn [h_find map fst In]; [tauto|].
  destruct (key_eqb_spec k' k) as [|N]; [discriminate|]. intros H [H1|H1]; [exact (N H1)|exact (IH H H1)].
Qed.

Lemma h_find_some_in k v l : h_find k l = Some v -> In k (map fst l).
Proof.
  induction l as [|[k' w] r IH]; cbn [h_find map fst In]; [discriminate|].
  destruct (key_eqb_spec k' k) as [E|_]; intros H; [left; exact E|right; exact (IH H)].
Qed.

Lemma h_find_remove_other k k' l : k <> k' -> h_find k (h_remove k' l) = h_find k l.
Proof.
  intros N. induction l as [|[x v] r IH]; [reflexivity|].
  cbn [h_remove h_find]. destruct (key_eqb_spec x k') as [->|_].
  - destruct (key_eqb_spec k' k); [congruence|reflexivity].
  - cbn [h_find]. rewrite IH. reflexivity.
Qed.

Lemma h_remove_incl k l x : In x (map fst (h_remove k l)) -> In x (map fst l).
Proof.
  induction l as [|[y v] r IH]; cbn [h_remove map fst In]; [tauto|].
  destruct (key_eqb y k); cbn [map fst In]; tauto.
Qed.

Lemma h_remove_nodup k l : NoDup (map fst l) -> NoDup (map fst (h_remove k l)).
Proof.
  induction l as [|[y v] r IH]; cbn [h_remove map fst]; [intros; constructor|].
  intros H. apply NoDup_cons_iff in H as [Hn Hr].
  destruct (key_eqb y k); [exact Hr|]. cbn [map fst]. constructor; [|exact (IH Hr)].
  intros Hin. exact (Hn (h_remove_incl k r y Hin)).
Qed.

Lemma h_find_remove_same k l : NoDup (map fst l) -> h_find k (h_remove k l) = None.
Proof.
  induction l as [|[y v] r IH]; cbn [h_remove map fst]; [reflexivity|].
  intros H. apply NoDup_cons_iff in H as [Hn Hr]. destruct (key_eqb_spec y k) as [->|N].
  - destruct (h_find k r) eqn:F; [|reflexivity]. destruct (Hn (h_find_some_in k _ r F)).
  - cbn [h_find]. destruct (key_eqb_spec y k); [contradiction|exact (IH Hr)].
Qed.

Lemma h_find_remove_perm k v l : h_find k l = Some v -> Permutation (map snd l) (v :: map snd (h_remove k l)).
Proof.
  induction l as [|[y w] r IH]; cbn [h_find h_remove map snd]; [discriminate|].
  destruct (key_eqb y k).
  - intros [= ->]. apply Permutation_refl.
  - intros H. cbn [map snd]. eapply Permutation_trans; [apply perm_skip, IH, H|]. apply perm_swap.
Qed.

Definition holders_marked (h : list (hkey * (Z * Z))) (m : list hkey) : Prop :=
  forall k v, h_find k h = Some v -> h_marked k m = true.

(* the first clause is [holders_marked (hl_held t) (hl_mark t)], written out *)
Definition hinv (t : hst) : Prop :=
  (forall k v, h_find k (hl_held t) = Some v -> h_marked k (hl_mark t) = true) /\
  NoDup (map fst (hl_held t)) /\
  Permutation (hl_holds t) (map snd (hl_held t) ++ hl_props t).

Lemma hinv_init : hinv hinit.
Proof. repeat split; cbn; [discriminate | constructor | constructor]. Qed.

Lemma holders_marked_mark h m k : holders_marked h m -> holders_marked h (h_mark k m).
Proof. intros H k' v F. exact (h_marked_mark_mono k' k m (H k' v F)). Qed.

(* the mark of an action that holds nothing may go *)
Lemma holders_marked_unmark h m k : holders_marked h m -> h_find k h = None -> holders_marked h (h_unmark k m).
Proof. intros H N k' v F. rewrite h_marked_unmark_other; [exact (H k' v F)|]. intros ->. congruence. Qed.

Lemma holders_marked_hold h m k v : holders_marked h m -> holders_marked ((k, v) :: h) (h_mark k m).
Proof.
  intros H k' v'. cbn [h_find]. destruct (key_eqb_spec k k') as [<-|_].
  - intros _. apply h_marked_mark_same.
  - intros F. exact (h_marked_mark_mono k' k m (H k' v' F)).
Qed.

(* handing the event back: with distinct keys the action holds nothing afterwards, so its mark may go *)
Lemma holders_marked_release h m k :
  holders_marked h m -> NoDup (map fst h) -> holders_marked (h_remove k h) (h_unmark k m).
Proof.
  intros H Hn k' v F. destruct (key_eqb_spec k' k) as [->|N].
  - rewrite (h_find_remove_same _ _ Hn) in F. discriminate.
  - rewrite h_find_remove_other in F by exact N. rewrite h_marked_unmark_other by exact N. exact (H k' v F).
Qed.

(* One case analysis serves the two halves of the invariant: the marks of the holders (with the keys of the
   holders distinct) and the accounting.  Neither half needs the other. *)
Lemma hstep_keeps t l t' : hstep t l = Some t' ->
  (holders_marked (hl_held t) (hl_mark t) -> NoDup (map fst (hl_held t)) ->
   holders_marked (hl_held t') (hl_mark t') /\ NoDup (map fst (hl_held t'))) /\
  (Permutation (hl_holds t) (map snd (hl_held t) ++ hl_props t) ->
   Permutation (hl_holds t') (map snd (hl_held t') ++ hl_props t')).
Proof.
  intros H. destruct l as [p a s kind busy | p a s q r | p a s q]; cbn [hstep] in H.
  - destruct (_ && _); [|discriminate]. injection H as <-. auto.
  - destruct (h_find (p, a) (hl_held t)) as [w|] eqn:F.
    + (* the action holds an event: only Collapse is accepted *)
      destruct r; try discriminate. injection H as <-. cbn [hl_held hl_mark hl_holds hl_props].
      split; [|auto]. intros Hm Hn. split; [apply holders_marked_mark; exact Hm|exact Hn].
    + (* it holds nothing: Pass, Break and Discard clear its mark, Collapse sets it; they leave the two Hold goals *)
      destruct r; injection H as <-; cbn [hl_held hl_mark hl_holds hl_props]; (split; [intros Hm Hn|intros Hp]);
        auto using holders_marked_mark, holders_marked_unmark.
      * split; [apply holders_marked_hold; exact Hm|].
        cbn [map fst]. constructor; [exact (h_find_none_notin _ _ F)|exact Hn].
      * cbn [map snd app]. apply perm_skip. exact Hp.
  - destruct (h_find (p, a) (hl_held t)) as [w|] eqn:F; [|discriminate].
    destruct (key_eqb_spec w (s, q)) as [->|]; [|discriminate].
    injection H as <-. cbn [hl_held hl_mark hl_holds hl_props]. split.
    + intros Hm Hn. exact (conj (holders_marked_release _ _ _ Hm Hn) (h_remove_nodup _ _ Hn)).
    + intros Hp. eapply Permutation_trans; [exact Hp|].
      eapply Permutation_trans; [apply Permutation_app_tail, h_find_remove_perm, F|].
      cbn [app]. apply Permutation_middle.
Qed.

Lemma hinv_step t l t' : hinv t -> hstep t l = Some t' -> hinv t'.
Proof.
  intros (Hm & Hn & Hp) H. destruct (hstep_keeps t l t' H) as [K1 K2].
  destruct (K1 Hm Hn) as [Hm' Hn']. exact (conj Hm' (conj Hn' (K2 Hp))).
Qed.

Lemma hinv_run ls : forall t t', hinv t -> hrun t ls = Some t' -> hinv t'.
Proof. exact (run_invariant hstep hinv hinv_step ls). Qed.

Lemma hinv_reach ls t : hrun hinit ls = Some t -> hinv t.
Proof. exact (hinv_run ls hinit t hinv_init). Qed.

(* on every trace the ledger accepts, an action that holds an event is marked busy: the processor goes on waiting on the
   stream (processEvent: busyActionsTotal > 0), so the next event or the time-out of the stream reaches the action *)
Theorem hl_held_marked ls t p a v :
  hrun hinit ls = Some t -> h_find (p, a) (hl_held t) = Some v -> h_marked (p, a) (hl_mark t) = true.
Proof. intros (Hm & _)%hinv_reach F. now apply Hm with v. Qed.

(* no (processor, action) holds two events *)
Theorem hl_one_event_per_action ls t :
  hrun hinit ls = Some t -> NoDup (map fst (hl_held t)).
Proof. now intros (_ & Hn & _)%hinv_reach. Qed.

(* every event an action ever held is still held by it or was handed back (Propagate) exactly once *)
Theorem hl_accounting ls t :
  hrun hinit ls = Some t -> Permutation (hl_holds t) (map snd (hl_held t) ++ hl_props t).
Proof. now intros (_ & _ & Hp)%hinv_reach. Qed.

(* nothing held when the pipeline is idle (what monitor 17 checks at quiescence): the events handed back are exactly the
   events that were held, each once - none stays behind in an action *)
Theorem hl_quiescent ls t :
  hrun hinit ls = Some t -> hl_held t = [] -> Permutation (hl_holds t) (hl_props t).
Proof. intros H E. pose proof (hl_accounting ls t H) as P. now rewrite E in P. Qed.

(* what the ledger is for: whatever happened before, an action that holds an event and gives an answer that makes the processor
   clear its busy mark (Pass, Break, Discard) - or answers Hold a second time - is rejected at that very label; Collapse is
   the only answer a holder may give without handing the event back first *)
Theorem hl_clearing_answer_of_a_holder_rejected t p a s q r v :
  h_find (p, a) (hl_held t) = Some v -> r <> RCollapse -> hstep t (HResult p a s q r) = None.
Proof. intros F N. cbn [hstep]. rewrite F. destruct r; try reflexivity. contradiction. Qed.

(* ... and it is the only way in which the mark of a holder can go: every accepted step keeps the marks of the holders *)
Theorem hl_step_keeps_holders_marked t l t' :
  (forall k v, h_find k (hl_held t) = Some v -> h_marked k (hl_mark t) = true) -> NoDup (map fst (hl_held t)) ->
  hstep t l = Some t' ->
  forall k v, h_find k (hl_held t') = Some v -> h_marked k (hl_mark t') = true.
Proof. intros Hm Hn H. exact (proj1 (proj1 (hstep_keeps t l t' H) Hm Hn)). Qed.

(* The same trace through Model/Proc.v.  A Do label that says "idle" for an action the model knows to hold an event is
   never a step. *)
Theorem proc_lts_idle_do_on_a_holder_rejected s e a h :
  held_at (held s) a = Some h -> pstep s (PDo e a false) = None.
Proof.
  intros Hh. destruct (pstep s (PDo e a false)) eqn:E; [|reflexivity].
  apply pstep_do in E as (f & r & _ & _ & _ & _ & Hb). rewrite Hh in Hb. discriminate.
Qed.

(* Model/Proc.v identifies "busy" with "holds an event".  It lets a holder answer Discard (the event is dropped, the held one
   stays), so the model goes on holding - while the real processor has cleared the mark.  The disagreement is caught by the
   guard of PDo (the busy bit of the Do label must be the model's held_at) at the next Do of that action: the real
   processor reports busy = false there. *)
Theorem proc_lts_rejects_the_next_do_of_a_forgotten_holder s e a h s' :
  held_at (held s) a = Some h ->
  pstep s (PResult e a RDiscard) = Some s' ->
  held_at (held s') a = Some h /\ forall e', pstep s' (PDo e' a false) = None.
Proof.
  intros Hh H. assert (Hh' : held_at (held s') a = Some h).
  { (* the one rule of [pstep_rel] for a Discard answer, [ps_drop], leaves [held] as it is *)
    apply pstep_inv in H as [_ H]. inversion H; subst. exact Hh. }
  split; [exact Hh'|]. intros e'. exact (proc_lts_idle_do_on_a_holder_rejected s' e' a h Hh').
Qed.

(* non-vacuity: processor 0, one action, stream 0: event 1 starts a run (Hold), event 2 continues it.  Answered with Collapse, the run is
   flushed by the stream's time-out (Do of kind 3, Propagate 1, Discard) and nothing stays held; answered with Discard the trace
   is rejected at that answer; the same label sequence through Model/Proc.v is rejected one Do later *)
Example hold_ledger_nonvacuous :
  (exists t, hrun hinit [HDo 0 0 0 0 false; HResult 0 0 0 1 RHold; HDo 0 0 0 0 true; HResult 0 0 0 2 RCollapse;
                         HDo 0 0 0 3 true; HPropagate 0 0 0 1; HResult 0 0 0 0 RDiscard] = Some t /\
             hl_held t = [] /\ hl_mark t = [] /\ hl_holds t = [(0, 1)] /\ hl_props t = [(0, 1)]) /\
  hrun hinit [HDo 0 0 0 0 false; HResult 0 0 0 1 RHold; HDo 0 0 0 0 true; HResult 0 0 0 2 RDiscard] = None /\
  (exists s, prun (pinit 1) [PTake {| pseq := 1; pkind := 0 |} 0; PDo {| pseq := 1; pkind := 0 |} 0 false;
                             PResult {| pseq := 1; pkind := 0 |} 0 RHold;
                             PTake {| pseq := 2; pkind := 0 |} 0; PDo {| pseq := 2; pkind := 0 |} 0 true;
                             PResult {| pseq := 2; pkind := 0 |} 0 RDiscard;
                             PTake {| pseq := 3; pkind := 0 |} 0] = Some s /\
             pstep s (PDo {| pseq := 3; pkind := 0 |} 0 false) = None).
Proof.
  split; [|split].
  - eexists. vm_compute. repeat split.
  - vm_compute. reflexivity.
  - eexists. split; vm_compute; reflexivity.
Qed.
