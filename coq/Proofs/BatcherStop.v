(* SHUTDOWN of the batcher model (Model/Batcher.v): Batcher.Stop closes fullBatches and waits for the workers
   (workersWg.Wait).  From EVERY reachable stopped state, worker steps alone finish every batch in flight: Stop
   returns, every sealed batch went through its commit section in formation order, and every event of a sealed batch
   is committed or was handed to the retry-error path.  What sits in the half-filled current batch stays there
   (Add on a stopped batcher appends nothing: LAdd is not enabled).  Needs the order of the code, "send into
   fullBatches before mu.Unlock" (atomic_push, the generated constant): otherwise a sealed batch may still be Pending at Stop
   and its send panics (stop_panics_without_atomic_push). *)
From Verif Require Import Base.Sx Model.Batcher Proofs.Batcher Proofs.BatcherDrain Gen.BatcherGen.
From Verif Require Proofs.Lts.
From Coq Require Import Lia ZifyBool Bool List ZArith.
Import ListNotations.
Local Open Scope Z_scope.

Lemma nopanic_reach c s : atomic_push c = true -> reach c s -> inv_nopanic s.
Proof. intros Ha [ls Hr]. exact (Proofs.Batcher.nopanic_reach c ls s Ha Hr). Qed.

Lemma internal_keeps c s l s' :
  internal l -> step c s l = Some s' -> crashed s = false -> (stopped s = true -> forall q, l <> LPush q) ->
  stopped s' = stopped s /\ crashed s' = false /\ added s' = added s.
Proof. intros Hi H _. exact (BatcherDrain.internal_keeps c s l s' Hi H). Qed.

Lemma head_label_push c b q : head_label c b = LPush q -> bstage b = Pending.
Proof. intros H. pose proof (head_label_kind c b) as K. rewrite H in K. exact K. Qed.

(* running the workers of a stopped batcher until nothing is in flight; no sealed batch is still to be sent *)
Lemma stop_loop c : 0 < workers c -> atomic_push c = true ->
  forall n s, (measure s < n)%nat -> reach c s -> stopped s = true -> crashed s = false ->
  exists ls' s', Forall internal ls' /\ run c s ls' = Some s' /\ flight s' = [] /\
                 stopped s' = true /\ crashed s' = false /\ added s' = added s.
Proof.
  intros Hw Ha n s Hm Hr Hstop Hcr.
  destruct (Lts.sched_rests (step c) (fun x => match flight x with b :: _ => Some (head_label c b) | [] => None end) measure
              (fun x => reach c x /\ stopped x = true /\ crashed x = false /\ added x = added s) internal)
    with (fuel := n) (s := s) as (s' & Hrun & Hint & Hnx & _ & Hlive); [|exact Hm|auto|].
  { intros x l (Hx & Hs & Hc & Ha') Hn. destruct (flight x) as [|b r] eqn:Hfl; [discriminate|]. injection Hn as <-.
    destruct (nopanic_reach c x Ha Hx) as (_ & _ & Hnp).
    assert (Hnpend : bstage b <> Pending) by (apply (Hnp Hs); rewrite Hfl; left; reflexivity).
    destruct (head_progress c x b r Hw Hx Hc Hfl (fun Hp => False_ind _ (Hnpend Hp))) as (Hi & x1 & Hx1 & Hlt).
    exists x1.
    destruct (internal_keeps c x _ x1 Hi Hx1 Hc (fun _ q Hq => Hnpend (head_label_push c b q Hq))) as (Hs1 & Hc1 & Ha1).
    repeat split; try assumption; [exact (reach_step c x _ x1 Hx Hx1)|congruence..]. }
  rewrite <- run_lts in Hrun. eexists _, s'. repeat (split; [eassumption|]). split; [|exact Hlive].
  destruct (flight s'); [reflexivity|discriminate].
Qed.

Lemma flight_empty_sealed_accounted c s :
  0 <= workers c -> reach c s -> flight s = [] ->
  queue s = [] /\ commitSeq s = outSeq s /\
  forall evs e, In evs (sealed_hist s) -> In e evs -> In e (committed s) \/ exists f, In f (failed_hist s) /\ In e (snd f).
Proof. exact (BatcherDrain.flight_empty_sealed_accounted c s). Qed.

(* Batcher.Stop returns: from every reachable stopped state the workers alone finish what was sealed *)
Theorem batcher_stop_returns :
  forall c ls s, 0 < workers c -> atomic_push c = batcher_atomic_push ->
    run c (init c) ls = Some s -> stopped s = true ->
    exists ls' s', Forall internal ls' /\ run c s ls' = Some s' /\
      crashed s' = false /\ stopped s' = true /\ added s' = added s /\
      flight s' = [] /\ queue s' = [] /\ commitSeq s' = outSeq s' /\
      (forall evs e, In evs (sealed_hist s') -> In e evs ->
                     In e (committed s') \/ exists f, In f (failed_hist s') /\ In e (snd f)).
Proof.
  intros c ls s Hw Ha Hr Hstop. unfold batcher_atomic_push in Ha.
  assert (Hreach : reach c s) by (exists ls; exact Hr).
  destruct (nopanic_reach c s Ha Hreach) as (Hcr & _ & _).
  destruct (stop_loop c Hw Ha (S (measure s)) s ltac:(lia) Hreach Hstop Hcr)
    as (ls' & s' & Hint & Hrun & Hfl & Hstop' & Hcr' & Hadd).
  destruct (flight_empty_sealed_accounted c s' ltac:(lia) (reach_run c s ls' s' Hreach Hrun) Hfl) as (Hq & Hseq & Hall).
  exists ls', s'. repeat (split; [assumption|]). exact Hall.
Qed.

(* ... and nothing is added to a stopped batcher: Add returns without appending (no LAdd label is enabled) *)
Theorem stopped_batcher_accepts_nothing c s e : stopped s = true -> step c s (LAdd e) = None.
Proof.
  intros Hs. unfold step. destruct (crashed s); [reflexivity|]. destruct (cur s); [|reflexivity].
  rewrite Hs. reflexivity.
Qed.

(* non-vacuity: 2 workers, a batch inside OutFn and a sealed batch queued when Stop comes (both batch objects are in flight,
   so there is no current batch): reachable, stopped, not drained; the theorem's hypotheses hold *)
Definition cfgS : cfg :=
  {| workers := 2; maxCount := 1; maxBytes := 0; retriable := false; retry := 0; deadq := false; atomic_push := true |}.
Definition traceS : list label :=
  [LFree; LAdd (mkev 1); LSeal 0 1 1 1; LPush 0; LTake 0; LOutBegin 0 1;
   LFree; LAdd (mkev 2); LSeal 1 1 1 1; LPush 1; LStop].
Definition drainS : list label :=
  [LOutEnd 0 1 1; LCommitBegin 0 1; LCommitEv (mkev 1); LCommitEnd 0 1;
   LTake 1; LOutBegin 1 1; LOutEnd 1 1 1; LCommitBegin 1 1; LCommitEv (mkev 2); LCommitEnd 1 1].
Example batcher_stop_nonvacuous :
  exists s, run cfgS (init cfgS) traceS = Some s /\ stopped s = true /\ length (flight s) = 2%nat /\
    step cfgS s (LAdd (mkev 3)) = None /\
    exists s', run cfgS s drainS = Some s' /\ flight s' = [] /\ rev (committed s') = [mkev 1; mkev 2].
Proof.
  eexists. split; [vm_compute; reflexivity|]. split; [reflexivity|]. split; [reflexivity|]. split; [vm_compute; reflexivity|].
  eexists. split; [vm_compute; reflexivity|]. split; reflexivity.
Qed.
