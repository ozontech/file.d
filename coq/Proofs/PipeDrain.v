(* End-to-end no-wedge theorem of the product (Model/Pipe.v = one batching output x the flows of all streams): from
   every reachable state whose batcher is neither stopped nor crashed, without taking any new regular event from any
   stream (only stream time-outs), some schedule finishes every event in hand.

   The schedule goes stream by stream over the finite list of streams that have a flow in the state: the processor of
   the stream finishes (Proofs/ProcDrain.v, lifted by [lift_proc]); while its hand-over queue is not empty the batcher
   drains (Proofs/BatcherDrain.v, lifted by [lift_batcher]), takes a free batch if it has no current one ([ensure_cur]:
   a drained batcher has all its batches free) and accepts the head of the queue ([lift_add]: guard F1 holds because it
   is the head).  Then one last drain of the batcher (guard F2 never refuses: pipe_F2_redundant); the accounting clause
   is pipe_quiescent at the final state.  Steps about one stream never touch processor and hand-over queue of another
   stream, batcher steps other than Add touch neither ([gstep_GB_frame]), so a finished stream stays finished.

   Not needed: the premise [0 <= n]; any fairness or size assumption on the batcher (the event is added with size 0,
   any size would do); any invariant of the processor beyond "not crashed". *)
From Verif Require Import Base.Sx Model.Batcher Model.Proc Model.StreamFlow Model.Pipe
  Proofs.Batcher Proofs.Proc Proofs.StreamFlow Proofs.Pipe.
From Verif Require Proofs.BatcherDrain Proofs.ProcDrain.
From Coq Require Import Lia ZifyBool Bool List ZArith Permutation.
Import ListNotations.
Local Open Scope Z_scope.

(* the labels of a drain: no Stop, no panic, and the only events taken from streams are time-outs *)
Definition ginternal (l : glabel) : Prop :=
  match l with
  | GP _ (PTake e _) => pkind e = 3
  | GP _ _ => True
  | GB LStop | GB LPanic => False
  | GB _ => True
  end.

Definition greach (c : cfg) (n : Z) (g : gst) : Prop := exists ls, grun c n (ginit c) ls = Some g.

Definition same_po (n : Z) (g g' : gst) (s : Z) : Prop :=
  proc (gflow n g' s) = proc (gflow n g s) /\ outq (gflow n g' s) = outq (gflow n g s).

Definition sfin (n : Z) (g : gst) (s : Z) : Prop :=
  stack (proc (gflow n g s)) = [] /\ held (proc (gflow n g s)) = [] /\ outq (gflow n g s) = [].

(* the batcher event of an event waiting in the hand-over queue of stream s (any size would do) *)
Definition bev_of (s : Z) (x : pev) : Model.Batcher.ev := {| eid := pseq x; esrc := s; esize := 0; ekind := pkind x |}.

Lemma same_po_refl n g s : same_po n g g s.
Proof. split; reflexivity. Qed.

Lemma same_po_trans n g1 g2 g3 s : same_po n g1 g2 s -> same_po n g2 g3 s -> same_po n g1 g3 s.
Proof. intros [H1 H2] [H3 H4]. split; congruence. Qed.

Lemma same_po_of_eq n g g' s : gflow n g' s = gflow n g s -> same_po n g g' s.
Proof. intros H. unfold same_po. rewrite H. split; reflexivity. Qed.

Lemma sfin_same n g g' s : same_po n g g' s -> sfin n g s -> sfin n g' s.
Proof. intros [Hp Ho] H. unfold sfin. rewrite Hp, Ho. exact H. Qed.

Lemma gflow_gf_eq n g g' : gf g' = gf g -> forall s, gflow n g' s = gflow n g s.
Proof. intros H s. unfold gflow. rewrite H. reflexivity. Qed.

Lemma gflow_gf_set n g g' s f' : gf g' = gset (gf g) s f' ->
  forall s', gflow n g' s' = if s' =? s then f' else gflow n g s'.
Proof. intros H s'. unfold gflow. rewrite H, gget_gset. destruct (s' =? s); reflexivity. Qed.

Definition not_add (bl : label) : Prop := match bl with LAdd _ => False | _ => True end.

(* a batcher step other than Add touches no processor and no hand-over queue: a Commit moves the event from the
   added-queue of its flow to the commits *)
Lemma gstep_GB_frame c n g bl g' : link n g -> gstep c n g (GB bl) = Some g' -> not_add bl ->
  forall s, same_po n g g' s.
Proof.
  intros L H Hna s. destruct (gstep_GB _ _ _ _ _ H) as [_ Hf].
  destruct bl; try contradiction; try (apply same_po_of_eq; exact (gflow_gf_eq n g g' Hf s)).
  destruct (Model.StreamFlow.ordered (pev_of e)); [|apply same_po_of_eq; exact (gflow_gf_eq n g g' Hf s)].
  destruct Hf as (f' & Hf & Hgf). unfold same_po. rewrite (gflow_gf_set n g g' _ _ Hgf s).
  destruct (Z.eqb_spec s (esrc e)) as [->|Hne]; [|split; reflexivity].
  destruct (fstep_FCommit_eq _ _ _ (proj1 (L (esrc e))) Hf) as (x & r & _ & _ & ->). split; reflexivity.
Qed.

(* ... and is enabled in the product as soon as the batcher allows it (F2 never refuses) *)
Lemma gstep_GB_enabled c n g bl b' : (retriable c = false \/ deadq c = false) -> greach c n g ->
  step c (gb g) bl = Some b' -> not_add bl -> exists g', gstep c n g (GB bl) = Some g'.
Proof.
  intros Hcfg [ls Hr] Hs Hna.
  destruct bl; try contradiction; try (cbn [gstep]; rewrite Hs; eexists; reflexivity).
  exact (pipe_F2_redundant c n ls g e b' Hcfg Hr Hs).
Qed.

Lemma gstep_LAdd c n g e b' f' : step c (gb g) (LAdd e) = Some b' ->
  fstep (gflow n g (esrc e)) (FAdd (pev_of e)) = Some f' ->
  gstep c n g (GB (LAdd e)) = Some {| gb := b'; gf := gset (gf g) (esrc e) f' |}.
Proof. intros H1 H2. cbn [gstep]. rewrite H1, H2. reflexivity. Qed.

Lemma binternal_not_add bl : BatcherDrain.internal bl -> not_add bl.
Proof. destruct bl; cbn; auto. Qed.

Lemma binternal_ginternal bl : BatcherDrain.internal bl -> ginternal (GB bl).
Proof. destruct bl; cbn; auto. Qed.

Lemma pinternal_ginternal s pl : ProcDrain.internal pl -> ginternal (GP s pl).
Proof. destruct pl; cbn; auto. Qed.

Lemma Forall_map_GB bls : Forall BatcherDrain.internal bls -> Forall ginternal (map GB bls).
Proof. intros H. induction H; cbn [map]; constructor; [apply binternal_ginternal; assumption|assumption]. Qed.

Lemma Forall_map_GP s pls : Forall ProcDrain.internal pls -> Forall ginternal (map (GP s) pls).
Proof. intros H. induction H; cbn [map]; constructor; [apply pinternal_ginternal; assumption|assumption]. Qed.

Lemma gget_none l s : ~ In s (map fst l) -> gget l s = None.
Proof.
  induction l as [|[k v] r IH]; cbn [map fst In gget]; intros H; [reflexivity|].
  destruct (Z.eqb_spec k s) as [->|Hne]; [exfalso; apply H; left; reflexivity|]. apply IH. tauto.
Qed.

(* a stream without an entry in the association list is in its initial state: nothing in hand *)
Lemma sfin_absent n g s : ~ In s (map fst (gf g)) -> sfin n g s.
Proof. intros H. unfold sfin, gflow. rewrite (gget_none _ _ H). cbn. auto. Qed.

Lemma pev_of_bev_of s x : pev_of (bev_of s x) = x.
Proof. destruct x; reflexivity. Qed.

Section Drain.
Context (c : cfg) (n : Z).

Lemma greach_run g ls g' : greach c n g -> grun c n g ls = Some g' -> greach c n g'.
Proof. intros [ls0 H0] H. exists (ls0 ++ ls). rewrite grun_app, H0. exact H. Qed.

Lemma greach_batcher g : greach c n g -> exists bls, run c (init c) bls = Some (gb g).
Proof. intros [ls H]. exists (bproj ls). exact (pipe_proj_batcher c n ls g H). Qed.

Lemma greach_link g : greach c n g -> link n g.
Proof. intros [ls H]. exact (pipe_link c n ls g H). Qed.

Lemma greach_finv g s : greach c n g -> finv (gflow n g s).
Proof. intros [ls H]. exact (finv_reachable n false _ _ (pipe_proj_flow c n ls g s H)). Qed.

Lemma greach_not_pcrashed g s : greach c n g -> pcrashed (proc (gflow n g s)) = false.
Proof.
  intros [ls H]. pose proof (frun_proc _ _ _ (pipe_proj_flow c n ls g s H)) as Hp. cbn [finit proc] in Hp.
  exact (ProcDrain.reachable_not_crashed n _ _ Hp).
Qed.

(* a batcher run without Add, Stop and panic is a product run *)
Lemma lift_batcher : (retriable c = false \/ deadq c = false) ->
  forall bls g b', greach c n g -> Forall BatcherDrain.internal bls -> run c (gb g) bls = Some b' ->
  exists g', grun c n g (map GB bls) = Some g' /\ gb g' = b' /\ forall s, same_po n g g' s.
Proof.
  intros Hcfg. induction bls as [|l r IH]; intros g b' Hre Hint Hrun; cbn [run] in Hrun.
  - injection Hrun as <-. exists g. split; [reflexivity|]. split; [reflexivity|]. intros s. apply same_po_refl.
  - destruct (step c (gb g) l) as [b1|] eqn:Hs; [|discriminate]. apply Forall_cons_iff in Hint as [Hl Hr'].
    pose proof (binternal_not_add l Hl) as Hna.
    destruct (gstep_GB_enabled c n g l b1 Hcfg Hre Hs Hna) as [g1 Hg1].
    pose proof (proj1 (gstep_GB _ _ _ _ _ Hg1)) as Hb1. rewrite Hs in Hb1. injection Hb1 as ->.
    assert (Hre1 : greach c n g1) by (apply (greach_run g [GB l] g1 Hre); cbn [grun]; rewrite Hg1; reflexivity).
    destruct (IH g1 b' Hre1 Hr' Hrun) as (g' & Hr & Hgb & Hfr).
    exists g'. split; [cbn [map grun]; rewrite Hg1; exact Hr|]. split; [exact Hgb|].
    intros s. exact (same_po_trans n g g1 g' s (gstep_GB_frame c n g l g1 (greach_link g Hre) Hg1 Hna s) (Hfr s)).
Qed.

(* the batcher of a live reachable state drains inside the product; flows keep processor and hand-over queue *)
Lemma drain_batcher g : 0 < workers c -> (retriable c = false \/ deadq c = false) ->
  greach c n g -> stopped (gb g) = false -> crashed (gb g) = false ->
  exists ls' g', Forall ginternal ls' /\ grun c n g ls' = Some g' /\
    stopped (gb g') = false /\ crashed (gb g') = false /\
    flight (gb g') = [] /\ queue (gb g') = [] /\ deciding (gb g') = false /\ cur_list (gb g') = [] /\
    forall s, same_po n g g' s.
Proof.
  intros Hw Hcfg Hre Hst Hcr. destruct (greach_batcher g Hre) as [bls0 Hb0].
  destruct (BatcherDrain.batcher_can_always_drain_strong c bls0 (gb g) Hw Hb0 Hst Hcr)
    as (bls & b1 & Hint & Hrun & Hst1 & Hcr1 & _ & Hfl & Hq & Hdec & Hcu & _).
  destruct (lift_batcher Hcfg bls g b1 Hre Hint Hrun) as (g1 & Hr1 & <- & Hfr).
  exists (map GB bls), g1. split; [exact (Forall_map_GB bls Hint)|]. auto 10.
Qed.

Lemma lift_pstep g s pl p' : pstep (proc (gflow n g s)) pl = Some p' ->
  exists g', gstep c n g (GP s pl) = Some g' /\ gb g' = gb g /\ proc (gflow n g' s) = p' /\
    forall s', s' <> s -> gflow n g' s' = gflow n g s'.
Proof.
  intros Hp. eexists. split; [cbn [gstep fstep]; rewrite Hp; reflexivity|]. split; [reflexivity|].
  split; [rewrite gflow_set, Z.eqb_refl; reflexivity|].
  intros s' Hne. apply Z.eqb_neq in Hne. rewrite gflow_set, Hne. reflexivity.
Qed.

Lemma lift_proc s : forall pls g p', prun (proc (gflow n g s)) pls = Some p' ->
  exists g', grun c n g (map (GP s) pls) = Some g' /\ gb g' = gb g /\ proc (gflow n g' s) = p' /\
    forall s', s' <> s -> gflow n g' s' = gflow n g s'.
Proof.
  induction pls as [|l r IH]; intros g p' Hrun; cbn [prun] in Hrun.
  - injection Hrun as <-. exists g. auto.
  - destruct (pstep (proc (gflow n g s)) l) as [p1|] eqn:Hp; [|discriminate].
    destruct (lift_pstep g s l p1 Hp) as (g1 & Hg1 & Hgb1 & <- & Hoth1).
    destruct (IH g1 p' Hrun) as (g' & Hr & Hgb & Hpr & Hoth).
    exists g'. split; [cbn [map grun]; rewrite Hg1; exact Hr|].
    split; [exact (eq_trans Hgb Hgb1)|]. split; [exact Hpr|]. intros s' Hne. rewrite (Hoth s' Hne). exact (Hoth1 s' Hne).
Qed.

Lemma finish_proc g s : greach c n g ->
  exists ls' g', Forall ginternal ls' /\ grun c n g ls' = Some g' /\ gb g' = gb g /\
    stack (proc (gflow n g' s)) = [] /\ held (proc (gflow n g' s)) = [] /\
    forall s', s' <> s -> gflow n g' s' = gflow n g s'.
Proof.
  intros Hre.
  destruct (ProcDrain.can_finish_from (proc (gflow n g s)) (greach_not_pcrashed g s Hre))
    as (p' & Hrun & Hint & _ & Hst & Hh & _).
  destruct (lift_proc s _ g p' Hrun) as (g' & Hrun' & Hgb & <- & Hoth).
  eexists _, g'. split; [exact (Forall_map_GP s _ Hint)|]. auto 6.
Qed.

(* a drained batcher has a current batch or takes a free one: afterwards it accepts an Add *)
Lemma ensure_cur g : 0 < workers c -> greach c n g ->
  stopped (gb g) = false -> crashed (gb g) = false ->
  flight (gb g) = [] -> deciding (gb g) = false -> cur_list (gb g) = [] ->
  exists ls' g', Forall ginternal ls' /\ grun c n g ls' = Some g' /\ gf g' = gf g /\
    stopped (gb g') = false /\ crashed (gb g') = false /\ deciding (gb g') = false /\ cur (gb g') = Some [].
Proof.
  intros Hw Hre Hst Hcr Hfl Hdec Hcu. unfold cur_list in Hcu. destruct (cur (gb g)) as [l0|] eqn:Hc.
  - subst l0. exists [], g. split; [constructor|]. auto 8.
  - (* no batch in flight, none current: all of them are free *)
    destruct (greach_batcher g Hre) as [bls Hb]. pose proof (wf_count _ _ (wf_reach _ _ _ Hb)) as Hn.
    unfold cur_count in Hn. rewrite Hfl, Hc in Hn. cbn [length] in Hn.
    assert (Hfree : (0 <? free (gb g)) = true) by (clear - Hw Hn; lia).
    eexists [GB LFree], _. split; [repeat constructor|].
    split; [cbn [grun gstep]; unfold step; rewrite Hcr, Hc, Hfree; reflexivity|]. cbn. auto 6.
Qed.

(* guard F1 lets the Add of the head of the hand-over queue of stream s through *)
Lemma lift_add g s x r b' : greach c n g -> outq (gflow n g s) = x :: r ->
  step c (gb g) (LAdd (bev_of s x)) = Some b' ->
  exists g', gstep c n g (GB (LAdd (bev_of s x))) = Some g' /\ gb g' = b' /\
    proc (gflow n g' s) = proc (gflow n g s) /\ outq (gflow n g' s) = r /\
    forall s', s' <> s -> gflow n g' s' = gflow n g s'.
Proof.
  intros Hre Hq Hsb.
  assert (Hord : Model.StreamFlow.ordered x = true).
  { apply (split_members _ (greach_finv g s Hre) x), in_or_app. right. apply in_or_app. right. rewrite Hq. left. reflexivity. }
  eexists. split.
  { cbn [gstep fstep]. rewrite Hsb, pev_of_bev_of. change (esrc (bev_of s x)) with s.
    rewrite Hord, (proj1 (greach_link g Hre s)), Hq, Z.eqb_refl. reflexivity. }
  split; [reflexivity|]. rewrite gflow_set, Z.eqb_refl. split; [reflexivity|]. split; [reflexivity|].
  intros s' Hne. apply Z.eqb_neq in Hne. rewrite gflow_set, Hne. reflexivity.
Qed.

(* drain, take a batch, add the head of the queue of stream s *)
Lemma add_one g s x r : 0 < workers c -> (retriable c = false \/ deadq c = false) ->
  greach c n g -> stopped (gb g) = false -> crashed (gb g) = false ->
  outq (gflow n g s) = x :: r ->
  exists ls' g', Forall ginternal ls' /\ grun c n g ls' = Some g' /\
    stopped (gb g') = false /\ crashed (gb g') = false /\
    proc (gflow n g' s) = proc (gflow n g s) /\ outq (gflow n g' s) = r /\
    forall s', s' <> s -> same_po n g g' s'.
Proof.
  intros Hw Hcfg Hre Hst Hcr Hq.
  destruct (drain_batcher g Hw Hcfg Hre Hst Hcr) as (ls1 & g1 & Hi1 & Hr1 & Hst1 & Hcr1 & Hfl1 & _ & Hdec1 & Hcu1 & Hfr1).
  pose proof (greach_run g ls1 g1 Hre Hr1) as Hre1.
  destruct (ensure_cur g1 Hw Hre1 Hst1 Hcr1 Hfl1 Hdec1 Hcu1) as (ls2 & g2 & Hi2 & Hr2 & Hgf2 & Hst2 & Hcr2 & Hdec2 & Hcur2).
  pose proof (greach_run g1 ls2 g2 Hre1 Hr2) as Hre2. pose proof (gflow_gf_eq n g1 g2 Hgf2) as Hfl2.
  destruct (BatcherDrain.step_LAdd_ready c (gb g2) (bev_of s x) Hcr2 Hst2 Hdec2 Hcur2) as (b3 & Hsb & Hst3 & Hcr3).
  destruct (Hfr1 s) as [Hp1 Ho1]. rewrite Hq, <- Hfl2 in Ho1.
  destruct (lift_add g2 s x r b3 Hre2 Ho1 Hsb) as (g3 & Hg3 & <- & Hp3 & Hq3 & Hoth).
  exists (ls1 ++ ls2 ++ [GB (LAdd (bev_of s x))]), g3.
  split; [apply Forall_app; split; [exact Hi1|apply Forall_app; split; [exact Hi2|repeat constructor]]|].
  split; [rewrite grun_app, Hr1, grun_app, Hr2; cbn [grun]; rewrite Hg3; reflexivity|].
  split; [exact Hst3|]. split; [exact Hcr3|]. split; [rewrite Hp3, Hfl2; exact Hp1|]. split; [exact Hq3|].
  intros s' Hne. apply (same_po_trans n g g1 g3 s' (Hfr1 s')), same_po_of_eq. rewrite (Hoth s' Hne). apply Hfl2.
Qed.

(* until the hand-over queue of stream s is empty *)
Lemma add_all s : 0 < workers c -> (retriable c = false \/ deadq c = false) ->
  forall k g, length (outq (gflow n g s)) = k ->
  greach c n g -> stopped (gb g) = false -> crashed (gb g) = false ->
  exists ls' g', Forall ginternal ls' /\ grun c n g ls' = Some g' /\
    stopped (gb g') = false /\ crashed (gb g') = false /\
    proc (gflow n g' s) = proc (gflow n g s) /\ outq (gflow n g' s) = [] /\
    forall s', s' <> s -> same_po n g g' s'.
Proof.
  intros Hw Hcfg. induction k as [|k IH]; intros g Hlen Hre Hst Hcr.
  - exists [], g. split; [constructor|]. split; [reflexivity|]. split; [exact Hst|]. split; [exact Hcr|].
    split; [reflexivity|]. split; [exact (proj1 (length_zero_iff_nil _) Hlen)|]. intros s' _. apply same_po_refl.
  - destruct (outq (gflow n g s)) as [|x r] eqn:Hq; [discriminate|]. injection Hlen as Hlen.
    destruct (add_one g s x r Hw Hcfg Hre Hst Hcr Hq) as (ls1 & g1 & Hi1 & Hr1 & Hst1 & Hcr1 & Hp1 & Hq1 & Hfr1).
    rewrite <- Hq1 in Hlen.
    destruct (IH g1 Hlen (greach_run g ls1 g1 Hre Hr1) Hst1 Hcr1) as (ls2 & g2 & Hi2 & Hr2 & Hst2 & Hcr2 & Hp2 & Hq2 & Hfr2).
    exists (ls1 ++ ls2), g2. split; [apply Forall_app; split; assumption|].
    split; [rewrite grun_app, Hr1; exact Hr2|]. split; [exact Hst2|]. split; [exact Hcr2|].
    split; [exact (eq_trans Hp2 Hp1)|]. split; [exact Hq2|].
    intros s' Hne. exact (same_po_trans n g g1 g2 s' (Hfr1 s' Hne) (Hfr2 s' Hne)).
Qed.

Lemma finish_stream g s : 0 < workers c -> (retriable c = false \/ deadq c = false) ->
  greach c n g -> stopped (gb g) = false -> crashed (gb g) = false ->
  exists ls' g', Forall ginternal ls' /\ grun c n g ls' = Some g' /\
    stopped (gb g') = false /\ crashed (gb g') = false /\ sfin n g' s /\
    forall s', s' <> s -> same_po n g g' s'.
Proof.
  intros Hw Hcfg Hre Hst Hcr.
  destruct (finish_proc g s Hre) as (ls1 & g1 & Hi1 & Hr1 & Hgb1 & Hs1 & Hh1 & Hoth1). rewrite <- Hgb1 in Hst, Hcr.
  destruct (add_all s Hw Hcfg _ g1 eq_refl (greach_run g ls1 g1 Hre Hr1) Hst Hcr)
    as (ls2 & g2 & Hi2 & Hr2 & Hst2 & Hcr2 & Hp2 & Hq2 & Hfr2).
  exists (ls1 ++ ls2), g2. split; [apply Forall_app; split; assumption|].
  split; [rewrite grun_app, Hr1; exact Hr2|]. split; [exact Hst2|]. split; [exact Hcr2|].
  split; [unfold sfin; rewrite Hp2; auto|].
  intros s' Hne. exact (same_po_trans n g g1 g2 s' (same_po_of_eq n g g1 s' (Hoth1 s' Hne)) (Hfr2 s' Hne)).
Qed.

Lemma finish_streams : 0 < workers c -> (retriable c = false \/ deadq c = false) ->
  forall L g, greach c n g -> stopped (gb g) = false -> crashed (gb g) = false ->
  exists ls' g', Forall ginternal ls' /\ grun c n g ls' = Some g' /\
    stopped (gb g') = false /\ crashed (gb g') = false /\
    (forall s, In s L -> sfin n g' s) /\ (forall s, ~ In s L -> same_po n g g' s).
Proof.
  intros Hw Hcfg. induction L as [|s L IH]; intros g Hre Hst Hcr.
  - exists [], g. split; [constructor|]. split; [reflexivity|]. split; [exact Hst|]. split; [exact Hcr|].
    split; [intros s []|intros s _; apply same_po_refl].
  - destruct (finish_stream g s Hw Hcfg Hre Hst Hcr) as (ls1 & g1 & Hi1 & Hr1 & Hst1 & Hcr1 & Hfin1 & Hfr1).
    destruct (IH g1 (greach_run g ls1 g1 Hre Hr1) Hst1 Hcr1) as (ls2 & g2 & Hi2 & Hr2 & Hst2 & Hcr2 & Hfin2 & Hfr2).
    exists (ls1 ++ ls2), g2. split; [apply Forall_app; split; assumption|].
    split; [rewrite grun_app, Hr1; exact Hr2|]. split; [exact Hst2|]. split; [exact Hcr2|]. split.
    + intros s0 Hin. destruct (in_dec Z.eq_dec s0 L) as [HinL|HninL]; [exact (Hfin2 s0 HinL)|].
      destruct Hin as [<-|Hin]; [|contradiction]. exact (sfin_same n g1 g2 s (Hfr2 s HninL) Hfin1).
    + intros s0 Hnin. apply (same_po_trans n g g1 g2 s0); [apply Hfr1|apply Hfr2]; intros H; apply Hnin;
        [left; symmetry; exact H|right; exact H].
Qed.

End Drain.

(* the premise [0 <= n] of the theorem is not used; the drain also leaves the batcher not stopped *)
Lemma pipe_drain_core :
  forall c n ls g, 0 < workers c -> (retriable c = false \/ deadq c = false) ->
    grun c n (ginit c) ls = Some g -> stopped (gb g) = false -> crashed (gb g) = false ->
    exists ls' g', Forall ginternal ls' /\ grun c n g ls' = Some g' /\ stopped (gb g') = false /\
      crashed (gb g') = false /\ flight (gb g') = [] /\ queue (gb g') = [] /\ cur_list (gb g') = [] /\
      rev (committed (gb g')) = rev (added (gb g')) /\
      forall s, let f := gflow n g' s in
        stack (proc f) = [] /\ held (proc f) = [] /\ outq f = [] /\ addq f = [] /\
        (forall e, In e (ftaken (sproj s (ls ++ ls'))) -> In e (commits f) \/ In e (dropped (proc f))).
Proof.
  intros c n ls g Hw Hcfg Hrun Hst Hcr. pose proof (ex_intro _ ls Hrun : greach c n g) as Hre.
  destruct (finish_streams c n Hw Hcfg (map fst (gf g)) g Hre Hst Hcr) as (ls1 & g1 & Hi1 & Hr1 & Hst1 & Hcr1 & Hfin1 & Hfr1).
  destruct (drain_batcher c n g1 Hw Hcfg (greach_run c n g ls1 g1 Hre Hr1) Hst1 Hcr1)
    as (ls2 & g2 & Hi2 & Hr2 & Hst2 & Hcr2 & Hfl2 & Hq2 & _ & Hcu2 & Hfr2).
  assert (Hr : grun c n g (ls1 ++ ls2) = Some g2) by (rewrite grun_app, Hr1; exact Hr2).
  assert (Hrun2 : grun c n (ginit c) (ls ++ ls1 ++ ls2) = Some g2) by (rewrite grun_app, Hrun; exact Hr).
  pose proof (exactly_once_at_quiescence c _ _ Hcfg (pipe_proj_batcher c n _ g2 Hrun2) Hfl2 Hcu2) as Hco.
  exists (ls1 ++ ls2), g2. split; [apply Forall_app; split; assumption|]. do 6 (split; [assumption|]). split; [exact Hco|].
  intros s f.
  assert (Hfin : sfin n g2 s).
  { apply (sfin_same n g1 g2 s (Hfr2 s)). destruct (in_dec Z.eq_dec s (map fst (gf g))) as [Hin|Hnin]; [exact (Hfin1 s Hin)|].
    exact (sfin_same n g g1 s (Hfr1 s Hnin) (sfin_absent n g s Hnin)). }
  destruct Hfin as (Hs & Hh & Ho). fold f in Hs, Hh, Ho. do 3 (split; [assumption|]).
  (* nothing is left between Add and Commit: the batcher committed all it was given *)
  pose proof (pipe_link c n _ g2 Hrun2 s) as L. rewrite Hco in L. split; [exact (flink_caught_up _ _ L)|].
  intros e He. apply (Permutation_in _ (Permutation_sym (pipe_quiescent c n _ g2 s Hrun2 Hs Hh Ho Hco))) in He.
  apply in_app_or in He. destruct He as [He|He]; [left; exact He|right]. apply filter_In in He. exact (proj1 He).
Qed.

Theorem pipe_can_always_drain :
  forall c n ls g, 0 < workers c -> 0 <= n -> (retriable c = false \/ deadq c = false) ->
    grun c n (ginit c) ls = Some g -> stopped (gb g) = false -> crashed (gb g) = false ->
    exists ls' g', Forall ginternal ls' /\ grun c n g ls' = Some g' /\
      crashed (gb g') = false /\ flight (gb g') = [] /\ queue (gb g') = [] /\ cur_list (gb g') = [] /\
      rev (committed (gb g')) = rev (added (gb g')) /\
      forall s, let f := gflow n g' s in
        stack (proc f) = [] /\ held (proc f) = [] /\ outq f = [] /\ addq f = [] /\
        (forall e, In e (ftaken (sproj s (ls ++ ls'))) -> In e (commits f) \/ In e (dropped (proc f))).
Proof.
  intros c n ls g Hw _ Hcfg Hrun Hst Hcr.
  destruct (pipe_drain_core c n ls g Hw Hcfg Hrun Hst Hcr) as (ls' & g' & Hi & Hr & _ & Hrest).
  exists ls', g'. split; [exact Hi|]. split; [exact Hr|]. exact Hrest.
Qed.

Lemma ftaken_app a b : ftaken (a ++ b) = ftaken a ++ ftaken b.
Proof. unfold ftaken, taken. rewrite fproj_app. apply flat_map_app. Qed.

Lemma ginternal_takes_nothing s ls' : Forall ginternal ls' -> ftaken (sproj s ls') = [].
Proof.
  intros H. induction H as [|l r Hl _ IH]; [reflexivity|].
  change (sproj s (l :: r)) with (slabels s l ++ sproj s r). rewrite ftaken_app, IH, app_nil_r.
  destruct l as [bl|s' pl]; cbn [slabels].
  - destruct bl; try reflexivity; destruct (_ : bool); reflexivity.
  - destruct (s' =? s); [|reflexivity]. destruct pl; try reflexivity.
    (* a time-out is not an ordered event *)
    cbn in Hl |- *. unfold ordered. rewrite Hl. reflexivity.
Qed.

(* the drain takes no regular event: what the streams had been given before the drain is all there is
   to account for, and all of it is committed or was dropped by an action *)
Corollary pipe_drain_accounts_for_the_past :
  forall c n ls g, 0 < workers c -> (retriable c = false \/ deadq c = false) ->
    grun c n (ginit c) ls = Some g -> stopped (gb g) = false -> crashed (gb g) = false ->
    exists ls' g', Forall ginternal ls' /\ grun c n g ls' = Some g' /\ stopped (gb g') = false /\
      forall s, ftaken (sproj s (ls ++ ls')) = ftaken (sproj s ls) /\
        forall e, In e (ftaken (sproj s ls)) ->
          In e (commits (gflow n g' s)) \/ In e (dropped (proc (gflow n g' s))).
Proof.
  intros c n ls g Hw Hcfg Hrun Hst Hcr.
  destruct (pipe_drain_core c n ls g Hw Hcfg Hrun Hst Hcr) as (ls' & g' & Hi & Hr & Hst' & _ & _ & _ & _ & _ & Hall).
  exists ls', g'. split; [exact Hi|]. split; [exact Hr|]. split; [exact Hst'|]. intros s.
  assert (Heq : ftaken (sproj s (ls ++ ls')) = ftaken (sproj s ls)).
  { rewrite sproj_app, ftaken_app, (ginternal_takes_nothing s ls' Hi). apply app_nil_r. }
  split; [exact Heq|]. intros e He. destruct (Hall s) as (_ & _ & _ & _ & Hacc). apply Hacc. rewrite Heq. exact He.
Qed.

Lemma nv_at_eq ls g : grun nv_c 1 (ginit nv_c) ls = Some g -> g = nv_at ls.
Proof. intros H. unfold nv_at. rewrite H. reflexivity. Qed.

(* A. the state reached by [nv_run] of Proofs/Pipe.v: two streams; batch 0 (one event of each stream) is
   inside its commit section with both events committed; event 2 of stream 0 is added, sits in the
   current batch and waits (addq of stream 0); nothing in the processors *)
Definition nv_drain : list glabel :=
  [ GB (LCommitEnd 0 1);
    GB LTick; GB (LSeal 1 1 2 5); GB (LPush 1); GB (LTake 1); GB (LOutBegin 1 1); GB (LOutEnd 1 1 2);
    GB (LCommitBegin 1 1); GB (LCommitEv (bev 2 0)); GB (LCommitEnd 1 2) ].

Example pipe_drain_nonvacuous :
  exists g g',
    grun nv_c 1 (ginit nv_c) nv_run = Some g /\
    stopped (gb g) = false /\ crashed (gb g) = false /\
    map bstage (flight (gb g)) = [Committing 2] /\ cur (gb g) = Some [bev 2 0] /\ addq (gflow 1 g 0) = [ev 2 0] /\
    Forall ginternal nv_drain /\ grun nv_c 1 g nv_drain = Some g' /\
    crashed (gb g') = false /\ flight (gb g') = [] /\ queue (gb g') = [] /\ cur_list (gb g') = [] /\
    rev (committed (gb g')) = rev (added (gb g')) /\ rev (committed (gb g')) = [bev 1 1; bev 1 0; bev 2 0] /\
    map fst (gf g') = [0; 1] /\
    (let f := gflow 1 g' 0 in
     stack (proc f) = [] /\ held (proc f) = [] /\ outq f = [] /\ addq f = [] /\ rev (commits f) = [ev 1 0; ev 2 0] /\
     ftaken (sproj 0 (nv_run ++ nv_drain)) = [ev 1 0; ev 2 0]) /\
    (let f := gflow 1 g' 1 in
     stack (proc f) = [] /\ held (proc f) = [] /\ outq f = [] /\ addq f = [] /\ rev (commits f) = [ev 1 0] /\
     ftaken (sproj 1 (nv_run ++ nv_drain)) = [ev 1 0]).
Proof.
  exists (nv_at nv_run), (nv_at (nv_run ++ nv_drain)). split; [vm_compute; reflexivity|].
  do 5 (split; [vm_compute; reflexivity|]).
  split; [repeat constructor|].
  do 8 (split; [vm_compute; reflexivity|]).
  split; vm_compute; repeat split; reflexivity.
Qed.

(* B. the same run continued until every component has something in hand:
   stream 1 (one action): event 2 is HELD by action 0;
   stream 0: event 3 passed and waits in the hand-over queue, event 4 is inside Do of action 0;
   batcher (2 batch objects): batch 0 in its commit section, event 2 of stream 0 in the current batch, no free batch. *)
Definition nv_more : list glabel :=
  [ GP 1 (PTake (ev 2 0) 0); GP 1 (PDo (ev 2 0) 0 false); GP 1 (PResult (ev 2 0) 0 RHold);
    GP 0 (PTake (ev 3 0) 0); GP 0 (PDo (ev 3 0) 0 false); GP 0 (PResult (ev 3 0) 0 RPass); GP 0 (POut (ev 3 0));
    GP 0 (PTake (ev 4 0) 0); GP 0 (PDo (ev 4 0) 0 false) ].

(* the drain: the processors finish (stream 1 by a time-out that makes action 0 flush what it holds), the three
   events handed to the output are added as batches become available (each one the head of its stream's queue),
   the batcher flushes and commits *)
Definition nv_drain_more : list glabel :=
  [ GP 0 (PResult (ev 4 0) 0 RPass); GP 0 (POut (ev 4 0));
    GP 1 (PTake (ev 0 3) 0); GP 1 (PDo (ev 0 3) 0 true); GP 1 (PPropagate (ev 2 0) 1); GP 1 (POut (ev 2 0));
    GP 1 (PResult (ev 0 3) 0 RDiscard);
    GB (LCommitEnd 0 1);
    GB (LAdd (bev 3 0)); GB (LSeal 1 2 1 10); GB (LPush 1);
    GB LFree; GB (LAdd (bev 2 1)); GB (LNotReady 1 5 0 100); GB (LAdd (bev 4 0)); GB (LSeal 2 2 1 10); GB (LPush 2);
    GB (LTake 1); GB (LOutBegin 1 2); GB (LOutEnd 1 2 1);
    GB (LCommitBegin 1 2); GB (LCommitEv (bev 2 0)); GB (LCommitEv (bev 3 0)); GB (LCommitEnd 1 1);
    GB (LTake 2); GB (LOutBegin 2 2); GB (LOutEnd 2 2 1);
    GB (LCommitBegin 2 2); GB (LCommitEv (bev 2 1)); GB (LCommitEv (bev 4 0)); GB (LCommitEnd 2 1) ].

Example pipe_drain_nonvacuous_all_components :
  exists g g',
    grun nv_c 1 (ginit nv_c) (nv_run ++ nv_more) = Some g /\
    stopped (gb g) = false /\ crashed (gb g) = false /\
    map bstage (flight (gb g)) = [Committing 2] /\ cur (gb g) = Some [bev 2 0] /\ free (gb g) = 0 /\
    held (proc (gflow 1 g 1)) = [(0, ev 2 0)] /\
    outq (gflow 1 g 0) = [ev 3 0] /\ map fev (stack (proc (gflow 1 g 0))) = [ev 4 0] /\ addq (gflow 1 g 0) = [ev 2 0] /\
    Forall ginternal nv_drain_more /\ grun nv_c 1 g nv_drain_more = Some g' /\
    crashed (gb g') = false /\ flight (gb g') = [] /\ queue (gb g') = [] /\ cur_list (gb g') = [] /\
    rev (committed (gb g')) = rev (added (gb g')) /\
    rev (committed (gb g')) = [bev 1 1; bev 1 0; bev 2 0; bev 3 0; bev 2 1; bev 4 0] /\
    map fst (gf g') = [0; 1] /\
    (let f := gflow 1 g' 0 in
     stack (proc f) = [] /\ held (proc f) = [] /\ outq f = [] /\ addq f = [] /\
     rev (commits f) = [ev 1 0; ev 2 0; ev 3 0; ev 4 0] /\ dropped (proc f) = [] /\
     ftaken (sproj 0 ((nv_run ++ nv_more) ++ nv_drain_more)) = [ev 1 0; ev 2 0; ev 3 0; ev 4 0]) /\
    (let f := gflow 1 g' 1 in
     stack (proc f) = [] /\ held (proc f) = [] /\ outq f = [] /\ addq f = [] /\
     rev (commits f) = [ev 1 0; ev 2 0] /\ dropped (proc f) = [] /\
     ftaken (sproj 1 ((nv_run ++ nv_more) ++ nv_drain_more)) = [ev 1 0; ev 2 0]).
Proof.
  exists (nv_at (nv_run ++ nv_more)), (nv_at ((nv_run ++ nv_more) ++ nv_drain_more)).
  do 10 (split; [vm_compute; reflexivity|]).
  split; [repeat constructor|].
  do 8 (split; [vm_compute; reflexivity|]).
  split; vm_compute; repeat split; reflexivity.
Qed.

(* guard F1 is a real guard on the way: once both events of stream 0 wait for the batcher, the younger one is
   refused (by the flow, not by the batcher) while the older one is accepted *)
Example pipe_drain_F1_guards :
  forall g, grun nv_c 1 (ginit nv_c) (nv_run ++ nv_more ++ firstn 8 nv_drain_more) = Some g ->
    outq (gflow 1 g 0) = [ev 3 0; ev 4 0] /\
    gstep nv_c 1 g (GB (LAdd (bev 4 0))) = None /\ step nv_c (gb g) (LAdd (bev 4 0)) <> None /\
    gstep nv_c 1 g (GB (LAdd (bev 3 0))) <> None.
Proof.
  intros g H. apply nv_at_eq in H as ->.
  split; [vm_compute; reflexivity|]. split; [vm_compute; reflexivity|]. split; vm_compute; discriminate.
Qed.

(* the premises of the theorem hold of state B: the theorem applies to it *)
Example pipe_can_always_drain_applies :
  forall g, grun nv_c 1 (ginit nv_c) (nv_run ++ nv_more) = Some g ->
    exists ls' g', Forall ginternal ls' /\ grun nv_c 1 g ls' = Some g' /\
      flight (gb g') = [] /\ cur_list (gb g') = [] /\ rev (committed (gb g')) = rev (added (gb g')) /\
      forall s, stack (proc (gflow 1 g' s)) = [] /\ held (proc (gflow 1 g' s)) = [] /\
                outq (gflow 1 g' s) = [] /\ addq (gflow 1 g' s) = [].
Proof.
  intros g H.
  assert (Hlive : stopped (gb g) = false /\ crashed (gb g) = false).
  { rewrite (nv_at_eq _ g H). split; vm_compute; reflexivity. }
  destruct Hlive as [Hst Hcr].
  destruct (pipe_can_always_drain nv_c 1 _ g ltac:(cbn; lia) ltac:(lia) (or_introl eq_refl) H Hst Hcr)
    as (ls' & g' & Hi & Hr & _ & Hfl & _ & Hcu & Hco & Hall).
  exists ls', g'. repeat (split; [assumption|]). intros s. destruct (Hall s) as (H1 & H2 & H3 & H4 & _). auto.
Qed.

Print Assumptions pipe_drain_accounts_for_the_past.
Print Assumptions pipe_drain_nonvacuous.
Print Assumptions pipe_drain_nonvacuous_all_components.
Print Assumptions pipe_can_always_drain.
