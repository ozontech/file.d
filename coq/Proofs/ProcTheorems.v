(* Final statements about the processor model Model/Proc.v (invariants and step relation: Proofs/Proc.v).
   Referenced from Properties/C01.v, C02.v, C04.v, C05.v, C13.v.

   The model carries the protocol P1-P6 as guards of [pstep]; P5 (Spawn enters its events to the
   right of the spawning action and never past a holder) is there for these theorems: without it the
   ordering theorem is false ([proc_outs_increasing_noP5_refuted] below).  P6 (PSkipTo: an event skips
   only idle actions) is needed likewise ([proc_outs_increasing_noP6_refuted]). *)
From Verif Require Import Base.Sx Model.Proc Proofs.Proc.
From Coq Require Import Lia Bool List ZArith Sorted Permutation.
Import ListNotations.
Local Open Scope Z_scope.

(* C01 / C02: ordered events leave the processor in the order they were read *)
Lemma proc_outs_increasing : forall n ls s, prun (pinit n) ls = Some s ->
  increasing (map pseq (filter ordered (rev (outs s)))).
Proof. intros n ls s H. exact (outs_sorted _ (pi_ord _ (pinv_reachable _ _ _ H))). Qed.

(* the invariant behind it: [struct_ok] and [ord_ok] in Proofs/Proc.v *)
Lemma proc_invariant : forall n ls s, prun (pinit n) ls = Some s -> pinv s.
Proof. exact pinv_reachable. Qed.

(* conservation: none lost, none duplicated, nothing foreign.  The list of all places is [places s]. *)
Lemma proc_conservation : forall n ls s, prun (pinit n) ls = Some s ->
  forall e, ordered e = true ->
    ((exists start, In (PTake e start) ls) ->
       count_occ pev_eq_dec (outs s ++ dropped s ++ map snd (held s) ++ map fev (stack s)) e = 1%nat) /\
    (~ (exists start, In (PTake e start) ls) ->
       ~ In e (outs s ++ dropped s ++ map snd (held s) ++ map fev (stack s))).
Proof. exact conservation. Qed.

(* the same as a permutation: the ordered events in all places are exactly the ordered events taken,
   each once ([taken ls] lists the ordered e of every [PTake e _] in ls, in order) *)
Lemma proc_conservation_perm : forall n ls s, prun (pinit n) ls = Some s ->
  Permutation (filter ordered (outs s ++ dropped s ++ map snd (held s) ++ map fev (stack s))) (taken ls) /\
  NoDup (taken ls).
Proof.
  intros n ls s H. pose proof (conservation_cnt _ _ _ H) as Ha. split; [exact (accounts_perm _ _ Ha)|apply Ha].
Qed.

Lemma proc_taken_spec : forall e ls, In e (taken ls) <-> ordered e = true /\ exists start, In (PTake e start) ls.
Proof. exact In_taken. Qed.

(* processEvent returns after a hand-over to the output without a look at busyActionsTotal: after ANY POut nothing is held, so
   it is 0 there.  After a Discard / Collapse / Hold it is Go's own test of that counter that keeps the processor on the stream,
   and the counter is outside the model. *)
Lemma proc_nothing_held_after_out : forall n ls e s, prun (pinit n) (ls ++ [POut e]) = Some s -> held s = [].
Proof.
  intros n ls e s. rewrite prun_app. destruct (prun (pinit n) ls) as [s1|] eqn:E1; [|discriminate].
  intros H. apply prun_cons in H as (s2 & E2 & H). injection H as <-. inversion E2; subst. cbn [held].
  eapply head_out; [exact (pi_struct _ (pinv_reachable _ _ _ E1))|eassumption..].
Qed.

Lemma proc_nothing_held_after_pass : forall n ls s, prun (pinit n) ls = Some s ->
  (exists ls' e, ls = ls' ++ [POut e]) -> stack s = [] -> held s = [].
Proof. intros n ls s H [ls' [e ->]] _. eapply proc_nothing_held_after_out; eauto. Qed.

(* C13: a time-out enters the chain only at an action that holds an event.
   Taken from the stream: at a holder with nothing held left of it; its first Do is at that action, busy *)
Lemma proc_timeout_only_to_holder : forall s e start s', pstep s (PTake e start) = Some s' -> pkind e = 3 ->
  held_at (held s) start <> None /\ (forall j y, In (j, y) (held s) -> start <= j).
Proof. intros s e start s' H Hk. destruct (timeout_take _ _ _ _ H Hk) as [H1 [H2 _]]. auto. Qed.

Lemma proc_timeout_first_do_busy : forall s e start s1 e' a busy s2,
  pstep s (PTake e start) = Some s1 -> pkind e = 3 -> pstep s1 (PDo e' a busy) = Some s2 ->
  e' = e /\ a = start /\ busy = true.
Proof.
  intros s e start s1 e' a busy s2 H1 Hk H2. destruct (timeout_take _ _ _ _ H1 Hk) as (Hh & _ & Hs & Hheld).
  destruct (pstep_do _ _ _ _ _ H2) as (f & r & E & _ & -> & -> & ->). rewrite Hs in E. injection E as <- _.
  cbn [fev fidx]. rewrite Hheld. destruct (held_at (held s) start); [auto|congruence].
Qed.

Lemma proc_spawn_timeout_only_to_holder : forall s e idx s', pstep s (PPush e idx) = Some s' -> pkind e = 3 ->
  held_at (held s) idx <> None /\ (forall j y, In (j, y) (held s) -> idx <= j).
Proof. intros s e idx s' H Hk. destruct (timeout_push _ _ _ _ H Hk) as [H1 [H2 _]]. auto. Qed.

Lemma proc_spawn_timeout_first_do_busy : forall s e idx s1 e' a busy s2,
  pstep s (PPush e idx) = Some s1 -> pkind e = 3 -> pstep s1 (PDo e' a busy) = Some s2 ->
  e' = e /\ a = idx /\ busy = true.
Proof.
  intros s e idx s1 e' a busy s2 H1 Hk H2. destruct (timeout_push _ _ _ _ H1 Hk) as (Hh & _ & Hs & Hheld).
  destruct (pstep_do _ _ _ _ _ H2) as (f & r & E & Hp & -> & -> & ->). rewrite Hs in E. injection E as <- _.
  rewrite fev_enter, enter_at, Hheld by congruence. destruct (held_at (held s) idx); [auto|congruence].
Qed.

(* "EVERY Do of a time-out is at a busy action" is false of the model: having flushed the held event
   the time-out may itself be passed on to the next, idle, action *)
Lemma proc_timeout_every_do_busy_refuted :
  exists n ls s e a s', prun (pinit n) ls = Some s /\ pkind e = 3 /\ pstep s (PDo e a false) = Some s'.
Proof.
  exists 2, w_timeout_passes. eexists. exists (ev 0 3), 1. eexists. split; [vm_compute; reflexivity|].
  split; [reflexivity|vm_compute; reflexivity].
Qed.

(* necessity of P5: [pstep_noP5] is [pstep] whose PPush accepts a child anywhere and a time-out at any holder *)
Lemma proc_pstep_noP5_weaker : forall s l s', pstep s l = Some s' -> pstep_noP5 s l = Some s'.
Proof.
  intros s l s'. destruct l; cbn [pstep_noP5]; auto. unfold pstep.
  destruct (pcrashed s); [auto|]. destruct (stack s) as [|f r]; [auto|]. destruct (fph f); auto.
  apply guard_weaker. intros H. apply andb_true_iff in H as [H _]. destruct (pkind e =? 1); [reflexivity|exact H].
Qed.

Lemma proc_outs_increasing_noP5_refuted :
  exists n ls s, prun_noP5 (pinit n) ls = Some s /\ ~ increasing (map pseq (filter ordered (rev (outs s)))).
Proof. exists 3, w_child_left. apply out_of_order. vm_compute. reflexivity. Qed.

Lemma proc_nothing_held_after_pass_noP5_refuted :
  exists n ls e s, prun_noP5 (pinit n) (ls ++ [POut e]) = Some s /\ stack s = [] /\ held s <> [].
Proof.
  exists 2, (removelast w_held_after_out), (ev 1 0). eexists. split; [vm_compute; reflexivity|].
  split; [reflexivity|discriminate].
Qed.

(* both offending traces are rejected by the model with P5; the third example shows where for the first: at its PPush *)
Example proc_P5_rejects_child_left : prun (pinit 3) w_child_left = None.
Proof. vm_compute. reflexivity. Qed.
Example proc_P5_rejects_timeout_past_holder : prun (pinit 3) w_timeout_past = None.
Proof. vm_compute. reflexivity. Qed.
Example proc_P5_rejects_at_push :
  option_map (fun s => (held s, map fidx (stack s))) (prun (pinit 3) (firstn 10 w_child_left))
    = Some ([(0, ev 2 0); (1, ev 1 0)], [0]) /\
  nth_error w_child_left 10 = Some (PPush (ev 0 1) 1) /\
  (forall s, prun (pinit 3) (firstn 10 w_child_left) = Some s -> pstep s (PPush (ev 0 1) 1) = None).
Proof.
  split; [vm_compute; reflexivity|]. split; [reflexivity|].
  intros s H. vm_compute in H. inversion H; subst s. vm_compute. reflexivity.
Qed.

(* necessity of P6: [pstep_noP6] is [pstep] with PSkipTo allowed to skip a busy action *)
Lemma proc_pstep_noP6_weaker : forall s l s', pstep s l = Some s' -> pstep_noP6 s l = Some s'.
Proof.
  intros s l s'. destruct l; cbn [pstep_noP6]; auto. unfold pstep.
  destruct (pcrashed s); [auto|]. destruct (stack s) as [|f r]; [auto|]. destruct (fph f); auto.
  apply guard_weaker. intros H. apply andb_true_iff in H. apply H.
Qed.

(* an event skipping a holder overtakes the held one *)
Lemma proc_outs_increasing_noP6_refuted :
  exists n ls s, prun_noP6 (pinit n) ls = Some s /\ ~ increasing (map pseq (filter ordered (rev (outs s)))).
Proof. exists 2, w_skip_holder. apply out_of_order. vm_compute. reflexivity. Qed.

Lemma proc_nothing_held_after_pass_noP6_refuted :
  exists n ls e s, prun_noP6 (pinit n) (ls ++ [POut e]) = Some s /\ stack s = [] /\ held s <> [].
Proof.
  exists 2, (firstn 7 w_skip_holder), (ev 2 0). eexists. split; [vm_compute; reflexivity|].
  split; [reflexivity|discriminate].
Qed.

Example proc_P6_rejects_offending_trace : prun (pinit 2) w_skip_holder = None.
Proof. vm_compute. reflexivity. Qed.

(* 3 actions, action 1 holds e1.  The next event e2 cannot skip to action 2, neither from index 0 nor
   (after passing action 0) from index 1; skipping the idle action 0 only is accepted *)
Definition holder_at_1 : list plabel :=
  [PTake (ev 1 0) 0; PDo (ev 1 0) 0 false; PResult (ev 1 0) 0 RPass; PDo (ev 1 0) 1 false; PResult (ev 1 0) 1 RHold;
   PTake (ev 2 0) 0].

Example proc_P6_rejects_skip_past_holder :
  (forall s, prun (pinit 3) holder_at_1 = Some s ->
     held s = [(1, ev 1 0)] /\ map fidx (stack s) = [0] /\
     pstep s (PSkipTo (ev 2 0) 2) = None /\ pstep s (PSkipTo (ev 2 0) 3) = None /\
     pstep s (PSkipTo (ev 2 0) 1) <> None) /\
  (forall s, prun (pinit 3) (holder_at_1 ++ [PDo (ev 2 0) 0 false; PResult (ev 2 0) 0 RPass]) = Some s ->
     held s = [(1, ev 1 0)] /\ map fidx (stack s) = [1] /\
     pstep s (PSkipTo (ev 2 0) 2) = None /\ pstep s (PSkipTo (ev 2 0) 3) = None) /\
  (forall s, prun (pinit 3) (holder_at_1 ++ [PSkipTo (ev 2 0) 1]) = Some s ->
     map fidx (stack s) = [1] /\ pstep s (PSkipTo (ev 2 0) 2) = None).
Proof.
  split; [|split]; intros s H; vm_compute in H; inversion H; subst s; vm_compute; repeat split; discriminate.
Qed.

(* 3 actions.  Action 0 holds e1.  e2 arrives: action 0 flushes e1, which passes action 1 and is held
   by action 2; action 0 then holds e2.  e3 arrives: action 0 flushes e2, which passes action 1 and
   makes action 2 flush e1 (out), then passes (out); finally e3 passes all three actions (out). *)
Definition chain3 : list plabel :=
  [PTake (ev 1 0) 0; PDo (ev 1 0) 0 false; PResult (ev 1 0) 0 RHold;
   PTake (ev 2 0) 0; PDo (ev 2 0) 0 true; PPropagate (ev 1 0) 1;
     PDo (ev 1 0) 1 false; PResult (ev 1 0) 1 RPass; PDo (ev 1 0) 2 false; PResult (ev 1 0) 2 RHold;
   PResult (ev 2 0) 0 RHold;
   PTake (ev 3 0) 0; PDo (ev 3 0) 0 true; PPropagate (ev 2 0) 1;
     PDo (ev 2 0) 1 false; PResult (ev 2 0) 1 RPass; PDo (ev 2 0) 2 true; PPropagate (ev 1 0) 3; POut (ev 1 0);
     PResult (ev 2 0) 2 RPass; POut (ev 2 0);
   PResult (ev 3 0) 0 RPass; PDo (ev 3 0) 1 false; PResult (ev 3 0) 1 RPass; PDo (ev 3 0) 2 false;
   PResult (ev 3 0) 2 RPass; POut (ev 3 0)].

Example proc_chain3_in_order :
  option_map (fun s => (rev (outs s), held s, stack s, dropped s)) (prun (pinit 3) chain3)
    = Some ([ev 1 0; ev 2 0; ev 3 0], [], [], []).
Proof. vm_compute. reflexivity. Qed.

(* the intermediate state: two holders, the older event further right *)
Example proc_chain3_two_holders :
  option_map (fun s => (held s, stack s)) (prun (pinit 3) (firstn 11 chain3))
    = Some ([(0, ev 2 0); (2, ev 1 0)], []).
Proof. vm_compute. reflexivity. Qed.

(* P3 is what keeps the order: while action 0 holds e1, the newer e2 is not let through (nor broken,
   nor held on top of it); flushing e1 first is accepted, and then e2 may pass *)
Definition holding_prefix : list plabel :=
  [PTake (ev 1 0) 0; PDo (ev 1 0) 0 false; PResult (ev 1 0) 0 RHold; PTake (ev 2 0) 0; PDo (ev 2 0) 0 true].

Example proc_P3_rejects_pass_while_holding :
  forall s, prun (pinit 2) holding_prefix = Some s ->
    held s = [(0, ev 1 0)] /\
    pstep s (PResult (ev 2 0) 0 RPass) = None /\
    pstep s (PResult (ev 2 0) 0 RBreak) = None /\
    pstep s (PResult (ev 2 0) 0 RHold) = None /\
    pstep s (PPropagate (ev 1 0) 1) <> None.
Proof.
  intros s H. vm_compute in H. inversion H; subst s. vm_compute. repeat split; discriminate.
Qed.

Example proc_P3_flush_then_pass_in_order :
  option_map (fun s => rev (outs s))
    (prun (pinit 2) (holding_prefix ++ [PPropagate (ev 1 0) 1; PDo (ev 1 0) 1 false; PResult (ev 1 0) 1 RPass; POut (ev 1 0);
                                        PResult (ev 2 0) 0 RPass; PDo (ev 2 0) 1 false; PResult (ev 2 0) 1 RPass; POut (ev 2 0)]))
    = Some [ev 1 0; ev 2 0].
Proof. vm_compute. reflexivity. Qed.

Print Assumptions proc_outs_increasing.
Print Assumptions proc_conservation.
Print Assumptions proc_conservation_perm.
Print Assumptions proc_nothing_held_after_pass.
Print Assumptions proc_timeout_first_do_busy.
Print Assumptions proc_outs_increasing_noP5_refuted.
Print Assumptions proc_outs_increasing_noP6_refuted.
