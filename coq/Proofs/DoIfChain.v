(* Action chains (Model/DoIf.v chain_step / chain_run = processor.doActions over the actions of a
   pipeline): which actions an event enters depends on the selectors only through their decisions,
   so the refinement check = eval lifts to whole chains; for actions that are not in the middle of a
   sequence the entered bit is exactly "the event got this far and the selector holds". *)
From Verif Require Import Base.Sx Base.GoSem Base.Json Model.DoIf Proofs.DoIf.

Lemma chain_step_ext dec1 dec2 acts : forall sts,
  (forall a, In a acts -> sel_dec dec1 a = sel_dec dec2 a) ->
  chain_step dec1 acts sts = chain_step dec2 acts sts.
Proof.
  induction acts as [|a ar IH]; intros [|s sr] H; try reflexivity. cbn [chain_step].
  rewrite (H a (or_introl eq_refl)), (IH sr (fun b Hb => H b (or_intror Hb))). reflexivity.
Qed.

Lemma chain_run_ext {E} (dec1 dec2 : E -> node -> bool) acts evs : forall sts,
  (forall e, In e evs -> forall a, In a acts -> sel_dec (dec1 e) a = sel_dec (dec2 e) a) ->
  chain_run dec1 acts sts evs = chain_run dec2 acts sts evs.
Proof.
  induction evs as [|e r IH]; intros sts H; [reflexivity|]. cbn [chain_run].
  rewrite (chain_step_ext (dec1 e) (dec2 e) acts sts (H e (or_introl eq_refl))).
  destruct (chain_step (dec2 e) acts sts) as [[bs o] sts'].
  rewrite (IH sts' (fun e' He' => H e' (or_intror He'))). reflexivity.
Qed.

Section Chain.
  Variable lower : bytes -> bytes.
  Variable re_match : bytes -> bytes -> bool.
  Variable go_contains_any : bytes -> bytes -> bool.
  Variable parse_time : bytes -> bytes -> option Z.
  Variable as_int : bytes -> Z.
  Variable re_ok : bytes -> bool.

  Notation checkM := (check lower re_match go_contains_any parse_time as_int).
  Notation evalM := (eval lower re_match go_contains_any parse_time as_int).

  (* every selector of the chain is accepted by the constructors and meets the side conditions of
     check_eq_eval on this event *)
  Definition chain_ok (acts : list cact) (e : json) : Prop :=
    forall a n, In a acts -> ca_sel a = Some n ->
      wfb re_ok n = true /\ lower_hyp lower n e = true /\ cont_ok lower re_match go_contains_any n e = true.

  (* which actions every event of the stream enters, and which events reach the output, computed
     with the code's short-cuts in every selector, is what the documented meaning of the selectors
     gives — through pass / break / discard / collapse results and busy actions alike *)
  Theorem chain_check_eq_eval acts sts (evs : list (json * Z)) :
    (forall e, In e evs -> chain_ok acts (fst e)) ->
    chain_run (fun e n => checkM n (fst e) (snd e)) acts sts evs
    = chain_run (fun e n => evalM n (fst e) (snd e)) acts sts evs.
  Proof.
    intros H. apply chain_run_ext. intros e He a Ha. unfold sel_dec.
    destruct (ca_sel a) as [n|] eqn:Es; [|reflexivity].
    destruct (H e He a n Ha Es) as [Hw [Hl Hc]].
    apply (check_eq_eval lower re_match go_contains_any parse_time as_int re_ok); assumption.
  Qed.
End Chain.

Definition results_of (acts : list cact) (sts : list cst) : list ares :=
  map (fun p => script_at (ca_script (fst p)) (cs_pos (snd p))) (combine acts sts).

Definition is_pass (r : ares) : bool := match r with RPass => true | _ => false end.
(* the event gets past an action iff it does not enter it or the action passes it on *)
Definition gets_past (dec : node -> bool) (p : cact * ares) : bool := negb (sel_dec dec (fst p)) || is_pass (snd p).

(* the entered bits, action by action: an event that does not get past an action enters none of the rest *)
Lemma chain_step_entered dec a ar s sr :
  fst (fst (chain_step dec (a :: ar) (s :: sr)))
  = (cs_busy s || sel_dec dec a)
    :: (if negb (cs_busy s || sel_dec dec a) || is_pass (script_at (ca_script a) (cs_pos s))
        then fst (fst (chain_step dec ar sr)) else map (fun _ => false) ar).
Proof.
  cbn [chain_step]. destruct (cs_busy s || sel_dec dec a); [destruct (script_at (ca_script a) (cs_pos s))|];
    try reflexivity; destruct (chain_step dec ar sr) as [[bs o] sr']; reflexivity.
Qed.

Lemma chain_spec_free_cons dec a ar r rr :
  chain_spec_free dec (a :: ar) (r :: rr)
  = sel_dec dec a :: (if gets_past dec (a, r) then chain_spec_free dec ar rr else map (fun _ => false) ar).
Proof. unfold gets_past. cbn [chain_spec_free fst snd]. destruct (sel_dec dec a), r; reflexivity. Qed.

Lemma chain_step_free dec acts : forall sts,
  forallb (fun s => negb (cs_busy s)) sts = true ->
  fst (fst (chain_step dec acts sts)) = chain_spec_free dec acts (results_of acts sts).
Proof.
  (* where either list runs out both sides stop, so the lengths need not agree *)
  induction acts as [|a ar IH]; intros [|s sr] Hb; try reflexivity.
  cbn [forallb] in Hb. apply andb_true_iff in Hb. destruct Hb as [Hs Hr]. apply negb_true_iff in Hs.
  unfold results_of. cbn [combine map fst snd]. fold (results_of ar sr).
  rewrite chain_step_entered, chain_spec_free_cons, Hs, (IH sr Hr). reflexivity.
Qed.

(* as in chain_step_free, acts, sts and the results run down in step *)
Lemma chain_spec_free_nth dec : forall acts sts i a s,
  nth_error acts i = Some a -> nth_error sts i = Some s ->
  nth_error (chain_spec_free dec acts (results_of acts sts)) i
  = Some (sel_dec dec a && forallb (gets_past dec) (firstn i (combine acts (results_of acts sts)))).
Proof.
  induction acts as [|a0 ar IH]; intros [|s0 sr] i a s Ha Hs; try (destruct i; discriminate).
  unfold results_of. cbn [combine map fst snd]. fold (results_of ar sr).
  rewrite chain_spec_free_cons. destruct i as [|i]; cbn [nth_error firstn forallb] in *.
  - injection Ha as ->. rewrite andb_true_r. reflexivity.
  - destruct (gets_past dec _); [exact (IH sr i a s Ha Hs)|].
    rewrite nth_error_map, Ha, andb_false_r. reflexivity.
Qed.

(* whether action i is applied to an event is exactly the documented meaning of its selector (and of
   the results of the actions before it), whenever no action is in the middle of a sequence *)
Theorem chain_entered_exact dec acts sts i a s :
  forallb (fun s => negb (cs_busy s)) sts = true ->
  nth_error acts i = Some a -> nth_error sts i = Some s ->
  nth_error (fst (fst (chain_step dec acts sts))) i
  = Some (sel_dec dec a && forallb (gets_past dec) (firstn i (combine acts (results_of acts sts)))).
Proof. intros Hb Ha Hs. rewrite (chain_step_free dec acts sts Hb). exact (chain_spec_free_nth dec acts sts i a s Ha Hs). Qed.

(* ... and an action in the middle of a sequence (busy) is entered by the next event of the stream
   that reaches it, whatever its selector says: the join protocol, as coded *)
Theorem chain_busy_entered dec a ar s sr :
  cs_busy s = true -> hd_error (fst (fst (chain_step dec (a :: ar) (s :: sr)))) = Some true.
Proof. intros Hb. rewrite chain_step_entered, Hb. reflexivity. Qed.
