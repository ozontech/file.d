(* The low-memory event pool (lowMemoryEventPool of pipeline/event.go).  The counting invariant [linv] of [lstep] and what
   is read off it (held <= capacity, counters zero when idle, a sleeper is counted); the four tick labels as the heartbeat
   goroutine of Pool.v, hence [lm_no_stuck_waiter]; and the same pool under a heartbeat condition that never fires while
   capacity is free: a sleeper nobody wakes ([stuck_run]). *)
From Verif Require Import Base.Sx Model.Pool Proofs.ListFacts Proofs.Pool.
From Coq Require Import Lia Bool List ZArith.
Import ListNotations.
Local Open Scope Z_scope.

Definition is_incd (p : lpc) : bool := match p with LIncd _ => true | _ => false end.
Definition is_waiting (p : lpc) : bool :=
  match p with LWaiting | LLocked | LChkFalse | LSleep | LWoken | LReady | LUnlocked => true | _ => false end.

Lemma lwake_idle : lwake LIdle = LIdle. Proof. reflexivity. Qed.
Lemma is_incd_lwake p : is_incd (lwake p) = is_incd p. Proof. destruct p; reflexivity. Qed.
Lemma is_waiting_lwake p : is_waiting (lwake p) = is_waiting p. Proof. destruct p; reflexivity. Qed.

Section Lm.
  Variable c : pcfg.
  Hypothesis Hcap : 0 <= cap c.
  (* what the proofs need from the code's capacity test: whoever passes it saw a counter value <= capacity *)
  Hypothesis Hfits : forall r, fits c r (cap c) = true -> r <= cap c.

  Definition is_fit (p : lpc) : bool := match p with LIncd r => fits c r (cap c) | _ => false end.
  Lemma is_fit_lwake p : is_fit (lwake p) = is_fit p. Proof. destruct p; reflexivity. Qed.
  Lemma is_fit_incd p : is_fit p = true -> is_incd p = true. Proof. destruct p; cbn; congruence. Qed.

  Record linv (s : lst) : Prop := {
    li_nodup : NoDup (keys (l_thr s));
    (* the counter = events handed out + getters between Inc and the capacity test's outcome *)
    li_inuse : l_inuse s = len (l_holders s) + fcnt is_incd (l_thr s);
    (* holders + getters that WILL pass the capacity test never exceed the capacity *)
    li_K : len (l_holders s) + fcnt is_fit (l_thr s) <= cap c;
    li_waiters : l_waiters s = fcnt is_waiting (l_thr s)
  }.

  Lemma linv_init : linv linit.
  Proof. split; cbn; try constructor; try reflexivity. unfold len, fcnt. cbn. lia. Qed.

  (* Getter g moves from pc p to pc q.  By [fcnt_fset] each of the three counts loses p and gains q; what is left is
     arithmetic between the counters and holders before and after. *)
  Lemma linv_move s g p q iu w lk h bp tk :
    linv s -> lpc_of s g = p ->
    iu - len h = l_inuse s - len (l_holders s) - b2z (is_incd p) + b2z (is_incd q) ->
    len h + (fcnt is_fit (l_thr s) - b2z (is_fit p) + b2z (is_fit q)) <= cap c ->
    w = l_waiters s - b2z (is_waiting p) + b2z (is_waiting q) ->
    linv (lupd s iu w lk (fset g q (l_thr s)) h bp tk).
  Proof.
    unfold lpc_of. intros [Hnd Hin HK Hw] <- Ei EK Ew. split; cbn [l_inuse l_waiters l_thr l_holders lupd].
    - apply NoDup_fset, Hnd.
    - rewrite (fcnt_fset LIdle is_incd _ _ _ Hnd eq_refl). lia.
    - rewrite (fcnt_fset LIdle is_fit _ _ _ Hnd eq_refl). exact EK.
    - rewrite (fcnt_fset LIdle is_waiting _ _ _ Hnd eq_refl). lia.
  Qed.

  (* no count tells LSleep from LWoken *)
  Lemma linv_bcast s lk bp tk :
    linv s -> linv (lupd s (l_inuse s) (l_waiters s) lk (lbroadcast (l_thr s)) (l_holders s) bp tk).
  Proof.
    intros [Hnd Hin HK Hw]. unfold lbroadcast. split; cbn [l_inuse l_waiters l_thr l_holders lupd].
    - rewrite keys_fmapv. exact Hnd.
    - rewrite (fcnt_fmapv_same is_incd lwake _ is_incd_lwake). exact Hin.
    - rewrite (fcnt_fmapv_same is_fit lwake _ is_fit_lwake). exact HK.
    - rewrite (fcnt_fmapv_same is_waiting lwake _ is_waiting_lwake). exact Hw.
  Qed.

  Lemma linv_tick s t : linv s -> linv (lset_tick s t).
  Proof. intros [Hnd Hin HK Hw]. split; assumption. Qed.

  (* the step moves the getter that its label names: what is left are the three conditions of [linv_move] on the counters *)
  Ltac moves := eapply linv_move; [eassumption..| | |]; cbn [is_incd is_fit is_waiting b2z].

  Lemma linv_step s l s' : linv s -> lstep c s l = Some s' -> linv s'.
  Proof.
    intros HI H. pose proof HI as [Hnd Hin HK Hw].
    destruct l; unfold lstep in H; step_split H; injection H as <-; bnorm.
    - (* LmInc: the ticket r = inUse + 1 passes the capacity test only if it is within the capacity *)
      moves; try lia. pose proof (fcnt_le is_fit is_incd (l_thr s) is_fit_incd).
      destruct (fits c r (cap c)) eqn:Ef; cbn [b2z]; [apply Hfits in Ef|]; lia.
    - (* LmEnter: the ticket passed the test *) moves; rewrite ?len_cons; try lia. replace (fits c r (cap c)) with true. cbn [b2z]. lia.
    - (* LmDec: the ticket failed it *) moves; try lia. replace (fits c r (cap c)) with false. cbn [b2z]. lia.
    - (* LmWInc *) moves; lia.
    - (* LmLock *) moves; lia.
    - (* LmCheck *) moves; destruct b; cbn [is_incd is_fit is_waiting b2z]; lia.
    - (* LmReg *) moves; lia.
    - (* LmWake *) moves; lia.
    - (* LmUnlock *) moves; lia.
    - (* LmWDec *) moves; lia.
    - (* LmBDec: the event was held *) match goal with M : mem_z _ _ = true |- _ => apply mem_z_In, len_rem1 in M end.
      split; cbn [l_inuse l_waiters l_thr l_holders lupd]; try assumption; lia.
    - (* LmBBc *) apply linv_bcast, HI.
    - (* LmTickW *) apply linv_tick, HI.
    - (* LmTickA *) apply linv_tick, HI.
    - (* LmTickFire *) apply linv_tick, linv_bcast, HI.
    - (* LmTickEnd, not fired *) apply linv_tick, HI.
    - (* LmTickEnd, fired *) apply linv_tick, HI.
    - (* LmEnvBc *) apply linv_bcast, HI.
  Qed.

  Lemma linv_run ls s s' : linv s -> lrun c s ls = Some s' -> linv s'.
  Proof. rewrite lrun_run. apply run_invariant. apply linv_step. Qed.

  Lemma linv_reach ls s : lrun c linit ls = Some s -> linv s.
  Proof. apply linv_run. apply linv_init. Qed.

  (* C05: the number of events handed out never exceeds the capacity (the counter may) *)
  Lemma lm_held_le_capacity s : linv s -> len (l_holders s) <= cap c.
  Proof. intros [_ _ HK _]. pose proof (fcnt_nonneg is_fit (l_thr s)). lia. Qed.

  (* C05.  [l_bpend] may be non-empty: a back() has decremented [l_inuse] before it is pending, only its Broadcast is left *)
  Definition lquiescent (s : lst) : Prop := (forall g, lpc_of s g = LIdle) /\ l_holders s = [].

  Lemma lm_quiescent_zero s : linv s -> lquiescent s -> l_inuse s = 0 /\ l_waiters s = 0.
  Proof.
    intros [Hnd Hin _ Hw] [Hidle Hh].
    rewrite Hin, Hw, Hh, !(fcnt_zero LIdle _ _ Hnd eq_refl Hidle). split; reflexivity.
  Qed.

  Lemma lm_sleeper_counted s g : linv s -> lpc_of s g = LSleep -> 1 <= l_waiters s.
  Proof.
    intros [_ _ _ Hw] Hg. rewrite Hw. apply (fcnt_pos LIdle is_waiting g); [reflexivity|].
    unfold lpc_of in Hg. rewrite Hg. reflexivity.
  Qed.
End Lm.

(* C04 (pool clause): a sleeping getter is woken within one heartbeat once capacity is free *)
Definition l_nonenv (ls : list llabel) : Prop := forallb (fun l => negb (l_env l)) ls = true.
Definition l_ticks (ls : list llabel) : nat := length (filter l_is_tickw ls).

Lemma lpc_lset_tick s t g : lpc_of (lset_tick s t) g = lpc_of s g. Proof. reflexivity. Qed.
Lemma lpc_lbcast s g : lpc_of (lbcast s) g = lwake (lpc_of s g).
Proof. unfold lpc_of, lbcast, lbroadcast. cbn [l_thr lupd]. apply fget_fmapv. reflexivity. Qed.

(* the tick labels are the heartbeat goroutine of Pool.v *)
Definition l_of_tick (k : tlab) : llabel :=
  match k with KW w => LmTickW w | KA a => LmTickA a | KFire => LmTickFire | KEnd => LmTickEnd end.

Lemma lstep_tick c s k :
  lstep c s (l_of_tick k) =
  match tick_step c (l_waiters s) (avail c (l_inuse s) (cap c)) (l_tick s) k with
  | Some (t, bc) => Some ((if bc then lset_tick (lbcast s) else lset_tick s) t)
  | None => None
  end.
Proof.
  destruct k; cbn [l_of_tick lstep tick_step]; destruct (l_tick s); try reflexivity;
    match goal with |- context [if ?b then _ else _] => destruct b end; reflexivity.
Qed.

Lemma l_is_tick_inv l : l_is_tick l = true -> exists k, l = l_of_tick k.
Proof. destruct l; try discriminate; intros _; [exists (KW w)|exists (KA a)|exists KFire|exists KEnd]; reflexivity. Qed.

Lemma lset_tick_self s : lset_tick s (l_tick s) = s.
Proof. destruct s; reflexivity. Qed.

Section LmLive.
  Variable c : pcfg.
  (* what the proofs need from the heartbeat's condition: it fires when there are waiters and events are available *)
  Hypothesis Htick : tickc c true true = true.

  Lemma lm_no_stuck_waiter s g :
    linv c s -> lpc_of s g = LSleep -> avail c (l_inuse s) (cap c) = true ->
    exists ls s', l_nonenv ls /\ (l_ticks ls <= 1)%nat /\ lrun c s ls = Some s' /\ lpc_of s' g <> LSleep.
  Proof.
    intros Hinv Hg Ha. pose proof (lm_sleeper_counted c s g Hinv Hg) as Hw.
    destruct (tick_wakes (lstep c) l_of_tick l_env l_is_tickw c (l_waiters s) (lset_tick s) (lset_tick (lbcast s))) with (t := l_tick s)
      as (ls & Hne & Hti & Hr); trivial; try (intros []; reflexivity).
    - (* Hstep: a tick label reads the waiter count and the availability, and the goroutine's pc is in neither *)
      intros t k. rewrite lstep_tick. cbn [lset_tick lupd l_waiters l_inuse l_tick]. rewrite Ha. reflexivity.
    - exists ls, (lset_tick (lbcast s) TFired). rewrite lset_tick_self, <- lrun_run in Hr. repeat split; trivial.
      rewrite lpc_lset_tick, lpc_lbcast, Hg. discriminate.
  Qed.
End LmLive.

(* one getter asleep, all others idle, no back() call pending: only the environment and the heartbeat can move *)
Lemma lm_asleep_no_step c g s l :
  lpc_of s g = LSleep -> (forall g', g' <> g -> lpc_of s g' = LIdle) -> l_bpend s = [] ->
  l_env l = false -> l_is_tick l = false -> lstep c s l = None.
Proof.
  intros Hg Hoth Hb He Ht.
  assert (Hpc : forall g0, lpc_of s g0 = LSleep \/ lpc_of s g0 = LIdle).
  { intros g0. destruct (Z.eq_dec g0 g) as [->|Hne]; [left; exact Hg|right; exact (Hoth g0 Hne)]. }
  destruct l; try discriminate He; try discriminate Ht; unfold lstep;
    try (match goal with |- context [lpc_of s ?g0] => destruct (Hpc g0) as [E|E]; rewrite E; reflexivity end).
  rewrite Hb. reflexivity.
Qed.

(* the same pool with a heartbeat that does NOT fire while events are available (the condition
   `waiters > 0 && !eventsAvailable`, the inverse of the code's): a state from which a sleeper is never woken *)
Section LmStuck.
  Variable c : pcfg.
  Hypothesis Hnofire : forall w, tickc c w true = false.

  Definition stuck_inv (g : Z) (s : lst) : Prop :=
    lpc_of s g = LSleep /\ avail c (l_inuse s) (cap c) = true /\ l_bpend s = [] /\ (forall g', g' <> g -> lpc_of s g' = LIdle) /\
    match l_tick s with TA _ a => a = true | TFired => False | _ => True end.

  (* the heartbeat only ever loads "available", so it never fires *)
  Lemma stuck_step g s l s' : stuck_inv g s -> l_env l = false -> lstep c s l = Some s' -> stuck_inv g s'.
  Proof.
    intros (Hg & Hav & Hb & Hoth & Ht) He H. destruct (l_is_tick l) eqn:Etk.
    2:{ rewrite (lm_asleep_no_step c g s l Hg Hoth Hb He Etk) in H. discriminate. }
    destruct l; try discriminate Etk; unfold lstep in H; step_split H; injection H as <-;
      unfold stuck_inv; cbn [lset_tick lupd l_inuse l_bpend l_tick].
    - (* LmTickW *) auto.
    - (* LmTickA: the load finds capacity free *) repeat split; auto. bnorm. subst a. exact Hav.
    - (* LmTickFire: on "available" the condition is false *) subst a. rewrite Hnofire in *. discriminate.
    - (* LmTickEnd *) auto.
    - (* LmTickEnd after a broadcast: the invariant excludes TFired *) contradiction.
  Qed.

  Lemma stuck_run g ls : forall s s', stuck_inv g s -> l_nonenv ls -> lrun c s ls = Some s' -> lpc_of s' g = LSleep.
  Proof.
    induction ls as [|l r IH]; intros s s' Hs Hne Hr; cbn [lrun] in Hr.
    - inversion Hr; subst. exact (proj1 Hs).
    - unfold l_nonenv in Hne. cbn [forallb] in Hne. apply andb_true_iff in Hne. destruct Hne as [Hl Hrest].
      destruct (lstep c s l) as [s1|] eqn:E; [|discriminate].
      apply negb_true_iff in Hl. exact (IH s1 s' (stuck_step g s l s1 Hs Hl E) Hrest Hr).
  Qed.
End LmStuck.
