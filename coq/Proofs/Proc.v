(* Proofs about Model/Proc.v: one processor working on one stream (processEvent / doActions /
   Propagate / Spawn as a stack machine, actions arbitrary up to the protocol P1-P6).
   Main result: ordered events (regular, child-parent) leave towards the output in the order they
   were read, whatever the actions do.  [pstep_inv] turns an accepted step of [pstep] into the relation
   [pstep_rel], whose guards are propositions; every invariant is shown by cases of that relation.
   Final named statements: Proofs/ProcTheorems.v. *)
From Verif Require Import Base.Sx Proofs.Lts Model.Proc Proofs.ListFacts.
From Coq Require Import Lia ZifyBool Bool List ZArith Sorted Permutation.
Import ListNotations.
Local Open Scope Z_scope.

Definition ordered (e : pev) : bool := (pkind e =? 0) || (pkind e =? 2).
Definition increasing (l : list Z) : Prop := StronglySorted Z.lt l.

Lemma prun_app s a b : prun s (a ++ b) = match prun s a with Some s' => prun s' b | None => None end.
Proof. exact (run_app pstep s a b). Qed.

Lemma existsb_false {A} (p : A -> bool) l : existsb p l = false -> forall x, In x l -> p x = false.
Proof.
  intros H x Hin. destruct (p x) eqn:E; [|reflexivity]. rewrite <- H. symmetry. apply existsb_exists. eauto.
Qed.

Lemma guard_weaker {A} (a b : bool) (x y : A) :
  (a = true -> b = true) -> (if a then Some x else None) = Some y -> (if b then Some x else None) = Some y.
Proof. destruct a; [|discriminate]. intros ->; auto. Qed.

Lemma sorted_gt_rev l : StronglySorted Z.gt l -> StronglySorted Z.lt (rev l).
Proof.
  induction 1 as [|x l Hs IH Hall]; cbn [rev]; [constructor|].
  apply sorted_app. split; [exact IH|]. split; [repeat constructor|].
  intros a b Ha [<-|[]]. apply in_rev in Ha. rewrite Forall_forall in Hall. specialize (Hall a Ha). lia.
Qed.

Lemma pev_eqb_eq x y : pev_eqb x y = true -> x = y.
Proof.
  unfold pev_eqb; destruct x as [a b], y as [c d]; cbn [pseq pkind]; intros H; bnorm. subst; reflexivity.
Qed.

(* the guard of PSpawn and POut *)
Lemma same_seq x y : pev_eqb x y || (pseq x =? pseq y) = true -> pseq x = pseq y.
Proof. unfold pev_eqb. lia. Qed.

Definition pev_eq_dec (x y : pev) : {x = y} + {x <> y}.
Proof. decide equality; apply Z.eq_dec. Defined.

Lemma held_at_In h a e : held_at h a = Some e -> In (a, e) h.
Proof.
  induction h as [|[i x] r IH]; cbn [held_at]; [discriminate|].
  destruct (i =? a) eqn:E; intros H.
  - inversion H; subst. bnorm; subst. left; reflexivity.
  - right; auto.
Qed.

Lemma held_at_None h a : held_at h a = None -> forall e, ~ In (a, e) h.
Proof.
  induction h as [|[i x] r IH]; cbn [held_at]; intros H e; [intros []|].
  destruct (i =? a) eqn:E; [discriminate|]. intros [Heq|Hin].
  - inversion Heq; subst. bnorm; lia.
  - exact (IH H e Hin).
Qed.

Lemma unhold_In h a p : In p (unhold h a) -> In p h.
Proof.
  induction h as [|[i x] r IH]; cbn [unhold]; [tauto|].
  destruct (i =? a); cbn [In]; tauto.
Qed.

Lemma unhold_nodup h a : NoDup (map fst h) ->
  NoDup (map fst (unhold h a)) /\ forall j y, In (j, y) (unhold h a) -> j <> a.
Proof.
  induction h as [|[i x] r IH]; cbn [unhold map fst]; intros H; [split; [constructor|intros j y []]|].
  inversion H as [|? ? Hni Hnd]; subst. destruct (IH Hnd) as [IH1 IH2]. destruct (i =? a) eqn:E; bnorm.
  - subst. split; [exact Hnd|]. intros j y Hin ->. exact (Hni (in_map fst _ _ Hin)).
  - cbn [map fst]. split; [constructor; [|exact IH1]|intros j y [[= <- _]|Hin]; [exact E|eauto]].
    intros Hin. apply Hni. apply in_map_iff in Hin as [p [Hp Hin]]. rewrite <- Hp. apply in_map, (unhold_In _ _ _ Hin).
Qed.

Lemma idle_right h a : held_at h a = None -> (forall j y, In (j, y) h -> a <= j) ->
  forall j y, In (j, y) h -> a < j.
Proof.
  intros Hn Hle j y Hin. pose proof (Hle _ _ Hin). assert (j <> a); [|lia].
  intros ->. exact (held_at_None _ _ Hn _ Hin).
Qed.

Lemma holder_right h a b : held_at h a <> None -> (forall j y, In (j, y) h -> b <= j) -> b <= a.
Proof. destruct (held_at h a) as [y|] eqn:E; [|congruence]. intros _ Hle. exact (Hle _ _ (held_at_In _ _ _ E)). Qed.

Lemma unhold_right h a : NoDup (map fst h) -> (forall j y, In (j, y) h -> a <= j) ->
  forall j y, In (j, y) (unhold h a) -> a < j.
Proof.
  intros Hnd Hle j y Hin. pose proof (proj2 (unhold_nodup _ a Hnd) _ _ Hin). apply unhold_In, Hle in Hin. lia.
Qed.

(* the frame of an event that enters the chain at action idx of n: [pstep] writes it out in PPropagate,
   PSkipTo and PPush, and [after_pass] is the same frame at a + 1 *)
Definition enter (e : pev) (idx n : Z) : frame :=
  if idx <? n then Build_frame e idx BeforeDo else Build_frame e (idx - 1) MustOut.

Lemma fev_enter e idx n : fev (enter e idx n) = e.
Proof. unfold enter. destruct (idx <? n); reflexivity. Qed.

Lemma after_pass_enter e a n : after_pass e a n = enter e (a + 1) n.
Proof. unfold after_pass, enter. rewrite Z.add_simpl_r. reflexivity. Qed.

(* [pstep] in a state that is not crashed, one constructor per branch that returns a state, except that
   [ps_take] stands for the two branches on [0 <? nact s], which differ in the phase of the new frame only; the
   label is written with what its guards force (the event and index of the head frame, the busy flag).
   The premises carry the names under which [destruct] hands them to the proofs below. *)
Inductive pstep_rel (s : pst) : plabel -> pst -> Prop :=
| ps_take_timeout e start y (E : stack s = []) (Hk : pkind e = 3) (Hy : held_at (held s) start = Some y)
    (Hleft : forall j x, In (j, x) (held s) -> start <= j) :
    pstep_rel s (PTake e start) (set_stack s [Build_frame e start BeforeDo])
| ps_take e (E : stack s = []) (Hk : pkind e <> 3) (Hlt : lasttaken s < pseq e) :
    pstep_rel s (PTake e 0)
      {| nact := nact s; stack := [Build_frame e 0 (if 0 <? nact s then BeforeDo else MustOut)]; held := held s;
         lasttaken := pseq e; outs := outs s; dropped := dropped s; pcrashed := pcrashed s |}
| ps_do f r (E : stack s = f :: r) (Hp : fph f = BeforeDo) :
    pstep_rel s (PDo (fev f) (fidx f) (if held_at (held s) (fidx f) then true else false))
      (set_stack s (Build_frame (fev f) (fidx f) InDo :: r))
| ps_propagate f r e next (E : stack s = f :: r) (Hp : fph f = InDo) (Hi : fidx f = next - 1)
    (Hy : held_at (held s) (next - 1) = Some e) :
    pstep_rel s (PPropagate e next) (set_held s (enter e next (nact s) :: f :: r) (unhold (held s) (next - 1)))
| ps_spawn f r parent k (E : stack s = f :: r) (Hp : fph f = InDo) (Hq : pseq parent = pseq (fev f)) :
    pstep_rel s (PSpawn parent k) s
| ps_skip f r idx (E : stack s = f :: r) (Hp : fph f = BeforeDo) (Hi : fidx f < idx <= nact s) (Hk : pkind (fev f) <> 3)
    (Hbet : forall j x, In (j, x) (held s) -> fidx f <= j -> idx <= j) :
    pstep_rel s (PSkipTo (fev f) idx) (set_stack s (enter (fev f) idx (nact s) :: r))
| ps_push f r e idx (E : stack s = f :: r) (Hp : fph f = InDo)
    (Hk : pkind e = 1 /\ fidx f < idx \/ pkind e = 3 /\ held_at (held s) idx <> None)
    (Hleft : forall j x, In (j, x) (held s) -> idx <= j) :
    pstep_rel s (PPush e idx) (set_stack s (enter e idx (nact s) :: f :: r))
| ps_pass f r (E : stack s = f :: r) (Hp : fph f = InDo) (Hn : held_at (held s) (fidx f) = None) :
    pstep_rel s (PResult (fev f) (fidx f) RPass) (set_stack s (after_pass (fev f) (fidx f) (nact s) :: r))
| ps_break f r (E : stack s = f :: r) (Hp : fph f = InDo) (Hn : held_at (held s) (fidx f) = None)
    (Haft : forall j x, In (j, x) (held s) -> j <= fidx f) :
    pstep_rel s (PResult (fev f) (fidx f) RBreak) (set_stack s (Build_frame (fev f) (fidx f) MustOut :: r))
| ps_drop f r res (E : stack s = f :: r) (Hp : fph f = InDo) (Hres : res = RDiscard \/ res = RCollapse) :
    pstep_rel s (PResult (fev f) (fidx f) res)
      {| nact := nact s; stack := r; held := held s; lasttaken := lasttaken s; outs := outs s;
         dropped := (if pkind (fev f) =? 3 then dropped s else fev f :: dropped s); pcrashed := pcrashed s |}
| ps_hold f r (E : stack s = f :: r) (Hp : fph f = InDo) (Hn : held_at (held s) (fidx f) = None) :
    pstep_rel s (PResult (fev f) (fidx f) RHold) (set_held s r ((fidx f, fev f) :: held s))
| ps_out f r e (E : stack s = f :: r) (Hp : fph f = MustOut) (Hq : pseq e = pseq (fev f)) :
    pstep_rel s (POut e)
      {| nact := nact s; stack := r; held := held s; lasttaken := lasttaken s; outs := fev f :: outs s;
         dropped := dropped s; pcrashed := pcrashed s |}.

Lemma pstep_inv s l s' : pstep s l = Some s' -> pcrashed s = false /\ pstep_rel s l s'.
Proof.
  (* only the occurrence of [pcrashed s] that is tested may be replaced: the others are fields of s' *)
  unfold pstep. set (c := pcrashed s) at 1. assert (Hc : pcrashed s = c) by reflexivity.
  destruct c; [discriminate|]. intros H. split; [exact Hc|]. clear Hc.
  destruct l; step_split H; injection H as <-; unfold holds_after in *; bnorm;
    repeat match goal with H : pev_eqb _ _ = true |- _ => apply pev_eqb_eq in H end; subst;
    repeat match goal with H : existsb _ _ = false |- _ => pose proof (existsb_false _ _ H) as F; clear H end.
  - eapply ps_take_timeout; eauto. intros j x Hin. apply F in Hin. cbn in Hin. lia.
  - replace BeforeDo with (if 0 <? nact s then BeforeDo else MustOut) by (destruct (0 <? nact s) eqn:E; [reflexivity|lia]).
    apply ps_take; auto; lia.
  - replace MustOut with (if 0 <? nact s then BeforeDo else MustOut) by (destruct (0 <? nact s) eqn:E; [lia|reflexivity]).
    apply ps_take; auto; lia.
  - apply ps_do; auto.
  - apply ps_propagate; auto.
  - eapply ps_spawn; eauto using same_seq.
  - apply ps_skip; auto; try lia. intros j x Hin Hle. apply F in Hin. cbn in Hin. lia.
  - apply ps_push; auto.
    + apply orb_true_iff in H. destruct H as [H|H]; bnorm; [left; lia|right; split; [lia|]].
      destruct (held_at (held s) idx); discriminate.
    + intros j x Hin. apply F in Hin. cbn in Hin. lia.
  - apply ps_pass; auto. destruct (held_at (held s) (fidx f)); [discriminate|reflexivity].
  - apply ps_drop; auto.
  - apply ps_drop; auto.
  - apply ps_hold; auto. destruct (held_at (held s) (fidx f)); [discriminate|reflexivity].
  - apply ps_break; auto.
    + destruct (held_at (held s) (fidx f)); [discriminate|reflexivity].
    + intros j x Hin. apply F in Hin. cbn in Hin. lia.
  - apply ps_out; auto using same_seq.
Qed.

(* a frame that still has actions to run sits at or left of every holder; an event that is about
   to leave (MustOut) exists only when nothing is held at all *)
Definition frame_ok (n : Z) (h : list (Z * pev)) (f : frame) : Prop :=
  (fph f <> MustOut -> 0 <= fidx f < n /\ forall j y, In (j, y) h -> fidx f <= j) /\
  (fph f = MustOut -> h = []).

(* every frame below the head is inside a Do, at or left of the frame above it *)
Fixpoint stack_ok (st : list frame) : Prop :=
  match st with
  | [] => True
  | f :: r => Forall (fun g => fph g = InDo /\ (fph f <> MustOut -> fidx g <= fidx f)) r /\ stack_ok r
  end.

Record struct_ok (s : pst) : Prop := {
  so_range : forall j y, In (j, y) (held s) -> 0 <= j < nact s;
  so_nodup : NoDup (map fst (held s));
  so_frames : Forall (frame_ok (nact s) (held s)) (stack s);
  so_stack : stack_ok (stack s)
}.

Lemma nothing_held (h : list (Z * pev)) : (forall j y, ~ In (j, y) h) -> h = [].
Proof. destruct h as [|[j y] r]; [reflexivity|]. intros H. destruct (H j y). left; reflexivity. Qed.

Lemma frame_ok_sub n h h' f : (forall p, In p h' -> In p h) -> frame_ok n h f -> frame_ok n h' f.
Proof.
  intros Hsub [H1 H2]. split.
  - intros Hp. destruct (H1 Hp) as [Hr Hj]. split; [exact Hr|]. intros j y Hin. eapply Hj, Hsub, Hin.
  - intros Hp. apply nothing_held. intros j y Hin. apply Hsub in Hin. rewrite (H2 Hp) in Hin. exact Hin.
Qed.

Lemma frame_ok_cons n h f a x : frame_ok n h f -> fph f <> MustOut -> fidx f <= a -> frame_ok n ((a, x) :: h) f.
Proof.
  intros [H1 _] Hp Hle. split; [intros _|congruence]. destruct (H1 Hp) as [Hr Hj]. split; [exact Hr|].
  intros j y [Heq|Hin]; [inversion Heq; subst; exact Hle|eauto].
Qed.

Lemma frame_ok_enter n h e idx : (idx < n -> 0 <= idx) ->
  (forall j y, In (j, y) h -> 0 <= j < n) -> (forall j y, In (j, y) h -> idx <= j) -> frame_ok n h (enter e idx n).
Proof.
  intros H0 Hr Hle. unfold enter. destruct (idx <? n) eqn:E; bnorm; split; cbn [fph fidx]; try congruence; intros _.
  - split; [lia|exact Hle].
  - apply nothing_held. intros j y Hin. pose proof (Hr _ _ Hin). apply Hle in Hin. lia.
Qed.

Lemma enter_at e idx n : fph (enter e idx n) <> MustOut -> fidx (enter e idx n) = idx.
Proof. unfold enter. destruct (idx <? n); cbn [fph fidx]; congruence. Qed.

Lemma stack_ok_below f r : stack_ok (f :: r) -> fph f <> MustOut ->
  Forall (fun g => fph g = InDo /\ fidx g <= fidx f) r.
Proof.
  cbn [stack_ok]. intros [H _] Hp. eapply Forall_impl; [|exact H]. cbn beta. intros g [Hg Hi]. auto.
Qed.

Lemma stack_ok_head f f' r : stack_ok (f :: r) -> fph f <> MustOut -> (fph f' <> MustOut -> fidx f <= fidx f') ->
  stack_ok (f' :: r).
Proof.
  cbn [stack_ok]. intros [H Hr] Hp Hle. split; [|exact Hr].
  eapply Forall_impl; [|exact H]. cbn beta. intros g [Hg Hi]. split; [exact Hg|].
  intros Hm. specialize (Hi Hp). specialize (Hle Hm). lia.
Qed.

Lemma stack_ok_push f' f r : stack_ok (f :: r) -> fph f = InDo -> (fph f' <> MustOut -> fidx f <= fidx f') ->
  stack_ok (f' :: f :: r).
Proof.
  intros Hok Hp Hle. cbn [stack_ok]. split; [|exact Hok].
  constructor; [split; assumption|].
  assert (Hne : fph f <> MustOut) by congruence.
  pose proof (stack_ok_below _ _ Hok Hne) as Hb.
  eapply Forall_impl; [|exact Hb]. cbn beta. intros g [Hg Hi]. split; [exact Hg|]. intros Hm. specialize (Hle Hm). lia.
Qed.

Lemma struct_init n : struct_ok (pinit n).
Proof. split; cbn; [intros ? ? []|constructor|constructor|exact I]. Qed.

Lemma head_left s f r : struct_ok s -> stack s = f :: r -> fph f <> MustOut ->
  0 <= fidx f < nact s /\ forall j y, In (j, y) (held s) -> fidx f <= j.
Proof. intros [_ _ Hfr _] E. rewrite E in Hfr. apply (Forall_inv Hfr). Qed.

Lemma head_out s f r : struct_ok s -> stack s = f :: r -> fph f = MustOut -> held s = [].
Proof. intros [_ _ Hfr _] E. rewrite E in Hfr. apply (Forall_inv Hfr). Qed.

Lemma struct_step s l s' : struct_ok s -> pstep_rel s l s' -> struct_ok s'.
Proof.
  intros Hok Hstep. pose proof Hok as [Hrange Hnd Hfr Hst].
  (* The four clauses of [struct_ok s'] are split once, for all rules.  Where [held] stays (all rules but Propagate
     and Hold) its range and its distinct keys stay, and the frames under the new head are frames of the stack of s.
     What is left of such a rule is that the new head frame is a good one and that it stands right of the frames below
     it, in this order; the rules come in the order of [pstep_rel].  Where the head of s is not leaving, Hf0 and Hle
     say that its index is in range and at or left of every holder. *)
  destruct Hstep;
    try (destruct (head_left _ _ _ Hok E) as [Hf0 Hle]; [congruence|]);
    rewrite E in Hfr, Hst; split; cbn [set_stack set_held nact held stack]; rewrite ?E; try assumption;
    try exact (Forall_inv_tail Hfr); try apply Hst;
    try (constructor; [|first [exact Hfr|exact (Forall_inv_tail Hfr)]]).
  - (* Take of a time-out *) split; cbn [fph fidx]; [intros _|discriminate]. apply held_at_In, Hrange in Hy. auto.
  - split; constructor.
  - (* Take *) destruct (0 <? nact s) eqn:E0; split; cbn [fph fidx]; try congruence; intros _.
    + split; [lia|]. intros j y Hin. apply Hrange in Hin. lia.
    + apply nothing_held. intros j y Hin. apply Hrange in Hin. lia.
  - split; constructor.
  - (* Do *) split; cbn [fph fidx]; [auto|discriminate].
  - eapply stack_ok_head; [exact Hst|congruence|cbn [fidx]; lia].
  - (* Propagate: [held] loses the pair of the calling action; what stays is strictly right of it (Hnew) *)
    intros j y Hin. apply unhold_In in Hin. eauto.
  - exact (proj1 (unhold_nodup _ _ Hnd)).
  - pose proof (unhold_right _ _ Hnd Hle) as Hnew. rewrite Hi in Hnew. constructor.
    + apply frame_ok_enter; [lia| |]; intros j y Hin; [apply unhold_In in Hin; eauto|specialize (Hnew _ _ Hin); lia].
    + eapply Forall_impl; [|exact Hfr]. intros g. apply frame_ok_sub. intros p. apply unhold_In.
  - apply stack_ok_push; [exact Hst|exact Hp|]. intros Hm. rewrite (enter_at _ _ _ Hm). lia.
  - (* SkipTo *) apply frame_ok_enter; [lia|exact Hrange|]. intros j y Hin. apply (Hbet _ _ Hin), (Hle _ _ Hin).
  - eapply stack_ok_head; [exact Hst|congruence|]. intros Hm. rewrite (enter_at _ _ _ Hm). lia.
  - (* Push: a child enters right of the spawning action, a time-out at a holder, which is right of it too *)
    apply frame_ok_enter; [|exact Hrange|exact Hleft].
    destruct Hk as [[_ Hlt]|[_ Hh]]; [|pose proof (holder_right _ _ _ Hh Hle)]; lia.
  - apply stack_ok_push; [exact Hst|exact Hp|]. intros Hm. rewrite (enter_at _ _ _ Hm).
    destruct Hk as [[_ Hlt]|[_ Hh]]; [lia|exact (holder_right _ _ _ Hh Hle)].
  - (* Pass *) rewrite after_pass_enter.
    apply frame_ok_enter; [lia|exact Hrange|]. intros j y Hin. pose proof (idle_right _ _ Hn Hle _ _ Hin). lia.
  - rewrite after_pass_enter.
    eapply stack_ok_head; [exact Hst|congruence|]. intros Hm. rewrite (enter_at _ _ _ Hm). lia.
  - (* Break: nothing is held at the action, left of it, or right of it *)
    split; cbn [fph fidx]; [congruence|intros _].
    apply nothing_held. intros j y Hin. pose proof (idle_right _ _ Hn Hle _ _ Hin). pose proof (Haft _ _ Hin). lia.
  - eapply stack_ok_head; [exact Hst|congruence|cbn [fph]; congruence].
  - (* Hold: the new pair stands at an idle action, right of every frame below *)
    intros j y [Heq|Hin]; [inversion Heq; subst; lia|eauto].
  - cbn [map fst]. constructor; [|exact Hnd]. intros Hin. apply in_map_iff in Hin as [[j y] [Hj Hin]].
    cbn [fst] in Hj; subst j. exact (held_at_None _ _ Hn _ Hin).
  - pose proof (stack_ok_below _ _ Hst ltac:(congruence)) as Hb. apply Forall_inv_tail in Hfr.
    rewrite Forall_forall in Hfr, Hb |- *. intros g Hg. destruct (Hb g Hg) as [Hgp Hgi].
    apply frame_ok_cons; [exact (Hfr g Hg)|congruence|exact Hgi].
Qed.

Definition oseqs (l : list pev) : list Z := map pseq (filter ordered l).

Lemma oseqs_cons x l : oseqs (x :: l) = if ordered x then pseq x :: oseqs l else oseqs l.
Proof. unfold oseqs; cbn [filter]. destruct (ordered x); reflexivity. Qed.

Lemma Forall_oseqs (P : Z -> Prop) l :
  Forall P (oseqs l) <-> forall x, In x l -> ordered x = true -> P (pseq x).
Proof.
  unfold oseqs. rewrite Forall_forall. split.
  - intros H x Hin Ho. apply H. apply in_map. apply filter_In. auto.
  - intros H z Hz. apply in_map_iff in Hz as [x [<- Hx]]. apply filter_In in Hx as [Hin Ho]. auto.
Qed.

(* es = events of the stack frames, head first; h = held pairs; o = outs (newest first);
   lt = seq of the last event taken.
   All ordered events held are older than all ordered events on the stack; among the held ones the
   older is further right; on the stack the older is nearer the head; whatever is already out is
   older than everything still inside. *)
Record ord_ok (es : list pev) (h : list (Z * pev)) (o : list pev) (lt : Z) : Prop := {
  oo_held : forall i x j y, In (i, x) h -> In (j, y) h -> ordered x = true -> ordered y = true ->
                            i < j -> pseq y < pseq x;
  oo_stack : StronglySorted Z.lt (oseqs es);
  oo_held_stack : forall j y x, In (j, y) h -> In x es -> ordered y = true -> ordered x = true ->
                                pseq y < pseq x;
  oo_outs_held : forall z j y, In z o -> In (j, y) h -> ordered z = true -> ordered y = true ->
                               pseq z < pseq y;
  oo_outs_stack : forall z x, In z o -> In x es -> ordered z = true -> ordered x = true -> pseq z < pseq x;
  oo_outs : StronglySorted Z.gt (oseqs o);
  oo_lt_outs : forall x, In x o -> ordered x = true -> pseq x <= lt;
  oo_lt_stack : forall x, In x es -> ordered x = true -> pseq x <= lt;
  oo_lt_held : forall j y, In (j, y) h -> ordered y = true -> pseq y <= lt
}.

Lemma ord_push_unordered e es h o lt : ordered e = false -> ord_ok es h o lt -> ord_ok (e :: es) h o lt.
Proof.
  intros He [H1 H2 H3 H4 H5 H6 H7 H8 H9]. split; try assumption.
  - rewrite oseqs_cons, He. exact H2.
  - intros j y x Hy [<-|Hx] Hoy Hox; [congruence|eauto].
  - intros z x Hz [<-|Hx] Hoz Hox; [congruence|eauto].
  - intros x [<-|Hx] Hox; [congruence|eauto].
Qed.

Lemma ord_pop x es h o lt : ord_ok (x :: es) h o lt -> ord_ok es h o lt.
Proof.
  intros [H1 H2 H3 H4 H5 H6 H7 H8 H9]. split; try assumption.
  - rewrite oseqs_cons in H2. destruct (ordered x); [inversion H2; assumption|exact H2].
  - intros j y x' Hy Hx. apply (H3 j y x' Hy). right; exact Hx.
  - intros z x' Hz Hx. apply (H5 z x' Hz). right; exact Hx.
  - intros x' Hx. apply H8. right; exact Hx.
Qed.

Lemma ord_head_lt x es h o lt : ord_ok (x :: es) h o lt -> ordered x = true ->
  forall x', In x' es -> ordered x' = true -> pseq x < pseq x'.
Proof.
  intros [_ H2 _ _ _ _ _ _ _] Hox. rewrite oseqs_cons, Hox in H2. inversion H2 as [|? ? _ Hall]; subst.
  apply (proj1 (Forall_oseqs _ _) Hall).
Qed.

Lemma ord_take e h o lt : lt < pseq e -> ord_ok [] h o lt -> ord_ok [e] h o (pseq e).
Proof.
  intros Hlt [H1 H2 H3 H4 H5 H6 H7 H8 H9]. split; try assumption.
  - rewrite oseqs_cons. destruct (ordered e); cbn; repeat constructor.
  - intros j y x Hy [<-|[]] Hoy Hox. specialize (H9 j y Hy Hoy). lia.
  - intros z x Hz [<-|[]] Hoz Hox. specialize (H7 z Hz Hoz). lia.
  - intros x Hx Hox. specialize (H7 x Hx Hox). lia.
  - intros x [<-|[]] Hox. lia.
  - intros j y Hy Hoy. specialize (H9 j y Hy Hoy). lia.
Qed.

Lemma ord_propagate a e es h o lt :
  (forall j y, In (j, y) (unhold h a) -> a < j) -> held_at h a = Some e ->
  ord_ok es h o lt -> ord_ok (e :: es) (unhold h a) o lt.
Proof.
  intros Hgt Hat [H1 H2 H3 H4 H5 H6 H7 H8 H9]. apply held_at_In in Hat.
  split; try assumption.
  - intros i x j y Hx Hy. apply unhold_In in Hx, Hy. eauto.
  - rewrite oseqs_cons. destruct (ordered e) eqn:Hoe; [|exact H2]. constructor; [exact H2|].
    apply Forall_oseqs. intros x Hx Hox. eapply H3; eauto.
  - intros j y x Hy [<-|Hx] Hoy Hox.
    + pose proof (Hgt _ _ Hy). apply unhold_In in Hy. eapply H1; eauto.
    + apply unhold_In in Hy. eauto.
  - intros z j y Hz Hy. apply unhold_In in Hy. eauto.
  - intros z x Hz [<-|Hx] Hoz Hox; eauto.
  - intros x [<-|Hx] Hox; eauto.
  - intros j y Hy. apply unhold_In in Hy. eauto.
Qed.

Lemma ord_hold a x es h o lt :
  (forall j y, In (j, y) h -> a < j) -> ord_ok (x :: es) h o lt -> ord_ok es ((a, x) :: h) o lt.
Proof.
  intros Hgt Hok. pose proof (ord_head_lt _ _ _ _ _ Hok) as Hhead. pose proof (ord_pop _ _ _ _ _ Hok) as Hpop.
  destruct Hok as [H1 H2 H3 H4 H5 H6 H7 H8 H9]. destruct Hpop as [_ P2 P3 _ P5 _ _ P8 _].
  split; try assumption.
  - intros i x1 j y [Hx|Hx] [Hy|Hy] Hox Hoy Hij.
    + inversion Hx; inversion Hy; subst. lia.
    + inversion Hx; subst. eapply H3; eauto. left; reflexivity.
    + inversion Hy; subst. apply Hgt in Hx. lia.
    + eauto.
  - intros j y x' [Hy|Hy] Hx Hoy Hox; [inversion Hy; subst; auto|eauto].
  - intros z j y Hz [Hy|Hy] Hoz Hoy; [inversion Hy; subst|eauto]. eapply H5; eauto. left; reflexivity.
  - intros j y [Hy|Hy] Hoy; [inversion Hy; subst|eauto]. apply H8; [left; reflexivity|assumption].
Qed.

Lemma ord_out x es o lt : ord_ok (x :: es) [] o lt -> ord_ok es [] (x :: o) lt.
Proof.
  intros Hok. pose proof (ord_head_lt _ _ _ _ _ Hok) as Hhead. pose proof (ord_pop _ _ _ _ _ Hok) as Hpop.
  destruct Hok as [H1 H2 H3 H4 H5 H6 H7 H8 H9]. destruct Hpop as [_ P2 P3 _ P5 _ _ P8 _].
  split; try assumption.
  - intros z j y _ [].
  - intros z x' [<-|Hz] Hx Hoz Hox; eauto.
  - rewrite oseqs_cons. destruct (ordered x) eqn:Hox; [|exact H6]. constructor; [exact H6|].
    apply Forall_oseqs. intros z Hz Hoz. assert (pseq z < pseq x); [|lia]. eapply H5; eauto. left; reflexivity.
  - intros z [<-|Hz] Hoz; [|eauto]. apply H8; [left; reflexivity|assumption].
Qed.

Definition ord_st (s : pst) : Prop := ord_ok (map fev (stack s)) (held s) (outs s) (lasttaken s).

Lemma ord_init n : ord_st (pinit n).
Proof. split; cbn; try constructor; try (intros; contradiction). Qed.

Lemma unordered_kind e : pkind e = 1 \/ pkind e = 3 -> ordered e = false.
Proof. unfold ordered. intros [H|H]; rewrite H; reflexivity. Qed.

Lemma ord_step s l s' : struct_ok s -> ord_st s -> pstep_rel s l s' -> ord_st s'.
Proof.
  intros Hok Hord Hstep. unfold ord_st in *.
  destruct Hstep;
    cbn [set_stack set_held stack held outs lasttaken]; rewrite E in Hord; cbn [map fev] in *;
    rewrite ?after_pass_enter, ?fev_enter; try exact Hord.
  - (* Take of a time-out *) apply ord_push_unordered; [apply unordered_kind; auto|exact Hord].
  - (* Take *) apply ord_take with (lt := lasttaken s); assumption.
  - (* Propagate *) apply ord_propagate; [|exact Hy|exact Hord]. rewrite <- Hi.
    apply unhold_right; [apply Hok|]. apply (head_left _ _ _ Hok E). congruence.
  - (* Spawn *) rewrite E. exact Hord.
  - (* Push *) apply ord_push_unordered; [apply unordered_kind; tauto|exact Hord].
  - (* Discard, Collapse *) eapply ord_pop; exact Hord.
  - (* Hold *) apply ord_hold; [|exact Hord]. apply idle_right; [exact Hn|]. apply (head_left _ _ _ Hok E). congruence.
  - (* Out: nothing is held *) rewrite (head_out _ _ _ Hok E Hp) in *. apply ord_out; exact Hord.
Qed.

Record pinv (s : pst) : Prop := { pi_struct : struct_ok s; pi_ord : ord_st s }.

Lemma pinv_init n : pinv (pinit n).
Proof. split; [apply struct_init|apply ord_init]. Qed.

Lemma pinv_step s l s' : pinv s -> pstep s l = Some s' -> pinv s'.
Proof.
  intros [Hs Ho] Hstep. apply pstep_inv in Hstep as [_ Hstep].
  split; [eapply struct_step|eapply ord_step]; eassumption.
Qed.

Lemma pinv_reachable n ls s : prun (pinit n) ls = Some s -> pinv s.
Proof. apply (run_invariant pstep pinv); [exact pinv_step|apply pinv_init]. Qed.

Lemma outs_sorted s : ord_st s -> StronglySorted Z.lt (map pseq (filter ordered (rev (outs s)))).
Proof. intros Hord. rewrite filter_rev, map_rev. apply sorted_gt_rev. exact (oo_outs _ _ _ _ Hord). Qed.

Definition places (s : pst) : list pev := outs s ++ dropped s ++ map snd (held s) ++ map fev (stack s).
Definition taken1 (l : plabel) : list pev :=
  match l with PTake e _ => if ordered e then [e] else [] | _ => [] end.
Definition taken (ls : list plabel) : list pev := flat_map taken1 ls.
Notation cnt := (count_occ pev_eq_dec).

Lemma In_taken e ls : In e (taken ls) <-> ordered e = true /\ exists start, In (PTake e start) ls.
Proof.
  unfold taken. rewrite in_flat_map. split.
  - intros [l [Hl He]]. destruct l; cbn [taken1] in He; try contradiction.
    destruct (ordered e0) eqn:Ho; [|contradiction]. destruct He as [<-|[]]. split; [exact Ho|eauto].
  - intros [Ho [start Hin]]. exists (PTake e start). split; [exact Hin|]. cbn [taken1]. rewrite Ho. left; reflexivity.
Qed.

(* what is older than an event already handed to the output is not inside any more *)
Lemma older_than_out s x y : ord_st s -> In x (outs s) -> ordered x = true ->
  In y (places s) -> ordered y = true -> pseq y < pseq x -> In y (outs s) \/ In y (dropped s).
Proof.
  intros Hord Hx Hox Hy Hoy Hlt. unfold places in Hy. rewrite !in_app_iff in Hy.
  destruct Hy as [Hy|[Hy|[Hy|Hy]]]; auto; exfalso.
  - apply in_map_iff in Hy as [[j y'] [Hj Hy]]. cbn [snd] in Hj. subst y'.
    pose proof (oo_outs_held _ _ _ _ Hord x j y Hx Hy Hox Hoy). lia.
  - pose proof (oo_outs_stack _ _ _ _ Hord x y Hx Hy Hox Hoy). lia.
Qed.

(* the events that a label brings into the processor, whatever their kind *)
Definition entered (l : plabel) : list pev :=
  match l with PTake e _ | PPush e _ => [e] | _ => [] end.

Lemma cnt_cons x l e : cnt (x :: l) e = ((if pev_eq_dec x e then 1 else 0) + cnt l e)%nat.
Proof. cbn [count_occ]. destruct (pev_eq_dec x e); reflexivity. Qed.

Lemma cnt_unhold h a p x : held_at h a = Some p ->
  cnt (map snd h) x = cnt (p :: map snd (unhold h a)) x.
Proof.
  induction h as [|[i y] r IH]; cbn [held_at unhold]; [discriminate|].
  destruct (i =? a); intros H; cbn [map snd].
  - inversion H; subst. reflexivity.
  - rewrite !cnt_cons, (IH H), cnt_cons. lia.
Qed.

Lemma cnt_filter (p : pev -> bool) l x : cnt (filter p l) x = if p x then cnt l x else 0%nat.
Proof.
  induction l as [|y r IH]; cbn [filter count_occ]; [destruct (p x); reflexivity|].
  destruct (p y) eqn:Hy; cbn [count_occ]; rewrite IH; destruct (pev_eq_dec y x) as [->|Hne]; try reflexivity;
    rewrite Hy; reflexivity.
Qed.

(* nothing but a time-out disappears, nothing appears but what the label brings *)
Lemma places_step s l s' e : pstep_rel s l s' -> pkind e <> 3 ->
  cnt (places s') e = (cnt (entered l) e + cnt (places s) e)%nat.
Proof.
  intros Hstep He. unfold places. rewrite !count_occ_app.
  destruct Hstep; cbn [set_stack set_held stack held outs dropped entered];
    rewrite E;
    cbn [map fev snd]; rewrite ?after_pass_enter, ?fev_enter; try reflexivity;
    rewrite ?cnt_cons; cbn [count_occ]; try lia.
  - (* Propagate *)
    rewrite (cnt_unhold _ _ _ e Hy), cnt_cons. lia.
  - (* Discard, Collapse *)
    destruct (pkind (fev f) =? 3) eqn:Ek; rewrite ?cnt_cons; [|lia].
    destruct (pev_eq_dec (fev f) e) as [<-|]; lia.
Qed.

(* of the ordered events, only those taken from the stream enter *)
Lemma entered_taken s l s' e : pstep_rel s l s' -> ordered e = true -> cnt (entered l) e = cnt (taken1 l) e.
Proof.
  intros Hstep He.
  assert (Hne : forall x, ordered x = false -> cnt [x] e = 0%nat).
  { intros x Hx. cbn [count_occ]. destruct (pev_eq_dec x e); [congruence|reflexivity]. }
  destruct Hstep; cbn [entered taken1]; try reflexivity.
  - rewrite (unordered_kind e0) by auto. auto using unordered_kind.
  - destruct (ordered e0) eqn:Ho; auto.
  - apply Hne, unordered_kind. tauto.
Qed.

Lemma taken_cons l r : taken (l :: r) = taken1 l ++ taken r.
Proof. reflexivity. Qed.

Lemma prun_cons s l r s' : prun s (l :: r) = Some s' -> exists s1, pstep_rel s l s1 /\ prun s1 r = Some s'.
Proof.
  cbn [prun]. destruct (pstep s l) as [s1|] eqn:E; [|discriminate]. intros H. exists s1.
  split; [apply pstep_inv, E|exact H].
Qed.

Lemma places_run ls : forall s s' e, prun s ls = Some s' -> ordered e = true ->
  cnt (places s') e = (cnt (taken ls) e + cnt (places s) e)%nat.
Proof.
  induction ls as [|l r IH]; intros s s' e Hrun He.
  - injection Hrun as <-. reflexivity.
  - apply prun_cons in Hrun as (s1 & E & Hrun). rewrite taken_cons, count_occ_app.
    rewrite (IH _ _ _ Hrun He), (places_step _ _ _ e E), (entered_taken _ _ _ _ E He); [lia|].
    unfold ordered in He. lia.
Qed.

Lemma taken_step s l s' : pstep_rel s l s' ->
  lasttaken s <= lasttaken s' /\ Forall (fun e => lasttaken s < pseq e <= lasttaken s') (taken1 l).
Proof.
  intros Hstep. destruct Hstep; cbn [set_stack set_held lasttaken taken1]; try (split; [lia|constructor]).
  - rewrite (unordered_kind e) by auto. split; [lia|constructor].
  - split; [lia|]. destruct (ordered e); repeat constructor; lia.
Qed.

Lemma taken_run ls : forall s s', prun s ls = Some s' ->
  lasttaken s <= lasttaken s' /\ Forall (fun e => lasttaken s < pseq e <= lasttaken s') (taken ls) /\ NoDup (taken ls).
Proof.
  induction ls as [|l r IH]; intros s s' Hrun.
  - injection Hrun as <-. split; [lia|]. split; constructor.
  - apply prun_cons in Hrun as (s1 & E & Hrun).
    destruct (taken_step _ _ _ E) as [Hle1 Hf1]. destruct (IH _ _ Hrun) as [Hle2 [Hf2 Hnd2]].
    rewrite taken_cons. split; [lia|]. split.
    + apply Forall_app. split; (eapply Forall_impl; [|eassumption]); intros x Hx; cbn beta in *; lia.
    + destruct l; cbn [taken1 app] in Hf1 |- *; try exact Hnd2.
      destruct (ordered e); cbn [app]; [|exact Hnd2]. constructor; [|exact Hnd2].
      intros Hin. rewrite Forall_forall in Hf2. specialize (Hf2 _ Hin).
      inversion Hf1 as [|? ? Hb _]; subst. lia.
Qed.

(* the list A holds every ordered event taken along ls once, and no other ordered event *)
Definition accounts (A : list pev) (ls : list plabel) : Prop :=
  NoDup (taken ls) /\ forall e, ordered e = true -> cnt A e = cnt (taken ls) e.

Lemma accounts_perm A ls : accounts A ls -> Permutation (filter ordered A) (taken ls).
Proof.
  intros [_ Hc]. apply (Permutation_count_occ pev_eq_dec). intros x. rewrite cnt_filter.
  destruct (ordered x) eqn:Hx; [auto|].
  symmetry. apply count_occ_not_In. intros Hin. apply In_taken in Hin. destruct Hin; congruence.
Qed.

Lemma accounts_once A ls e : accounts A ls -> ordered e = true ->
  (In e (taken ls) -> cnt A e = 1%nat) /\ (~ In e (taken ls) -> ~ In e A).
Proof.
  intros [Hnd Hc] He. rewrite (Hc e He). split.
  - apply NoDup_count_occ'. exact Hnd.
  - intros Hno. rewrite (count_occ_not_In pev_eq_dec) in Hno |- *. rewrite (Hc e He). exact Hno.
Qed.

Lemma conservation_cnt n ls s : prun (pinit n) ls = Some s -> accounts (places s) ls.
Proof.
  intros Hrun. split; [apply (taken_run _ _ _ Hrun)|].
  intros e He. rewrite (places_run _ _ _ _ Hrun He). cbn. lia.
Qed.

Lemma conservation n ls s : prun (pinit n) ls = Some s ->
  forall e, ordered e = true ->
    ((exists start, In (PTake e start) ls) -> cnt (places s) e = 1%nat) /\
    (~ (exists start, In (PTake e start) ls) -> ~ In e (places s)).
Proof.
  intros Hrun e He. destruct (accounts_once _ _ e (conservation_cnt _ _ _ Hrun) He) as [H1 H2].
  rewrite In_taken in H1, H2. tauto.
Qed.

Lemma timeout_take s e start s' : pstep s (PTake e start) = Some s' -> pkind e = 3 ->
  held_at (held s) start <> None /\ (forall j y, In (j, y) (held s) -> start <= j) /\
  stack s' = [Build_frame e start BeforeDo] /\ held s' = held s.
Proof.
  intros H Hk. apply pstep_inv in H as [_ H]. inversion H; subst; [|contradiction].
  repeat split; [congruence|assumption].
Qed.

Lemma timeout_push s e idx s' : pstep s (PPush e idx) = Some s' -> pkind e = 3 ->
  held_at (held s) idx <> None /\ (forall j y, In (j, y) (held s) -> idx <= j) /\
  stack s' = enter e idx (nact s) :: stack s /\ held s' = held s.
Proof.
  intros H Hk3. apply pstep_inv in H as [_ H]. inversion H; subst. destruct Hk as [[Hk1 _]|[_ Hh]]; [lia|].
  rewrite E. auto.
Qed.

Lemma pstep_do s e a busy s' : pstep s (PDo e a busy) = Some s' ->
  exists f r, stack s = f :: r /\ fph f = BeforeDo /\ e = fev f /\ a = fidx f /\
              busy = if held_at (held s) a then true else false.
Proof. intros H. apply pstep_inv in H as [_ H]. inversion H; subst. eauto 8. Qed.

(* the model without P5 (PPush accepts a child at any index and a time-out at any holder): ordering fails *)

Definition pstep_noP5 (s : pst) (l : plabel) : option pst :=
  match l with
  | PPush e idx =>
      if pcrashed s then None else
      match stack s with
      | f :: r =>
          match fph f with
          | InDo =>
              if (pkind e =? 1) || ((pkind e =? 3) && match held_at (held s) idx with Some _ => true | None => false end)
              then Some (set_stack s ((if idx <? nact s then {| fev := e; fidx := idx; fph := BeforeDo |}
                                       else {| fev := e; fidx := idx - 1; fph := MustOut |}) :: f :: r))
              else None
          | _ => None
          end
      | [] => None
      end
  | _ => pstep s l
  end.

Fixpoint prun_noP5 (s : pst) (ls : list plabel) : option pst :=
  match ls with
  | [] => Some s
  | l :: r => match pstep_noP5 s l with Some s' => prun_noP5 s' r | None => None end
  end.

Definition ev (q k : Z) : pev := {| pseq := q; pkind := k |}.

(* a child entered LEFT of the spawning action flushes a newer event past an older one that is
   inside a Do (3 actions; e1 held at 1, e2 held at 0; e3's child flushes e1, e1's child flushes e2) *)
Definition w_child_left : list plabel :=
  [PTake (ev 1 0) 0; PDo (ev 1 0) 0 false; PResult (ev 1 0) 0 RPass; PDo (ev 1 0) 1 false; PResult (ev 1 0) 1 RHold;
   PTake (ev 2 0) 0; PDo (ev 2 0) 0 false; PResult (ev 2 0) 0 RHold;
   PTake (ev 3 0) 0; PDo (ev 3 0) 0 true; PPush (ev 0 1) 1; PDo (ev 0 1) 1 true; PPropagate (ev 1 0) 2;
   PDo (ev 1 0) 2 false; PPush (ev 0 1) 0; PDo (ev 0 1) 0 true; PPropagate (ev 2 0) 1;
   PDo (ev 2 0) 1 false; PResult (ev 2 0) 1 RPass; PDo (ev 2 0) 2 false; PResult (ev 2 0) 2 RPass; POut (ev 2 0);
   PResult (ev 0 1) 0 RDiscard; PResult (ev 1 0) 2 RPass; POut (ev 1 0)].

(* a Spawn time-out delivered PAST a holder (to action 1 while action 0 holds the newer e2) *)
Definition w_timeout_past : list plabel :=
  [PTake (ev 1 0) 0; PDo (ev 1 0) 0 false; PResult (ev 1 0) 0 RPass; PDo (ev 1 0) 1 false; PResult (ev 1 0) 1 RHold;
   PTake (ev 2 0) 0; PDo (ev 2 0) 0 false; PResult (ev 2 0) 0 RHold;
   PTake (ev 3 0) 0; PDo (ev 3 0) 0 true; PPush (ev 0 3) 1; PDo (ev 0 3) 1 true; PPropagate (ev 1 0) 2;
   PDo (ev 1 0) 2 false; PPush (ev 0 3) 0; PDo (ev 0 3) 0 true; PPropagate (ev 2 0) 1;
   PDo (ev 2 0) 1 false; PResult (ev 2 0) 1 RPass; PDo (ev 2 0) 2 false; PResult (ev 2 0) 2 RPass; POut (ev 2 0);
   PResult (ev 0 3) 0 RDiscard; PResult (ev 1 0) 2 RPass; POut (ev 1 0)].

(* a run that hands event 2 to the output before event 1 *)
Lemma out_of_order (run : option pst) :
  option_map (fun s => map pseq (filter ordered (rev (outs s)))) run = Some [2; 1] ->
  exists s, run = Some s /\ ~ increasing (map pseq (filter ordered (rev (outs s)))).
Proof.
  destruct run as [s|]; [|discriminate]. cbn [option_map]. intros H. exists s. split; [reflexivity|].
  injection H as ->. intros H. inversion H as [|? ? _ Hf]; subst. inversion Hf; subst. lia.
Qed.

Lemma outs_increasing_noP5_timeout_refuted :
  exists n ls s, prun_noP5 (pinit n) ls = Some s /\ ~ increasing (map pseq (filter ordered (rev (outs s)))).
Proof. exists 3, w_timeout_past. apply out_of_order. vm_compute. reflexivity. Qed.

(* without P5 an event can also leave the processor while an action still holds one *)
Definition w_held_after_out : list plabel :=
  [PTake (ev 1 0) 0; PDo (ev 1 0) 0 false; PResult (ev 1 0) 0 RPass; PDo (ev 1 0) 1 false;
   PPush (ev 0 1) 0; PDo (ev 0 1) 0 false; PResult (ev 0 1) 0 RHold; PResult (ev 1 0) 1 RPass; POut (ev 1 0)].

(* the general reading "every Do of a time-out is at a busy action" is false of the model: after
   flushing, the time-out may itself pass on to the next action *)
Definition w_timeout_passes : list plabel :=
  [PTake (ev 1 0) 0; PDo (ev 1 0) 0 false; PResult (ev 1 0) 0 RHold;
   PTake (ev 0 3) 0; PDo (ev 0 3) 0 true; PPropagate (ev 1 0) 1; PDo (ev 1 0) 1 false; PResult (ev 1 0) 1 RPass;
   POut (ev 1 0); PResult (ev 0 3) 0 RPass].

(* the model without P6 (PSkipTo without the no-holder guard: a busy action's match conditions
   would be consulted and a non-matching event would bypass the holder): ordering fails *)

Definition pstep_noP6 (s : pst) (l : plabel) : option pst :=
  match l with
  | PSkipTo e idx =>
      if pcrashed s then None else
      match stack s with
      | f :: r =>
          match fph f with
          | BeforeDo =>
              if pev_eqb e (fev f) && (fidx f <? idx) && (idx <=? nact s) && negb (pkind e =? 3)
              then Some (set_stack s ((if idx <? nact s then {| fev := fev f; fidx := idx; fph := BeforeDo |}
                                       else {| fev := fev f; fidx := idx - 1; fph := MustOut |}) :: r))
              else None
          | _ => None
          end
      | [] => None
      end
  | _ => pstep s l
  end.

Fixpoint prun_noP6 (s : pst) (ls : list plabel) : option pst :=
  match ls with
  | [] => Some s
  | l :: r => match pstep_noP6 s l with Some s' => prun_noP6 s' r | None => None end
  end.

(* 2 actions; action 1 holds e1; e2 matches neither action and skips both, the holder included:
   it is out before e1, which the next event e3 flushes *)
Definition w_skip_holder : list plabel :=
  [PTake (ev 1 0) 0; PDo (ev 1 0) 0 false; PResult (ev 1 0) 0 RPass; PDo (ev 1 0) 1 false; PResult (ev 1 0) 1 RHold;
   PTake (ev 2 0) 0; PSkipTo (ev 2 0) 2; POut (ev 2 0);
   PTake (ev 3 0) 0; PDo (ev 3 0) 0 false; PResult (ev 3 0) 0 RPass; PDo (ev 3 0) 1 true; PPropagate (ev 1 0) 2; POut (ev 1 0)].
