(* Proofs about Model/OffsetsProv.v: the offsets file of a provider history is always the complete snapshot of the
   job table of that or an earlier moment; commits that must not count do not count; a restart restores exactly what
   the file holds. *)
From Verif Require Import Base.Sx Base.GoSem Model.OffsetsFmt Model.OffsetsSnap Model.OffsetsProv.
From Coq Require Import Lia.

(* one step: the file stays, or becomes the snapshot of the table before / after the step; the table stays, or
   its snapshot joins the history *)
Definition shape (st st' : pstate) : Prop :=
  (p_file st' = p_file st \/ p_file st' = snap (p_jobs st') \/ p_file st' = snap (p_jobs st)) /\
  ((p_jobs st' = p_jobs st /\ p_hist st' = p_hist st) \/ p_hist st' = snap (p_jobs st) :: p_hist st).

Lemma pstep_shape cfg st o : shape st (snd (pstep cfg st o)).
Proof.
  (* open the guards of the operation; every branch is then the state, or [set_jobs] / [do_save] / [set_files] of it *)
  destruct o as [fi kind seq s off| |fi pos seq|fi size|fi|fi remove|crash|fi t]; cbn [pstep].
  - destruct (find_job (p_jobs st) fi) as [j|];
      [destruct (negb (commits_kind kind) || (seq <=? pj_ign j)); [|destruct (off <=? sget (pj_offs j) s); [|destruct (pc_sync cfg)]]|];
      split; cbn; auto.
  - split; cbn; auto.
  - destruct (find_job (p_jobs st) fi); split; cbn; auto.
  - destruct (find_job (p_jobs st) fi); [destruct (find_file (p_files st) fi) as [f|]; [destruct (pf_disk f)|]|]; split; cbn; auto.
  - destruct (find_job (p_jobs st) fi) as [j|]; [destruct (pj_done j)|]; split; cbn; auto.
  - (* the removal touches only the files *)
    set (st1 := match find_file (p_files st) fi with Some f => if remove then _ else st | None => st end).
    assert (E : p_file st1 = p_file st /\ p_jobs st1 = p_jobs st /\ p_hist st1 = p_hist st)
      by (unfold st1; destruct (find_file (p_files st) fi); [destruct remove|]; auto).
    destruct E as (Ef & Ej & Eh). unfold shape. rewrite <- Ef, <- Ej, <- Eh.
    destruct (find_job (p_jobs st1) fi) as [j|]; [destruct (find_file (p_files st1) fi) as [f|]|];
      [destruct (negb (pj_done j)); [|destruct (negb (pf_size f =? pj_pos j)); [|destruct (pf_disk f)]]| |];
      split; cbn; auto.
  - destruct crash; split; cbn; auto.
  - destruct (find_job (p_jobs st) fi); split; cbn; auto.
Qed.

(* the initial state heads a history: it is the state picked out of it, or one before that *)
Lemma pstates_first cfg st0 ops pre st post : pstates cfg st0 ops = pre ++ st :: post -> In st0 (pre ++ [st]).
Proof. destruct ops, pre; cbn; intros [= -> _]; now left. Qed.

(* every state of a history: its file is the initial one, or the snapshot of the table of that or an earlier state *)
Lemma pstates_file cfg : forall ops st0 pre st post,
  pstates cfg st0 ops = pre ++ st :: post ->
  p_file st = p_file st0 \/ exists st', In st' (pre ++ [st]) /\ p_file st = snap (p_jobs st').
Proof.
  induction ops as [|o r IH]; intros st0 pre st post H;
    (destruct pre as [|x pre]; cbn in H; [injection H as <- _; now left|]).
  - injection H as _ H. now destruct pre.
  - injection H as <- H. set (st1 := snd (pstep cfg st0 o)) in *.
    destruct (IH st1 pre st post H) as [E | [st' [Hin E]]]; [|right; exists st'; split; [now right | exact E]].
    destruct (pstep_shape cfg st0 o) as [[E0 | [E0 | E0]] _]; fold st1 in E0.
    + left. congruence.
    + right. exists st1. split; [|congruence]. right. exact (pstates_first _ _ _ _ _ _ H).
    + right. exists st0. split; [now left | congruence].
Qed.

Lemma snap_start_empty cfg fs : snap (start_jobs cfg [] fs) = [].
Proof.
  unfold snap, start_jobs. induction (filter pf_disk fs) as [|f r IH]; [reflexivity|].
  cbn [map filter]. unfold start_job at 1. cbn [lookup_entry find].
  replace (pj_offs _) with (@nil (bytes * Z)) by (destruct (pc_op0 cfg =? 0); reflexivity).
  cbn [nonempty]. exact IH.
Qed.

(* the clause "a complete snapshot ... of the offsets that had been committed at some earlier moment (never later
   ones)" for the provider: in every state of every history the offsets file loads back to the snapshot of the job
   table of that state or of a state before it *)
Theorem prov_file_is_earlier_snapshot : forall cfg fs ops pre st post,
  pstates cfg (pinit cfg fs) ops = pre ++ st :: post ->
  exists st', In st' (pre ++ [st]) /\ p_file st = snap (p_jobs st').
Proof.
  intros cfg fs ops pre st post H.
  destruct (pstates_file cfg ops _ _ _ _ H) as [E | X]; [|exact X].
  exists (pinit cfg fs). split; [exact (pstates_first _ _ _ _ _ _ H) | rewrite E; symmetry; apply snap_start_empty].
Qed.

(* the ghost history that the executable predicate of the provider histories (c07_provider, which = 10 of c07_entry)
   ranges over is made of such snapshots *)
Lemma pstep_hist_inv cfg st0 o :
  In (p_file st0) (snap (p_jobs st0) :: p_hist st0) ->
  In (p_file (snd (pstep cfg st0 o))) (snap (p_jobs (snd (pstep cfg st0 o))) :: p_hist (snd (pstep cfg st0 o))).
Proof.
  intros H0. destruct (pstep_shape cfg st0 o) as [[Ef|[Ef|Ef]] [[Ej Eh]|Eh]]; rewrite Ef, ?Ej, Eh; cbn; auto.
Qed.

Theorem prov_file_in_history : forall cfg fs ops,
  Forall (fun zs => In (p_file (snd zs)) (snap (p_jobs (snd zs)) :: p_hist (snd zs))) (prun cfg (pinit cfg fs) ops).
Proof.
  intros cfg fs ops.
  assert (H0 : In (p_file (pinit cfg fs)) (snap (p_jobs (pinit cfg fs)) :: p_hist (pinit cfg fs))).
  { left. cbn. apply snap_start_empty. }
  revert H0. generalize (pinit cfg fs). induction ops as [|o r IH]; intros st0 H0; cbn [prun]; constructor.
  - apply pstep_hist_inv. exact H0.
  - apply IH. apply pstep_hist_inv. exact H0.
Qed.

(* an event of a source the provider does not know, of a kind that is neither regular nor childParent, or numbered at
   or below the truncation mark changes nothing - not the table, not the file - whatever the persistence mode *)
Theorem prov_ignored_commit : forall cfg st fi kind seq s off,
  (find_job (p_jobs st) fi = None \/
   commits_kind kind = false \/
   exists j, find_job (p_jobs st) fi = Some j /\ seq <= pj_ign j) ->
  pstep cfg st (PCommit fi kind seq s off) = (0, st).
Proof.
  intros cfg st fi kind seq s off H. cbn [pstep].
  destruct H as [H | [H | [j [H Hs]]]].
  - rewrite H. reflexivity.
  - destruct (find_job (p_jobs st) fi); [|reflexivity]. rewrite H. reflexivity.
  - rewrite H. replace (seq <=? pj_ign j) with true by (symmetry; apply Z.leb_le; exact Hs).
    rewrite Bool.orb_true_r. reflexivity.
Qed.

(* a commit is stored only strictly above the stored offset; otherwise it panics and nothing changes *)
Theorem prov_commit_not_above : forall cfg st fi kind seq s off j,
  find_job (p_jobs st) fi = Some j -> commits_kind kind = true -> pj_ign j < seq -> off <= sget (pj_offs j) s ->
  pstep cfg st (PCommit fi kind seq s off) = (7, st).
Proof.
  intros cfg st fi kind seq s off j Hj Hk Hs Ho. cbn [pstep]. rewrite Hj, Hk.
  replace (seq <=? pj_ign j) with false by (symmetry; apply Z.leb_gt; exact Hs).
  replace (off <=? sget (pj_offs j) s) with true by (symmetry; apply Z.leb_le; exact Ho).
  reflexivity.
Qed.

Lemma lookup_snap js : forall j,
  NoDup (map pj_id js) -> In j js -> nonempty (pj_offs j) = true ->
  lookup_entry (snap js) (pj_id j) = Some (job_entry j).
Proof.
  induction js as [|x r IH]; intros j Hnd Hin Hne; [destruct Hin|].
  cbn [map] in Hnd. inversion Hnd as [|? ? Hx Hr]; subst.
  unfold snap. cbn [filter]. destruct Hin as [-> | Hin].
  - rewrite Hne. cbn [map lookup_entry find job_entry esid]. rewrite N.eqb_refl. reflexivity.
  - destruct (nonempty (pj_offs x)) eqn:Ex.
    + cbn [map lookup_entry find]. cbn [job_entry esid].
      destruct (N.eqb (pj_id x) (pj_id j)) eqn:E.
      * apply N.eqb_eq in E. exfalso. apply Hx. rewrite E. apply in_map. exact Hin.
      * apply IH; assumption.
    + apply IH; assumption.
Qed.

Lemma lookup_snap_some js id e :
  lookup_entry (snap js) id = Some e -> exists j, In j js /\ pj_id j = id /\ e = job_entry j.
Proof.
  unfold lookup_entry. intros H. apply find_some in H. destruct H as [Hin Hid].
  unfold snap in Hin. apply in_map_iff in Hin. destruct Hin as [j [<- Hj]].
  apply filter_In in Hj. destruct Hj as [Hj _].
  exists j. repeat split; try assumption. cbn in Hid. apply N.eqb_eq in Hid. exact Hid.
Qed.

(* a graceful restart with offsets_op = continue: every job that had offsets and whose file is still in the directory
   is back with exactly its offsets and its EOF time; and no job of the new provider holds anything but the offsets
   (and time) a job of the old one had - nothing is invented, nothing is moved *)
Theorem prov_restart_restores : forall cfg st,
  pc_op0 cfg = 0 -> NoDup (map pj_id (p_jobs st)) ->
  let st' := snd (pstep cfg st (PRestart false)) in
  (forall j f, In j (p_jobs st) -> nonempty (pj_offs j) = true ->
               In f (p_files st) -> pf_id f = pj_id j -> pf_disk f = true ->
               exists j', In j' (p_jobs st') /\ pj_id j' = pj_id j /\ pj_offs j' = pj_offs j /\ pj_ts j' = pj_ts j) /\
  (forall j', In j' (p_jobs st') ->
              pj_offs j' = [] \/
              exists j, In j (p_jobs st) /\ pj_id j = pj_id j' /\ pj_offs j' = pj_offs j /\ pj_ts j' = pj_ts j) /\
  p_file st' = snap (p_jobs st).
Proof.
  intros cfg st Hop Hnd st'. unfold st'. cbn [pstep snd do_save set_jobs p_jobs p_file p_files].
  split; [|split; [|reflexivity]].
  - intros j f Hj Hne Hf Hid Hd.
    exists (start_job cfg (snap (p_jobs st)) f). split.
    + unfold start_jobs. apply in_map. apply filter_In. split; assumption.
    + unfold start_job. rewrite Hop. cbn [Z.eqb]. rewrite Hid.
      rewrite (lookup_snap _ j Hnd Hj Hne). cbn. repeat split; reflexivity.
  - intros j' Hj'. unfold start_jobs in Hj'. apply in_map_iff in Hj'. destruct Hj' as [f [<- Hf]].
    unfold start_job. rewrite Hop. cbn [Z.eqb].
    destruct (lookup_entry (snap (p_jobs st)) (pf_id f)) as [e|] eqn:E.
    + right. destruct (lookup_snap_some _ _ _ E) as [j [Hj [Hid ->]]].
      exists j. cbn. repeat split; try assumption; reflexivity.
    + left. reflexivity.
Qed.

(* with tail / reset nothing is loaded: every job starts without offsets *)
Theorem prov_restart_without_continue : forall cfg st crash,
  pc_op0 cfg <> 0 ->
  forall j', In j' (p_jobs (snd (pstep cfg st (PRestart crash)))) -> pj_offs j' = [].
Proof.
  intros cfg st crash Hop j' Hj'. cbn [pstep snd set_jobs p_jobs] in Hj'.
  unfold start_jobs in Hj'. apply in_map_iff in Hj'. destruct Hj' as [f [<- _]].
  unfold start_job. replace (pc_op0 cfg =? 0) with false by (symmetry; apply Z.eqb_neq; exact Hop). reflexivity.
Qed.
