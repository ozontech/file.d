(* Proofs for property C10 (packing and marks part). The packing functions are the generated
   definitions of Gen/KafkaGen.v: a change of a shift width, a factor, a mask or the `+ 1` in
   /repo/plugin/input/kafka/kafka.go changes those definitions and the proofs below stop checking.
   Only the four closed forms ([assemble_*_closed], [disassemble_*_spec]) look at the generated
   packing bodies ([commit_of_record] unfolds the generated [gen_commit_target], which Commit's target is read
   through), and they do NOT depend on their syntactic shape: [go_norm] unfolds them (whatever lets /
   SSA names they use) and turns every operator of Model/KafkaInt.v into [go_wrap] of div / mod /
   "mod 2^n" arithmetic, with the wraps inside a sum of the same width removed. So `x << 16`,
   `x * 65536`, `x * (1 << 16)`; `v & 0xFFFF`, `uint16(v)`; literals, named constants, extra locals,
   a struct built by field assignments ... all lead to the same closed forms. Everything else is
   arithmetic on those forms, with the powers of two left folded: the unpacking does not wrap on any
   value of its Go type ([disassemble_source_id_closed], [disassemble_offset_int64]), the packing does
   not wrap on the stated ranges ([pack_range]), and a round trip is [unpack] between the two.
   Marks: kgo's [mark_update] is the [mark_set] of Model/KafkaGroup.v applied to the merged head
   ([mark_update_set]), so a lookup after a Commit is read off [lookup_mark_set]; a head only grows in
   kgo's order ([update_monotone]) and every head comes from a committed record ([from_records]).
   Topics: [id_by_topic_spec]. *)
From Verif Require Import Base.Sx Base.GoSem Model.KafkaInt Gen.KafkaGen Model.Kafka Model.KafkaGroup Proofs.GoSemFacts.
From Coq Require Import Lia ZifyBool.

Lemma shl_spec t a k : 0 <= k -> go_shl t a k = go_wrap t (a * 2 ^ k).
Proof. intros Hk. unfold go_shl. now rewrite Z.shiftl_mul_pow2. Qed.
Lemma shr_spec t a k : 0 <= k -> go_shr t a k = a / 2 ^ k.
Proof. intros Hk. unfold go_shr. now rewrite Z.shiftr_div_pow2. Qed.
Lemma mul_spec t a b : go_mul t a b = go_wrap t (a * b).
Proof. reflexivity. Qed.
Lemma and_mask_r t a k : 0 <= k -> go_and t a (Z.ones k) = a mod 2 ^ k.
Proof. intros Hk. now apply Z.land_ones. Qed.
Lemma and_mask_l t a k : 0 <= k -> go_and t (Z.ones k) a = a mod 2 ^ k.
Proof. intros Hk. unfold go_and. now rewrite Z.land_comm, Z.land_ones. Qed.

(* [go_wrap t] picks the representative of a class modulo 2^bits: it can be dropped under
   another wrap of the same width, and is the identity on the values of the type *)
Lemma go_wrap_mod t z : go_wrap t z mod 2 ^ ity_bits t = z mod 2 ^ ity_bits t.
Proof.
  unfold go_wrap. destruct (ity_signed t); [|apply Z.mod_mod, Z.pow_nonzero; [lia | destruct t; discriminate]].
  rewrite Zminus_mod_idemp_l. f_equal. lia.
Qed.

Lemma go_wrap_cong t x y : x mod 2 ^ ity_bits t = y mod 2 ^ ity_bits t -> go_wrap t x = go_wrap t y.
Proof.
  intros E. unfold go_wrap. destruct (ity_signed t); [|exact E].
  now rewrite <- (Zplus_mod_idemp_l x), E, Zplus_mod_idemp_l.
Qed.

Lemma wrap_wrap t t' z : ity_bits t = ity_bits t' -> go_wrap t (go_wrap t' z) = go_wrap t z.
Proof. intros E. apply go_wrap_cong. rewrite E. apply go_wrap_mod. Qed.

Lemma wrap_add_l t t' a b : ity_bits t = ity_bits t' -> go_wrap t (go_wrap t' a + b) = go_wrap t (a + b).
Proof.
  intros E. apply go_wrap_cong. rewrite E.
  now rewrite <- Zplus_mod_idemp_l, go_wrap_mod, Zplus_mod_idemp_l.
Qed.

Lemma wrap_add_r t t' a b : ity_bits t = ity_bits t' -> go_wrap t (a + go_wrap t' b) = go_wrap t (a + b).
Proof. intros E. rewrite !(Z.add_comm a). now apply wrap_add_l. Qed.

Lemma pow_bits t : 2 ^ ity_bits t = 2 * 2 ^ (ity_bits t - 1).
Proof. rewrite <- Z.pow_succ_r by (destruct t; discriminate). f_equal. lia. Qed.

(* k is an argument of its own, not ity_bits t - 1: the callers pass the literal (63, 16) and then abstract 2^k
   ([generalize (2 ^ 63)]), so that lia sees a bound P and never the number *)
Lemma wrap_int t k z : ity_signed t = true -> k < ity_bits t -> - 2 ^ k <= z < 2 ^ k -> go_wrap t z = z.
Proof.
  intros S Hk Hz. unfold go_wrap. rewrite S, pow_bits.
  pose proof (Z.pow_le_mono_r 2 k (ity_bits t - 1)). rewrite Z.mod_small; lia.
Qed.

Lemma wrap_nat t k z : ity_signed t = true -> k < ity_bits t -> 0 <= z < 2 ^ k -> go_wrap t z = z.
Proof. intros S Hk Hz. apply (wrap_int t k); [assumption..|lia]. Qed.

(* Every [go_and] with a literal mask of the form 2^k - 1, on either side, becomes [_ mod 2^k]; any other mask is
   left alone (and the arithmetic that follows does not know it). *)
Ltac go_norm :=
  unfold disassemble_source_id, assemble_source_id, disassemble_offset, assemble_offset,
    gen_disassembleSourceID, gen_assembleSourceID, gen_disassembleOffset, gen_assembleOffset;
  cbv beta zeta;
  rewrite ?shl_spec, ?shr_spec by lia;
  repeat match goal with
  | |- context [go_and ?t ?a (Zpos ?p)] =>
      let k := eval vm_compute in (Z.log2 (Zpos p + 1)) in
      change (Zpos p) with (Z.ones k); rewrite (and_mask_r t a k) by lia
  | |- context [go_and ?t (Zpos ?p) ?a] =>
      let k := eval vm_compute in (Z.log2 (Zpos p + 1)) in
      change (Zpos p) with (Z.ones k); rewrite (and_mask_l t a k) by lia
  end;
  unfold go_mul, go_add, go_sub, go_conv;
  rewrite ?wrap_wrap, ?wrap_add_l, ?wrap_add_r by reflexivity.

(* what the packing computes for EVERY integer, with Go's wrap-around explicit *)
Lemma assemble_source_id_closed index partition :
  assemble_source_id index partition = (index * 2 ^ 16 + partition) mod 2 ^ 64.
Proof. go_norm. reflexivity. Qed.

Lemma assemble_offset_closed offset epoch :
  assemble_offset offset epoch = go_wrap I64 (offset * 2 ^ 16 + epoch).
Proof. go_norm. reflexivity. Qed.

Lemma disassemble_source_id_spec sid :
  disassemble_source_id sid = (go_wrap I64 (sid / 2 ^ 16), go_wrap I32 (sid mod 2 ^ 16)).
Proof. go_norm. reflexivity. Qed.

Lemma disassemble_offset_spec o :
  disassemble_offset o = (go_wrap I64 (o / 2 ^ 16 + 1), go_wrap I32 (o mod 2 ^ 16)).
Proof. go_norm. reflexivity. Qed.

(* two fields in one number, for any base B *)
Lemma unpack B hi lo : 0 <= lo < B -> (hi * B + lo) / B = hi /\ (hi * B + lo) mod B = lo.
Proof.
  intros Hlo. split.
  - rewrite Z.div_add_l, Z.div_small by lia. lia.
  - rewrite Z.add_comm, Z.mod_add by lia. now apply Z.mod_small.
Qed.

Lemma pow_lt_nonneg a x : 0 <= x < 2 ^ a -> 0 <= a.
Proof.
  intros H. destruct (Z.neg_nonneg_cases a) as [N|]; [|assumption].
  rewrite (Z.pow_neg_r 2 a N) in H. lia.
Qed.

Lemma pack_range a w hi lo : 0 <= hi < 2 ^ a -> 0 <= lo < 2 ^ w -> 0 <= hi * 2 ^ w + lo < 2 ^ (a + w).
Proof. intros Hhi Hlo. rewrite Z.pow_add_r by (eapply pow_lt_nonneg; eassumption). nia. Qed.

(* what the unpacking computes for every value of its Go type (uint64, int64): no wrap *)
Lemma disassemble_source_id_closed sid :
  0 <= sid < 2 ^ 64 -> disassemble_source_id sid = (sid / 2 ^ 16, sid mod 2 ^ 16).
Proof.
  intros Hs. rewrite disassemble_source_id_spec.
  pose proof (Z.mod_pos_bound sid (2 ^ 16) ltac:(easy)) as Hr.
  pose proof (Z.div_mod sid (2 ^ 16) ltac:(easy)) as Hq.
  (* sid = 2^16 * q + r lies between 0 and 2 * P, so q between 0 and P, for P = 2^63 *)
  now rewrite (wrap_nat I64 63), (wrap_nat I32 16)
    by first [reflexivity | assumption | revert Hs; change (2 ^ 64) with (2 * 2 ^ 63); generalize (2 ^ 63); lia].
Qed.

Lemma disassemble_offset_int64 o :
  - 2 ^ 63 <= o < 2 ^ 63 -> disassemble_offset o = (o / 2 ^ 16 + 1, o mod 2 ^ 16).
Proof.
  intros Ho. rewrite disassemble_offset_spec.
  pose proof (Z.mod_pos_bound o (2 ^ 16) ltac:(easy)) as Hr.
  pose proof (Z.div_mod o (2 ^ 16) ltac:(easy)) as Hq.
  (* 2^63 is only a bound P > 1 here: o = 2^16 * q + r lies between -P and P, so does q + 1 *)
  assert (H1 : 1 < 2 ^ 63) by reflexivity.
  now rewrite (wrap_int I64 63), (wrap_nat I32 16)
    by first [reflexivity | assumption | revert Ho H1; generalize (2 ^ 63); lia].
Qed.

Lemma disassemble_offset_closed o :
  - 2 ^ 63 <= o < 2 ^ 63 - 2 ^ 16 -> disassemble_offset o = (o / 2 ^ 16 + 1, o mod 2 ^ 16).
Proof. intros Ho. apply disassemble_offset_int64. revert Ho. generalize (2 ^ 63). lia. Qed.

Lemma source_id_roundtrip index partition :
  0 <= index < 2 ^ 48 -> 0 <= partition < 2 ^ 16 ->
  disassemble_source_id (assemble_source_id index partition) = (index, partition).
Proof.
  intros Hi Hp. pose proof (pack_range 48 16 _ _ Hi Hp) as R.
  rewrite assemble_source_id_closed, Z.mod_small, disassemble_source_id_closed by exact R.
  now destruct (unpack (2 ^ 16) index partition Hp) as [-> ->].
Qed.

Lemma offset_roundtrip offset epoch :
  0 <= offset < 2 ^ 47 -> 0 <= epoch < 2 ^ 16 ->
  disassemble_offset (assemble_offset offset epoch) = (offset + 1, epoch).
Proof.
  intros Ho He. assert (R : 0 <= offset * 2 ^ 16 + epoch < 2 ^ 63) by now apply (pack_range 47 16).
  rewrite assemble_offset_closed, (wrap_nat I64 63), disassemble_offset_int64
    by first [reflexivity | exact R | revert R; generalize (2 ^ 63); lia].
  now destruct (unpack (2 ^ 16) offset epoch He) as [-> ->].
Qed.

(* outside the stated range: LeaderEpoch = -1 ("unknown", records of the old message formats).
   offset * 2^16 - 1 has the fields offset - 1 and 2^16 - 1. *)
Lemma epoch_unknown_marks_offset_itself offset :
  0 <= offset < 2 ^ 47 ->
  disassemble_offset (assemble_offset offset (-1)) = (offset, 65535).
Proof.
  intros Ho. assert (R : - 2 ^ 63 <= offset * 2 ^ 16 + -1 < 2 ^ 63).
  { pose proof (pack_range 47 16 offset 0 Ho) as R. revert R. change (2 ^ (47 + 16)) with (2 ^ 63). generalize (2 ^ 63). lia. }
  rewrite assemble_offset_closed, (wrap_int I64 63), disassemble_offset_int64 by first [reflexivity | exact R].
  replace (offset * 2 ^ 16 + -1) with ((offset - 1) * 2 ^ 16 + (2 ^ 16 - 1)) by ring.
  destruct (unpack (2 ^ 16) (offset - 1) (2 ^ 16 - 1)) as [-> ->]; [easy|]. f_equal. ring.
Qed.

Theorem pack_roundtrip index partition offset epoch :
  0 <= index < 2 ^ 48 -> 0 <= partition < 2 ^ 16 -> 0 <= offset < 2 ^ 47 -> 0 <= epoch < 2 ^ 16 ->
  disassemble_source_id (assemble_source_id index partition) = (index, partition) /\
  disassemble_offset (assemble_offset offset epoch) = (offset + 1, epoch) /\
  assemble_source_id index partition = (index * 2 ^ 16 + partition) mod 2 ^ 64 /\
  assemble_offset offset epoch = offset * 2 ^ 16 + epoch.
Proof.
  intros Hi Hp Ho He.
  split; [now apply source_id_roundtrip|]. split; [now apply offset_roundtrip|].
  split; [apply assemble_source_id_closed|]. rewrite assemble_offset_closed.
  apply (wrap_nat I64 63); [easy..|]. now apply (pack_range 47 16).
Qed.

(* a packing with a left inverse on the stated ranges is injective there *)
Theorem pack_injective i1 p1 o1 e1 i2 p2 o2 e2 :
  0 <= i1 < 2 ^ 48 -> 0 <= p1 < 2 ^ 16 -> 0 <= o1 < 2 ^ 47 -> 0 <= e1 < 2 ^ 16 ->
  0 <= i2 < 2 ^ 48 -> 0 <= p2 < 2 ^ 16 -> 0 <= o2 < 2 ^ 47 -> 0 <= e2 < 2 ^ 16 ->
  (assemble_source_id i1 p1 = assemble_source_id i2 p2 -> i1 = i2 /\ p1 = p2) /\
  (assemble_offset o1 e1 = assemble_offset o2 e2 -> o1 = o2 /\ e1 = e2).
Proof.
  intros Hi1 Hp1 Ho1 He1 Hi2 Hp2 Ho2 He2. split; intros E.
  - pose proof (source_id_roundtrip i1 p1 Hi1 Hp1) as R.
    rewrite E, source_id_roundtrip in R by assumption. injection R as -> ->. now split.
  - pose proof (offset_roundtrip o1 e1 Ho1 He1) as R.
    rewrite E, offset_roundtrip in R by assumption. injection R. lia.
Qed.

Lemma N_eqb_list_refl a : N_eqb_list a a = true.
Proof. now apply N_eqb_list_eq. Qed.

Lemma key_eqb_spec a b : reflect (a = b) (key_eqb a b).
Proof.
  destruct a as [n p], b as [n' p']. unfold key_eqb; cbn [fst snd]. apply iff_reflect.
  rewrite andb_true_iff, N_eqb_list_eq, Z.eqb_eq. split; [intros E; now inversion E | now intros [-> ->]].
Qed.

Lemma key_eqb_refl a : key_eqb a a = true.
Proof. now destruct (key_eqb_spec a a). Qed.

Definition merge_head (cur : option eo) (h : eo) : eo :=
  match cur with None => h | Some c => if eo_less c h then h else c end.

(* kgo's MarkCommitOffsets is the broker's / the member's "set" of the present head merged with the new one *)
Lemma mark_update_set m k h : mark_update m k h = mark_set m k (merge_head (lookup m k) h).
Proof.
  induction m as [|[k' c] m IH]; cbn [mark_update mark_set lookup]; [reflexivity|].
  destruct (key_eqb k' k); [reflexivity | now rewrite IH].
Qed.

Lemma lookup_mark_set m k h k' :
  lookup (mark_set m k h) k' = if key_eqb k k' then Some h else lookup m k'.
Proof.
  induction m as [|[k0 c] m IH]; cbn [mark_set lookup]; [reflexivity|].
  destruct (key_eqb_spec k0 k) as [->|N]; cbn [lookup].
  - destruct (key_eqb k k'); reflexivity.
  - rewrite IH. destruct (key_eqb_spec k0 k') as [->|]; [|reflexivity].
    destruct (key_eqb_spec k k'); congruence.
Qed.

Lemma lookup_update m k h k' :
  lookup (mark_update m k h) k' =
  if key_eqb k k' then Some (merge_head (lookup m k) h) else lookup m k'.
Proof. rewrite mark_update_set. apply lookup_mark_set. Qed.

Lemma in_mark_update m k h x : In x (mark_update m k h) -> In x m \/ x = (k, h).
Proof.
  induction m as [|[k0 c] m IH]; cbn [mark_update].
  - intros [<-|[]]. now right.
  - destruct (key_eqb_spec k0 k) as [->|_].
    + intros [<-|H]; [|left; now right]. destruct (eo_less c h); [now right | left; now left].
    + intros [<-|H]; [left; now left|]. destruct (IH H); [left; now right | now right].
Qed.

Lemma lookup_In m k h : lookup m k = Some h -> In (k, h) m.
Proof.
  induction m as [|[k0 c] m IH]; cbn [lookup]; [discriminate|].
  destruct (key_eqb_spec k0 k) as [->|_].
  - intros [= ->]. now left.
  - intros H. right. now apply IH.
Qed.

(* kgo's order on EpochOffset: (epoch clipped at -1, offset) compared lexicographically; the order facts do not
   look into the clipping *)
Ltac eo_order :=
  unfold eo_less; cbv zeta;
  repeat match goal with |- context [Z.max ?e (-1)] => generalize (Z.max e (-1)); intro end;
  lia.

Lemma eo_less_irrefl a : eo_less a a = false.
Proof. eo_order. Qed.
Lemma eo_less_asym a b : eo_less a b = true -> eo_less b a = false.
Proof. eo_order. Qed.
Lemma eo_less_trans a b c : eo_less a b = true -> eo_less b c = true -> eo_less a c = true.
Proof. eo_order. Qed.
(* negated comparisons chain with <= *)
Lemma eo_not_less_trans a b c : eo_less b a = false -> eo_less c b = false -> eo_less c a = false.
Proof. eo_order. Qed.

Theorem kgo_order_strict :
  (forall a, eo_less a a = false) /\
  (forall a b c, eo_less a b = true -> eo_less b c = true -> eo_less a c = true).
Proof. split; [exact eo_less_irrefl | exact eo_less_trans]. Qed.

Definition eo_le (a b : eo) : Prop := b = a \/ eo_less a b = true.
Lemma eo_le_refl a : eo_le a a. Proof. now left. Qed.
Lemma eo_le_trans a b c : eo_le a b -> eo_le b c -> eo_le a c.
Proof.
  intros [->|L1] [->|L2]; [now left | now right | now right |].
  right. eapply eo_less_trans; eassumption.
Qed.
Lemma eo_le_not_less a b : eo_le a b -> eo_less b a = false.
Proof. intros [->|L]; [apply eo_less_irrefl | now apply eo_less_asym]. Qed.

Lemma merge_head_ge c h : eo_le c (merge_head (Some c) h).
Proof. cbn. destruct (eo_less c h) eqn:E; [now right | now left]. Qed.
Lemma merge_head_covers cur h : eo_less (merge_head cur h) h = false.
Proof.
  destruct cur as [c|]; cbn; [|apply eo_less_irrefl].
  destruct (eo_less c h) eqn:E; [apply eo_less_irrefl | exact E].
Qed.

Lemma update_monotone m k new k0 h :
  lookup m k0 = Some h ->
  exists h', lookup (mark_update m k new) k0 = Some h' /\ eo_le h h'.
Proof.
  intros L. rewrite lookup_update. destruct (key_eqb_spec k k0) as [->|_].
  - rewrite L. eexists. split; [reflexivity | apply merge_head_ge].
  - exists h. split; [assumption | apply eo_le_refl].
Qed.

Lemma commit_is_update topics m ev m' :
  commit topics m ev = Ok m' -> exists k h, m' = mark_update m k h.
Proof.
  unfold commit. destruct (gen_commit_target (fst ev) (snd ev)) as [[index partition] h].
  destruct (idx topics index) as [name| |]; cbn [bind]; intros [= <-]. eauto.
Qed.

Lemma commit_all_monotone topics evs : forall m m' k h,
  commit_all topics m evs = Ok m' -> lookup m k = Some h ->
  exists h', lookup m' k = Some h' /\ eo_le h h'.
Proof.
  induction evs as [|ev evs IH]; cbn [commit_all]; intros m m' k h C L.
  - injection C as <-. exists h. split; [assumption | apply eo_le_refl].
  - destruct (commit topics m ev) as [m1| |] eqn:C1; cbn [bind] in C; try discriminate.
    destruct (commit_is_update _ _ _ _ C1) as (k1 & h1 & ->).
    destruct (update_monotone m k1 h1 _ _ L) as (h1' & L1 & Le1).
    destruct (IH _ _ _ _ C L1) as (h2 & L2 & Le2).
    exists h2. split; [assumption | eapply eo_le_trans; eassumption].
Qed.

Theorem mark_monotone topics evs m m' k h :
  commit_all topics m evs = Ok m' -> lookup m k = Some h ->
  exists h', lookup m' k = Some h' /\ (h' = h \/ eo_less h h' = true) /\ eo_less h' h = false.
Proof.
  intros C L. destruct (commit_all_monotone _ _ _ _ _ _ C L) as (h' & L' & Le).
  exists h'. split; [assumption|]. split; [exact Le | now apply eo_le_not_less].
Qed.

(* Start's idByTopic: the position kept for a name is the LAST one that holds it, counted from i *)
Lemma last_index_spec topics name : forall i,
  match last_index topics name i with
  | Some j => i <= j < i + len topics /\ nth_error topics (Z.to_nat (j - i)) = Some name /\
              forall k, nth_error topics k = Some name -> i + Z.of_nat k <= j
  | None => ~ In name topics
  end.
Proof.
  induction topics as [|t r IH]; intros i; cbn [last_index]; [intros []|].
  specialize (IH (i + 1)). rewrite len_cons.
  destruct (last_index r name (i + 1)) as [j|].
  - destruct IH as (Hj & Hn & Hmax). split; [lia|]. split.
    + replace (Z.to_nat (j - i)) with (S (Z.to_nat (j - (i + 1)))) by lia. exact Hn.
    + intros [|k] Hk; [lia|]. specialize (Hmax k Hk). lia.
  - destruct (N_eqb_list t name) eqn:Et.
    + apply N_eqb_list_eq in Et. subst t. pose proof (len_nonneg r). split; [lia|]. split.
      * now rewrite Z.sub_diag.
      * intros [|k] Hk; [lia|]. elim IH. eapply nth_error_In. exact Hk.
    + intros [->|H]; [|now apply IH]. now rewrite N_eqb_list_refl in Et.
Qed.

(* Topics[idByTopic[name]] reads the name back (no panic), from the last position that holds it *)
Lemma id_by_topic_spec topics name :
  In name topics ->
  idx topics (id_by_topic topics name) = Ok name /\
  0 <= id_by_topic topics name < len topics /\
  forall k, idx topics k = Ok name -> k <= id_by_topic topics name.
Proof.
  intros H. unfold id_by_topic. pose proof (last_index_spec topics name 0) as S.
  destruct (last_index topics name 0) as [j|]; [|contradiction].
  rewrite Z.sub_0_r in S. destruct S as (Hj & Hn & Hmax). split; [|split; [exact Hj|]].
  - unfold idx. rewrite Hn. now replace ((0 <=? j) && (j <? len topics)) with true by lia.
  - intros k Hk. apply idx_inv in Hk as (Hk & Hk'). apply Hmax in Hk'. lia.
Qed.

Definition rec_in_range (topics : list bytes) (r : krec) : Prop :=
  In (k_topic r) topics /\ 0 <= k_part r < 2 ^ 16 /\ 0 <= k_off r < 2 ^ 47 /\ 0 <= k_epoch r < 2 ^ 16.

Lemma rec_in_range_b_spec topics r : rec_in_range_b topics r = true <-> rec_in_range topics r.
Proof.
  assert (Hex : In (k_topic r) topics <-> existsb (fun t => N_eqb_list t (k_topic r)) topics = true).
  { rewrite existsb_exists. split.
    - intros Hin. exists (k_topic r). split; [assumption | apply N_eqb_list_refl].
    - intros (t & Hin & Heq). apply N_eqb_list_eq in Heq. now subst. }
  (* both sides name the same bounds *)
  unfold rec_in_range_b, rec_in_range. rewrite Hex. generalize (2 ^ 16) (2 ^ 47). lia.
Qed.

Lemma range_forallb topics rs :
  Forall (rec_in_range topics) rs -> forallb (rec_in_range_b topics) rs = true.
Proof. rewrite Forall_forall, forallb_forall. intros H x Hx. apply rec_in_range_b_spec. now apply H. Qed.

Definition key_of (r : krec) : key := (k_topic r, k_part r).
Definition head_of (r : krec) : eo := (k_off r + 1, k_epoch r).

(* Commit of the event of an in-range record marks (offset + 1, epoch) for the record's own
   topic name and partition, and does not panic. The data flow of Commit (gen_commit_target) calls
   the two unpacking functions: their round trips rewrite. *)
Lemma commit_of_record topics m r :
  len topics <= 2 ^ 48 -> rec_in_range topics r ->
  commit topics m (event_of topics r) = Ok (mark_update m (key_of r) (head_of r)).
Proof.
  intros Hlen (Ht & Hp & Ho & He).
  destruct (id_by_topic_spec topics (k_topic r) Ht) as (Hidx & Hid & _).
  assert (Hid' : 0 <= id_by_topic topics (k_topic r) < 2 ^ 48).
  { split; [apply Hid | now apply Z.lt_le_trans with (len topics)]. }
  unfold commit, event_of, gen_commit_target. cbn [fst snd].
  change gen_disassembleSourceID with disassemble_source_id.
  change gen_disassembleOffset with disassemble_offset.
  rewrite source_id_roundtrip, offset_roundtrip by assumption. cbn [fst snd]. now rewrite Hidx.
Qed.

Definition marks_of (rs : list krec) (m : marks) : marks :=
  fold_left (fun m r => mark_update m (key_of r) (head_of r)) rs m.

Lemma commit_records_spec topics : forall rs m,
  len topics <= 2 ^ 48 -> Forall (rec_in_range topics) rs ->
  commit_records topics m rs = Ok (marks_of rs m).
Proof.
  unfold commit_records. induction rs as [|r rs IH]; intros m Hlen HF; [reflexivity|].
  inversion HF as [|? ? Hr HF']; subst. cbn [map commit_all marks_of fold_left].
  rewrite commit_of_record by assumption. cbn [bind]. now apply IH.
Qed.

(* every mark is (offset + 1, epoch) of a committed record of that topic and partition *)
Definition from_records (rs : list krec) (m : marks) : Prop :=
  forall k h, In (k, h) m -> exists r, In r rs /\ key_of r = k /\ h = head_of r.

Lemma from_records_incl rs rs' m : incl rs rs' -> from_records rs m -> from_records rs' m.
Proof. intros Hi F k h Hin. destruct (F k h Hin) as (r' & Hr' & H). exists r'. split; [now apply Hi | exact H]. Qed.

Lemma from_records_update rs m r :
  from_records rs m -> In r rs -> from_records rs (mark_update m (key_of r) (head_of r)).
Proof.
  intros F Hr k h Hin. destruct (in_mark_update _ _ _ _ Hin) as [H|[= -> ->]]; [now apply F|].
  exists r. auto.
Qed.

Lemma from_records_marks_of all : forall rs m,
  incl rs all -> from_records all m -> from_records all (marks_of rs m).
Proof.
  induction rs as [|r rs IH]; intros m Hincl F; [exact F|].
  cbn [marks_of fold_left]. apply IH.
  - intros x Hx. apply Hincl. now right.
  - apply from_records_update; [assumption | apply Hincl; now left].
Qed.

Lemma marks_of_from_records rs : from_records rs (marks_of rs []).
Proof. apply from_records_marks_of; [apply incl_refl | intros k h []]. Qed.

Theorem mark_at_most_one_past_consumed topics rs :
  len topics <= 2 ^ 48 -> Forall (rec_in_range topics) rs ->
  exists m, commit_records topics [] rs = Ok m /\
    forall name p o e, lookup m (name, p) = Some (o, e) ->
      (exists r, In r rs /\ k_topic r = name /\ k_part r = p /\ o = k_off r + 1 /\ e = k_epoch r) /\
      (forall B, (forall r, In r rs -> k_topic r = name -> k_part r = p -> k_off r <= B) -> o <= B + 1).
Proof.
  intros Hlen HF. exists (marks_of rs []). split; [now apply commit_records_spec|].
  intros name p o e L.
  destruct (marks_of_from_records rs _ _ (lookup_In _ _ _ L)) as (r & Hr & [= <- <-] & [= -> ->]).
  split.
  - exists r. auto.
  - intros B HB. specialize (HB r Hr eq_refl eq_refl). lia.
Qed.

(* with epochs that follow the offsets (as in any Kafka log) the mark is exactly 1 + max *)
Definition epochs_follow_offsets (rs : list krec) : Prop :=
  forall r1 r2, In r1 rs -> In r2 rs -> key_of r1 = key_of r2 ->
                k_off r1 <= k_off r2 -> k_epoch r1 <= k_epoch r2.

Definition covers (m : marks) (r : krec) : Prop :=
  exists h, lookup m (key_of r) = Some h /\ eo_less h (head_of r) = false.

Lemma covers_update_self m r : covers (mark_update m (key_of r) (head_of r)) r.
Proof.
  unfold covers. rewrite lookup_update, key_eqb_refl. eexists; split; [reflexivity|].
  apply merge_head_covers.
Qed.

Lemma covers_update_other m r r0 : covers m r -> covers (mark_update m (key_of r0) (head_of r0)) r.
Proof.
  intros (h & L & NL). destruct (update_monotone m (key_of r0) (head_of r0) _ _ L) as (h' & L' & Le).
  exists h'. split; [assumption|].
  eapply eo_not_less_trans; [exact NL | now apply eo_le_not_less].
Qed.

Lemma covers_marks_of : forall rs m r,
  (covers m r \/ In r rs) -> covers (marks_of rs m) r.
Proof.
  induction rs as [|r0 rs IH]; intros m r H; cbn [marks_of fold_left].
  - destruct H as [H|[]]. exact H.
  - apply IH. destruct H as [H|[->|H]].
    + left. now apply covers_update_other.
    + left. apply covers_update_self.
    + now right.
Qed.

Theorem mark_is_one_past_max topics rs :
  len topics <= 2 ^ 48 -> Forall (rec_in_range topics) rs -> epochs_follow_offsets rs ->
  exists m, commit_records topics [] rs = Ok m /\
    forall r, In r rs ->
      exists o e, lookup m (key_of r) = Some (o, e) /\ k_off r + 1 <= o /\
        exists r', In r' rs /\ key_of r' = key_of r /\ o = k_off r' + 1 /\ e = k_epoch r'.
Proof.
  intros Hlen HF HE. exists (marks_of rs []). split; [now apply commit_records_spec|].
  intros r Hr.
  destruct (covers_marks_of rs [] r (or_intror Hr)) as (h & L & NL).
  destruct (marks_of_from_records rs _ _ (lookup_In _ _ _ L)) as (r' & Hr' & Hk & ->).
  exists (k_off r' + 1), (k_epoch r'). split; [exact L|]. split; [|exists r'; auto].
  destruct (Z_le_gt_dec (k_off r) (k_off r')) as [Hle|Hgt]; [lia|].
  (* r' lies before r in the log, so its epoch is not larger; then kgo's order compares offsets *)
  assert (Hep : k_epoch r' <= k_epoch r) by (apply (HE r' r); auto; lia).
  rewrite Forall_forall in HF.
  destruct (HF r Hr) as (_ & _ & _ & He & _). destruct (HF r' Hr') as (_ & _ & _ & He' & _).
  unfold eo_less, head_of in NL. cbn [fst snd] in NL. lia.
Qed.

Lemma pick_map {A B} (f : A -> B) (l : list A) : forall ks,
  pick (map f l) ks = option_map (map f) (pick l ks).
Proof.
  induction ks as [|k ks IH]; [reflexivity|]. cbn [pick]. rewrite IH.
  destruct (0 <=? k); [|reflexivity].
  rewrite nth_error_map. destruct (nth_error l (Z.to_nat k)); cbn; [|reflexivity].
  destruct (pick l ks); reflexivity.
Qed.

Lemma pick_incl {A} (l : list A) : forall ks cs, pick l ks = Some cs -> incl cs l /\ length cs = length ks.
Proof.
  induction ks as [|k ks IH]; intros cs H; cbn [pick] in H.
  - injection H as <-. split; [intros x [] | reflexivity].
  - destruct (0 <=? k); [|discriminate].
    destruct (nth_error l (Z.to_nat k)) as [x|] eqn:En; [|discriminate].
    destruct (pick l ks) as [xs|]; [|discriminate]. injection H as <-.
    destruct (IH xs eq_refl) as (Hi & Hl). split.
    + intros y [<-|Hy]; [eapply nth_error_In; eassumption | now apply Hi].
    + cbn. now rewrite Hl.
Qed.

Lemma from_records_forallb rs m : from_records rs m -> forallb (head_of_some_record rs) m = true.
Proof.
  intros F. apply forallb_forall. intros [k h] Hin. destruct (F k h Hin) as (r & Hr & <- & ->).
  apply existsb_exists. exists r. split; [assumption|]. cbn [fst snd head_of].
  fold (key_of r). rewrite key_eqb_refl. lia.
Qed.

(* From any heads m that belong to records acknowledged earlier, the Commit calls for the in-range records cs, in
   that order: no call panics, no head moves backwards, and after the i-th call every head belongs to a record
   acknowledged by then, under that record's own topic name and partition.  [all] is any common superset of cs and acked:
   [acked] grows along the induction, [Forall (from_records all) tr] is one statement for the whole trace (all := rs, cs below) *)
Lemma commit_trace_records topics all : forall cs acked m,
  len topics <= 2 ^ 48 -> Forall (rec_in_range topics) cs -> from_records acked m ->
  incl cs all -> incl acked all ->
  exists tr, commit_trace topics m (map (event_of topics) cs) = (tr, 0) /\
             length tr = length cs /\
             acks_pred (snaps_of acked cs) tr = true /\
             Forall (from_records all) tr /\
             steps_monotone m tr = true.
Proof.
  induction cs as [|r cs IH]; intros acked m Hlen HF F Hcs Hacked.
  - exists []. cbn. auto.
  - inversion HF as [|? ? Hr HF']; subst. cbn [map commit_trace].
    rewrite commit_of_record by assumption.
    set (m1 := mark_update m (key_of r) (head_of r)).
    assert (F1 : from_records (r :: acked) m1).
    { apply from_records_update; [eapply from_records_incl; [|exact F]; intros x Hx; now right | now left]. }
    assert (Hacked1 : incl (r :: acked) all) by (intros x [<-|Hx]; [apply Hcs; now left | now apply Hacked]).
    destruct (IH (r :: acked) m1 Hlen HF' F1 (fun x Hx => Hcs x (or_intror Hx)) Hacked1)
      as (tr & E & Hl & Hp & Hall & Hm).
    rewrite E. exists (m1 :: tr). split; [reflexivity|]. split; [cbn; now rewrite Hl|].
    split; [|split].
    + cbn [snaps_of acks_pred]. now rewrite Hp, (from_records_forallb _ _ F1).
    + constructor; [|exact Hall]. exact (from_records_incl _ _ _ Hacked1 F1).
    + cbn [steps_monotone]. rewrite Hm, andb_true_r. apply forallb_forall. intros [k0 h0] _. cbn [fst].
      destruct (lookup m k0) as [hp|] eqn:L; [|reflexivity].
      destruct (update_monotone m (key_of r) (head_of r) _ _ L) as (h' & L' & Le). fold m1 in L'.
      now rewrite L', (eo_le_not_less _ _ Le).
Qed.

Theorem model_trace_satisfies_pred topics rs ks calls :
  len topics <= 2 ^ 48 -> Forall (rec_in_range topics) rs ->
  pick (map (event_of topics) rs) ks = Some calls ->
  exists tr, commit_trace topics [] calls = (tr, 0) /\ length tr = length ks /\
             marks_pred topics rs tr = true.
Proof.
  intros Hlen HF Hp. rewrite pick_map in Hp.
  destruct (pick rs ks) as [cs|] eqn:Ec; [|discriminate]. injection Hp as <-.
  destruct (pick_incl _ _ _ Ec) as (Hincl & Hlen').
  destruct (commit_trace_records topics rs cs [] [] Hlen (incl_Forall Hincl HF) (fun k h H => match H with end)
              Hincl (incl_nil_l rs)) as (tr & E & Hl & _ & Hall & Hm).
  exists tr. split; [assumption|]. split; [congruence|].
  unfold marks_pred. rewrite (range_forallb _ _ HF), Hm, andb_true_r.
  apply forallb_forall. intros m Hin. apply from_records_forallb.
  rewrite Forall_forall in Hall. now apply Hall.
Qed.

(* the executable predicate of the sub-models (acked_marks_pred) holds of every trace of the model: for every
   topics list and every choice ks of Commit calls among the consumed in-range records rs — any order, repeats,
   any subset — no Commit panics and after each call every head is (offset + 1, epoch) of a record acknowledged
   BY THEN, under that record's own topic and partition *)
Theorem model_trace_marks_only_acked topics rs ks cs :
  len topics <= 2 ^ 48 -> Forall (rec_in_range topics) rs ->
  pick rs ks = Some cs ->
  exists tr, commit_trace topics [] (map (event_of topics) cs) = (tr, 0) /\ length tr = length ks /\
             acks_pred (snaps_of [] cs) tr = true /\
             acked_marks_pred topics rs ks tr = true /\
             forall m k h, In m tr -> In (k, h) m -> exists r, In r cs /\ key_of r = k /\ h = head_of r.
Proof.
  intros Hlen HF Hp.
  destruct (pick_incl _ _ _ Hp) as (Hincl & Hlen').
  destruct (commit_trace_records topics cs cs [] [] Hlen (incl_Forall Hincl HF) (fun k h H => match H with end)
              (incl_refl cs) (incl_nil_l cs)) as (tr & E & Hl & Ha & Hall & _).
  exists tr. split; [assumption|]. split; [congruence|]. split; [assumption|]. split.
  - unfold acked_marks_pred. now rewrite (range_forallb _ _ HF), Hp.
  - intros m k h Hm. rewrite Forall_forall in Hall. now apply Hall.
Qed.

(* Round trip, for EVERY list (repeats, any order, names that are prefixes of one another): the index Start keeps
   for a configured name is inside the list, Commit's Topics[index] reads that very name back (no panic), and the
   index is the last position that holds the name. Conversely a position of the list resolves to a configured name,
   whose index resolves to the same name again. *)
Theorem topic_resolution_roundtrip topics :
  (forall name, In name topics ->
     topic_of_index topics (index_of_topic topics name) = Ok name /\
     0 <= index_of_topic topics name < len topics /\
     (forall j, topic_of_index topics j = Ok name -> j <= index_of_topic topics name)) /\
  (forall i name, topic_of_index topics i = Ok name ->
     In name topics /\ topic_of_index topics (index_of_topic topics name) = Ok name) /\
  topics_resolve_b topics = true.
Proof.
  unfold topics_resolve_b, topic_of_index, index_of_topic. split; [|split].
  - exact (id_by_topic_spec topics).
  - intros i name Hi. apply idx_inv in Hi as (_ & Hn). apply nth_error_In in Hn.
    split; [exact Hn | now apply id_by_topic_spec].
  - apply forallb_forall. intros t Ht. destruct (id_by_topic_spec topics t Ht) as (-> & _).
    apply N_eqb_list_refl.
Qed.

(* A list that is NOT the configured one breaks the round trip: the in-place compaction of [a; a; b] (drop the
   repeat, keep the slice) leaves [a; b; b] behind; the index Start took from the configured list then names b. *)
Lemma topic_resolution_needs_the_same_list :
  let a := [97]%N in let b := [98]%N in
  topic_of_index [a; b; b] (index_of_topic [a; a; b] a) = Ok b.
Proof. reflexivity. Qed.
