(* The file input survives a sequence of commit notifications iff, per stream, their offsets are strictly
   increasing (no commit out of order, none twice), and then it ends up with the offset of the last commit of
   every stream.  Model: Model/StreamOffsets.v (plugin/input/file/provider.go jobProvider.commit). *)
From Verif Require Import Base.Sx Model.StreamOffsets.
From Coq Require Import Lia.

Lemma fc_get_set_same t s v : fc_get (fc_set t s v) s = v.
Proof.
  induction t as [|[k w] r IH]; cbn [fc_set fc_get]; [rewrite Z.eqb_refl; reflexivity|].
  destruct (k =? s) eqn:E; cbn [fc_get]; rewrite E; [reflexivity|exact IH].
Qed.

Lemma fc_get_set_other t s v s' : s' <> s -> fc_get (fc_set t s v) s' = fc_get t s'.
Proof.
  intros Hne. apply not_eq_sym, Z.eqb_neq in Hne. induction t as [|[k w] r IH]; cbn [fc_set fc_get]; [rewrite Hne; reflexivity|].
  destruct (Z.eqb_spec k s) as [->|_]; cbn [fc_get]; [rewrite Hne|rewrite IH]; reflexivity.
Qed.

Lemma last_cons_default (l : list Z) x d : last (x :: l) d = last l x.
Proof.
  revert x d. induction l as [|y r IH]; intros x d; [reflexivity|].
  change (last (x :: y :: r) d) with (last (y :: r) d). rewrite (IH y d), (IH y x). reflexivity.
Qed.

Lemma offs_of_cons_same s off r : offs_of s ((s, off) :: r) = off :: offs_of s r.
Proof. unfold offs_of. cbn [flat_map fst snd]. rewrite Z.eqb_refl. reflexivity. Qed.

Lemma offs_of_cons_other s s0 off r : s <> s0 -> offs_of s ((s0, off) :: r) = offs_of s r.
Proof. intros Hne. unfold offs_of. cbn [flat_map fst snd]. destruct (Z.eqb_spec s0 s); [congruence|reflexivity]. Qed.

(* one commit, seen from stream s: it is checked against the stored offset if it is a commit of s; the rest of the
   commits of s are checked against what is stored then *)
Lemma offs_of_cons t s s0 off r :
  incr_from (fc_get t s) (offs_of s ((s0, off) :: r)) =
    (negb (s0 =? s) || (fc_get t s <? off)) && incr_from (fc_get (fc_set t s0 off) s) (offs_of s r) /\
  last (offs_of s ((s0, off) :: r)) (fc_get t s) = last (offs_of s r) (fc_get (fc_set t s0 off) s).
Proof.
  destruct (Z.eqb_spec s0 s) as [->|Hne%not_eq_sym]; cbn [negb orb andb].
  - rewrite offs_of_cons_same, fc_get_set_same. split; [reflexivity|apply last_cons_default].
  - rewrite (offs_of_cons_other s s0 off r Hne), (fc_get_set_other t s0 off s Hne). split; reflexivity.
Qed.

(* the whole behaviour of a run, from any stored state *)
Lemma fc_run_spec cs : forall t,
  match fc_run t cs with
  | Some t' => forall s, incr_from (fc_get t s) (offs_of s cs) = true /\ fc_get t' s = last (offs_of s cs) (fc_get t s)
  | None => exists s, incr_from (fc_get t s) (offs_of s cs) = false
  end.
Proof.
  induction cs as [|[s0 off] r IH]; intros t; cbn [fc_run].
  - intros s. split; reflexivity.
  - specialize (IH (fc_set t s0 off)). unfold fc_commit. destruct (Z.leb_spec off (fc_get t s0)) as [Hle|Hlt].
    + exists s0. rewrite (proj1 (offs_of_cons t s0 s0 off r)), Z.eqb_refl. apply andb_false_intro1, Z.ltb_ge. exact Hle.
    + destruct (fc_run (fc_set t s0 off) r) as [t'|].
      * intros s. destruct (offs_of_cons t s s0 off r) as [-> ->]. destruct (IH s) as [-> ->]. split; [|reflexivity].
        rewrite andb_true_r. destruct (Z.eqb_spec s0 s) as [<-|_]; [apply Z.ltb_lt; exact Hlt|reflexivity].
      * destruct IH as [s Hs]. exists s. rewrite (proj1 (offs_of_cons t s s0 off r)), Hs. apply andb_false_r.
Qed.

(* C02, consumer side: commit notifications whose offsets are strictly increasing per stream (positive, none repeated)
   never reach the file input's "offset corruption" panic, from an empty offsets table ... *)
Theorem file_input_accepts_increasing_commits cs :
  (forall s, incr_from 0 (offs_of s cs) = true) -> exists t, fc_run [] cs = Some t.
Proof.
  intros H. pose proof (fc_run_spec cs []) as Hs. destruct (fc_run [] cs) as [t|]; [exists t; reflexivity|].
  destruct Hs as [s Hs]. cbn [fc_get] in Hs. rewrite (H s) in Hs. discriminate.
Qed.

(* ... and ONLY those: one commit out of order or repeated, on any stream, and the file input panics *)
Theorem file_input_panics_on_any_other_order cs t :
  fc_run [] cs = Some t -> forall s, incr_from 0 (offs_of s cs) = true.
Proof.
  intros H s. pose proof (fc_run_spec cs []) as Hs. rewrite H in Hs. exact (proj1 (Hs s)).
Qed.

(* what it stores: the offset of the last commit of every stream (0 = no offset for a stream never committed) *)
Theorem file_input_stores_the_last_commit cs t :
  fc_run [] cs = Some t -> forall s, fc_get t s = last (offs_of s cs) 0.
Proof.
  intros H s. pose proof (fc_run_spec cs []) as Hs. rewrite H in Hs. exact (proj2 (Hs s)).
Qed.

(* non-vacuity: two streams, interleaved increasing commits are accepted and the last offsets stored; a repeated commit
   and a commit behind the stored offset both panic *)
Example file_input_offsets_nonvacuous :
  fc_run [] [(0, 10); (1, 5); (0, 30); (1, 40)] = Some [(0, 30); (1, 40)] /\
  fc_run [] [(0, 10); (1, 5); (0, 10)] = None /\ fc_run [] [(0, 30); (1, 5); (0, 10)] = None /\
  incr_from 0 (offs_of 0 [(0, 30); (1, 5); (0, 10)]) = false.
Proof. repeat split; vm_compute; reflexivity. Qed.
