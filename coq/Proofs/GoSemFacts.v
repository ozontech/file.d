(* Facts about Base/Sx.v and Base/GoSem.v, by subject: [len]; equality of byte strings and of exchange values;
   when [slice] succeeds and what it returns, with [firstn] / [skipn] at a position counted in Z against [++];
   [idx]; [has_prefix] and [index_sub]; [index_byte]; [bind].  Then [post], with its instances [ensures] and
   [returns]: what is known of a result, in the form in which "never panics" composes along [bind], and in which
   the scanners and decoders are specified.  Last the tactics that take the next [slice] / [idx] of a chain of
   [bind]s, with its bounds left to [lia]. *)
From Verif Require Import Base.Sx Base.GoSem Proofs.ListFacts.
From Coq Require Import Lia ZifyBool.

Lemma len_nonneg {A} (l : list A) : 0 <= len l.
Proof. unfold len. lia. Qed.

Lemma len_ltb_0 {A} (l : list A) : (len l <? 0) = false.
Proof. pose proof (len_nonneg l). lia. Qed.

Lemma len_nil {A} : len (@nil A) = 0.
Proof. reflexivity. Qed.

Lemma len_cons {A} (x : A) l : len (x :: l) = len l + 1.
Proof. unfold len. cbn [length]. lia. Qed.

Lemma len_app {A} (a b : list A) : len (a ++ b) = len a + len b.
Proof. unfold len. rewrite app_length. lia. Qed.

Lemma len_zero_nil {A} (l : list A) : len l = 0 -> l = [].
Proof. destruct l; [reflexivity|]. rewrite len_cons. pose proof (len_nonneg l). lia. Qed.

Lemma len_length {A} (l : list A) : len l = Z.of_nat (length l).
Proof. reflexivity. Qed.

Lemma len_to_nat {A} (l : list A) : Z.to_nat (len l) = length l.
Proof. apply Nat2Z.id. Qed.

(* the fuel [S (length l)] that the models hand a loop over [l] is enough *)
Lemma len_lt_fuel {A} (l : list A) : len l < Z.of_nat (S (length l)).
Proof. rewrite len_length. lia. Qed.

Lemma len_map {A B} (f : A -> B) l : len (map f l) = len l.
Proof. unfold len. rewrite map_length. reflexivity. Qed.

Lemma len_rev {A} (l : list A) : len (rev l) = len l.
Proof. unfold len. rewrite rev_length. reflexivity. Qed.

Lemma len_firstn {A} n (l : list A) : len (firstn n l) = Z.min (Z.of_nat n) (len l).
Proof. unfold len. rewrite firstn_length. lia. Qed.

Lemma len_skipn {A} n (l : list A) : len (skipn n l) = len l - Z.min (Z.of_nat n) (len l).
Proof. unfold len. rewrite skipn_length. lia. Qed.

Lemma N_eqb_list_eq a : forall b, N_eqb_list a b = true <-> a = b.
Proof.
  induction a as [|x a IH]; intros [|y b]; cbn; split; intro H; try reflexivity; try discriminate.
  - apply andb_true_iff in H as [H1 H2]. apply N.eqb_eq in H1. apply IH in H2. congruence.
  - inversion H; subst. rewrite N.eqb_refl. cbn. apply IH. reflexivity.
Qed.

Lemma bytes_eqb_eq a b : bytes_eqb a b = true <-> a = b.
Proof. apply N_eqb_list_eq. Qed.

Lemma bytes_eqb_refl a : bytes_eqb a a = true.
Proof. now apply bytes_eqb_eq. Qed.

Lemma bytes_eqb_spec a b : reflect (a = b) (bytes_eqb a b).
Proof. apply iff_reflect. symmetry. apply bytes_eqb_eq. Qed.

Lemma sx_eqb_sound : forall a b, sx_eqb a b = true -> a = b.
Proof.
  fix IH 1. intros [x|x|x] [y|y|y]; cbn [sx_eqb]; try discriminate; intros H.
  - apply Z.eqb_eq in H. now subst.
  - apply N_eqb_list_eq in H. now subst.
  - f_equal. revert y H. induction x as [|p x IHx]; intros [|q y]; try discriminate; [reflexivity|].
    intros H. apply andb_true_iff in H as [H1 H2]. apply IH in H1. now rewrite H1, (IHx y H2).
Qed.

Lemma slice_ok {A} (l : list A) lo hi :
  0 <= lo <= hi -> hi <= len l ->
  slice l lo hi = Ok (firstn (Z.to_nat (hi - lo)) (skipn (Z.to_nat lo) l)).
Proof.
  intros H1 H2. unfold slice.
  replace ((0 <=? lo) && (lo <=? hi) && (hi <=? len l)) with true by lia. reflexivity.
Qed.

Lemma slice_inv {A} (l : list A) lo hi r :
  slice l lo hi = Ok r -> 0 <= lo <= hi /\ hi <= len l /\ len r = hi - lo /\
                          r = firstn (Z.to_nat (hi - lo)) (skipn (Z.to_nat lo) l).
Proof.
  unfold slice. destruct ((0 <=? lo) && (lo <=? hi) && (hi <=? len l)) eqn:E; [|discriminate].
  intros H. injection H as <-. repeat split; try lia.
  rewrite len_firstn, len_skipn. lia.
Qed.

Lemma slice_ok_ex {A} (l : list A) lo hi :
  0 <= lo <= hi -> hi <= len l -> exists r, slice l lo hi = Ok r /\ len r = hi - lo.
Proof.
  intros H1 H2. eexists. split; [now apply slice_ok|].
  rewrite len_firstn, len_skipn. lia.
Qed.

Lemma slice_not_err {A} (l : list A) lo hi e : slice l lo hi <> Err e.
Proof. unfold slice. destruct (_ && _); discriminate. Qed.

Lemma slice_to_ok {A} (l : list A) n : 0 <= n <= len l -> slice_to l n = Ok (firstn (Z.to_nat n) l).
Proof. intros H. unfold slice_to. rewrite slice_ok by lia. cbn [Z.to_nat skipn]. now rewrite Z.sub_0_r. Qed.

Lemma slice_from_ok {A} (l : list A) n : 0 <= n <= len l -> slice_from l n = Ok (skipn (Z.to_nat n) l).
Proof.
  intros H. unfold slice_from. rewrite slice_ok by lia. f_equal.
  apply firstn_all2. rewrite skipn_length. unfold len in *. lia.
Qed.

(* [firstn (Z.to_nat k) l] / [skipn (Z.to_nat k) l] are what [slice_to l k] / [slice_from l k] return;
   [Model.Worker.take] / [drop], [firstn (M c)] of Proofs/Worker.v ([M c] is [Z.to_nat (wmax c)]) and [frames_range] of
   Proofs/Payload.v are written with them, so what follows applies there by conversion.  How they meet [++]: *)
Lemma firstn_len {A} (l : list A) : firstn (Z.to_nat (len l)) l = l.
Proof. rewrite len_to_nat. apply firstn_all. Qed.

Lemma firstn_len_app {A} (a b : list A) : firstn (Z.to_nat (len a)) (a ++ b) = a.
Proof. rewrite len_to_nat. apply firstn_length_app. Qed.

Lemma skipn_len_app {A} (a b : list A) : skipn (Z.to_nat (len a)) (a ++ b) = b.
Proof. rewrite len_to_nat. apply skipn_length_app. Qed.

Lemma firstn_Z_app_le {A} k (a b : list A) : k <= len a -> firstn (Z.to_nat k) (a ++ b) = firstn (Z.to_nat k) a.
Proof.
  intros H. rewrite firstn_app. replace (Z.to_nat k - length a)%nat with O by (rewrite len_length in H; lia).
  apply app_nil_r.
Qed.

Lemma slice_to_firstn {A} (l : list A) n : (n <= length l)%nat -> slice_to l (Z.of_nat n) = Ok (firstn n l).
Proof. intros H. rewrite slice_to_ok by (rewrite len_length; lia). now rewrite Nat2Z.id. Qed.

Lemma slice_cons_S {A} (x : A) l lo hi : 0 <= lo -> slice (x :: l) (lo + 1) (hi + 1) = slice l lo hi.
Proof.
  intros H. unfold slice. rewrite len_cons.
  replace ((0 <=? lo + 1) && (lo + 1 <=? hi + 1) && (hi + 1 <=? len l + 1))
    with ((0 <=? lo) && (lo <=? hi) && (hi <=? len l)) by lia.
  destruct (_ && _); [|reflexivity].
  replace (hi + 1 - (lo + 1)) with (hi - lo) by lia.
  replace (Z.to_nat (lo + 1)) with (S (Z.to_nat lo)) by lia. reflexivity.
Qed.

Lemma slice_mid {A} (a b c : list A) : slice (a ++ b ++ c) (len a) (len a + len b) = Ok b.
Proof.
  pose proof (len_nonneg a). pose proof (len_nonneg b). pose proof (len_nonneg c).
  rewrite slice_ok; [|lia|rewrite !len_app; lia].
  replace (len a + len b - len a) with (len b) by lia. rewrite skipn_len_app, firstn_len_app. reflexivity.
Qed.

Lemma slice_to_app {A} (a b : list A) : slice_to (a ++ b) (len a) = Ok a.
Proof. exact (slice_mid [] a b). Qed.

Lemma slice_from_app {A} (a b : list A) : slice_from (a ++ b) (len a) = Ok b.
Proof.
  unfold slice_from. rewrite len_app. pose proof (slice_mid a b []) as H. now rewrite app_nil_r in H.
Qed.

Lemma slice_from_app_cons {A} (a : list A) x b : slice_from (a ++ x :: b) (len a + 1) = Ok b.
Proof.
  replace (a ++ x :: b) with ((a ++ [x]) ++ b) by (rewrite <- app_assoc; reflexivity).
  replace (len a + 1) with (len (a ++ [x])) by (rewrite len_app; reflexivity).
  apply slice_from_app.
Qed.

Lemma slice_mid_cons {A} (a : list A) x b c : slice (a ++ x :: b ++ c) (len a + 1) (len a + 1 + len b) = Ok b.
Proof.
  pose proof (slice_mid (a ++ [x]) b c) as H. rewrite <- app_assoc, len_app, len_cons, len_nil in H. exact H.
Qed.

Lemma idx_ok_ex {A} (l : list A) i : 0 <= i < len l -> exists x, idx l i = Ok x.
Proof.
  intros H. unfold idx. replace ((0 <=? i) && (i <? len l)) with true by lia.
  destruct (nth_error l (Z.to_nat i)) eqn:E; [eauto|].
  apply nth_error_None in E. unfold len in H. lia.
Qed.

Lemma idx_inv {A} (l : list A) i x : idx l i = Ok x -> 0 <= i < len l /\ nth_error l (Z.to_nat i) = Some x.
Proof.
  unfold idx. destruct ((0 <=? i) && (i <? len l)) eqn:E; [|discriminate].
  destruct (nth_error l (Z.to_nat i)); [|discriminate]. intros H; injection H as <-. split; [lia|reflexivity].
Qed.

Lemma idx_not_err {A} (l : list A) i e : idx l i <> Err e.
Proof. unfold idx. destruct (_ && _); [destruct (nth_error _ _)|]; discriminate. Qed.

Lemma idx_cons_0 {A} (x : A) l : idx (x :: l) 0 = Ok x.
Proof.
  unfold idx. rewrite len_cons. pose proof (len_nonneg l).
  replace ((0 <=? 0) && (0 <? len l + 1)) with true by lia. reflexivity.
Qed.

Lemma idx_cons_S {A} (x : A) l i : 0 < i -> idx (x :: l) i = idx l (i - 1).
Proof.
  intros H. unfold idx. rewrite len_cons.
  destruct ((0 <=? i) && (i <? len l + 1)) eqn:E1; destruct ((0 <=? i - 1) && (i - 1 <? len l)) eqn:E2; try lia; [|reflexivity].
  replace (Z.to_nat i) with (S (Z.to_nat (i - 1))) by lia. reflexivity.
Qed.

Lemma idx_app {A} (a : list A) x b : idx (a ++ x :: b) (len a) = Ok x.
Proof.
  unfold idx. rewrite len_app, len_cons. pose proof (len_nonneg a). pose proof (len_nonneg b).
  replace ((0 <=? len a) && (len a <? len a + (len b + 1))) with true by lia.
  rewrite len_to_nat, nth_error_app2, Nat.sub_diag by lia. reflexivity.
Qed.

Lemma has_prefix_len l : forall p, has_prefix l p = true -> len p <= len l.
Proof.
  induction l as [|b l IH]; intros [|a p] H; try discriminate H; try apply len_nonneg.
  cbn [has_prefix] in H. apply andb_true_iff in H. rewrite !len_cons. apply Z.add_le_mono_r, IH, H.
Qed.

Lemma index_sub_from_bounds needle : forall l i,
  index_sub_from l needle i = -1 \/ (i <= index_sub_from l needle i /\ index_sub_from l needle i - i + len needle <= len l).
Proof.
  induction l as [|x l IH]; intros i; cbn [index_sub_from].
  - destruct (has_prefix [] needle) eqn:E; [|left; reflexivity]. right. apply has_prefix_len in E. lia.
  - destruct (has_prefix (x :: l) needle) eqn:E; [right; apply has_prefix_len in E; lia|].
    rewrite len_cons. destruct (IH (i + 1)) as [->|H]; [left; reflexivity|right; lia].
Qed.

(* a hit of bytes.Index leaves room for the needle *)
Lemma index_sub_bounds l needle :
  index_sub l needle = -1 \/ (0 <= index_sub l needle /\ index_sub l needle + len needle <= len l).
Proof. unfold index_sub. destruct (index_sub_from_bounds needle l 0) as [->|H]; [left; reflexivity|right; lia]. Qed.

Lemma index_byte_from_bounds l c : forall i, index_byte_from l c i = -1 \/ i <= index_byte_from l c i < i + len l.
Proof.
  induction l as [|x l IH]; intros i; cbn [index_byte_from]; [left; reflexivity|].
  rewrite len_cons. pose proof (len_nonneg l). destruct (N.eqb x c); [right; lia|].
  destruct (IH (i + 1)) as [->|H']; [left; reflexivity|right; lia].
Qed.

Lemma index_byte_bounds l c : -1 <= index_byte l c < len l.
Proof. unfold index_byte. pose proof (len_nonneg l). destruct (index_byte_from_bounds l c 0); lia. Qed.

Lemma index_byte_from_shift l c : forall i,
  index_byte_from l c i = if index_byte_from l c 0 =? -1 then -1 else index_byte_from l c 0 + i.
Proof.
  induction l as [|x l IH]; intros i; cbn [index_byte_from]; [reflexivity|].
  destruct (N.eqb x c); [cbn; lia|].
  rewrite (IH (i + 1)). cbn [Z.add]. rewrite (IH 1).
  pose proof (index_byte_from_bounds l c 0) as B. pose proof (len_nonneg l).
  destruct (index_byte_from l c 0 =? -1) eqn:E; [reflexivity|].
  destruct (index_byte_from l c 0 + 1 =? -1) eqn:F; lia.
Qed.

Lemma index_byte_nil c : index_byte [] c = -1.
Proof. reflexivity. Qed.

Lemma index_byte_cons x l c :
  index_byte (x :: l) c = if N.eqb x c then 0 else (if index_byte l c <? 0 then -1 else index_byte l c + 1).
Proof.
  unfold index_byte. cbn [index_byte_from]. destruct (N.eqb x c); [reflexivity|].
  cbn [Z.add]. rewrite (index_byte_from_shift l c 1).
  pose proof (index_byte_from_bounds l c 0) as B. pose proof (len_nonneg l).
  destruct (index_byte_from l c 0 =? -1) eqn:E; destruct (index_byte_from l c 0 <? 0) eqn:F; lia.
Qed.

(* what bytes.IndexByte returns: -1 and no [c], or the length of what stands before the first [c] *)
Lemma index_byte_spec l c :
  index_byte l c = -1 /\ ~ In c l \/ exists a b, l = a ++ c :: b /\ ~ In c a /\ index_byte l c = len a.
Proof.
  induction l as [|x l IH]; [left; split; [reflexivity|intros []]|]. rewrite index_byte_cons.
  destruct (N.eqb_spec x c) as [->|Hx]; [right; exists [], l; repeat split; intros []|].
  destruct IH as [[-> Hn]|(a & b & -> & Hn & ->)].
  - left. split; [reflexivity|]. intros [E|H]; [exact (Hx E)|exact (Hn H)].
  - right. exists (x :: a), b. rewrite len_ltb_0, len_cons. repeat split. intros [E|H]; [exact (Hx E)|exact (Hn H)].
Qed.

Lemma index_byte_none l c : ~ In c l -> index_byte l c = -1.
Proof. intros H. destruct (index_byte_spec l c) as [[E _]|(a & b & -> & _)]; [exact E|]. destruct H. apply in_elt. Qed.

Lemma index_byte_hit l c : 0 <= index_byte l c -> idx l (index_byte l c) = Ok c.
Proof. destruct (index_byte_spec l c) as [[-> _]|(a & b & -> & _ & ->)]; [lia|intros _; apply idx_app]. Qed.

Lemma index_byte_before l c : forall i x, (i < index_byte l c \/ index_byte l c < 0) -> idx l i = Ok x -> x <> c.
Proof.
  intros i x Hlt Hx ->. apply idx_inv in Hx as [Hr Hx].
  destruct (index_byte_spec l c) as [[_ Hn]|(a & b & -> & Hn & E)]; apply Hn; [exact (nth_error_In _ _ Hx)|].
  rewrite nth_error_app1 in Hx by (pose proof (len_nonneg a); unfold len in *; lia). exact (nth_error_In _ _ Hx).
Qed.

Lemma index_byte_app_skip a b c :
  index_byte a c = -1 ->
  index_byte (a ++ b) c = if index_byte b c <? 0 then -1 else len a + index_byte b c.
Proof.
  induction a as [|x a IH]; intros H.
  - cbn [app]. change (len (@nil byte)) with 0. pose proof (index_byte_bounds b c). destruct (index_byte b c <? 0) eqn:E; lia.
  - cbn [app]. rewrite index_byte_cons in *. rewrite len_cons. destruct (N.eqb x c); [lia|].
    pose proof (index_byte_bounds a c). destruct (index_byte a c <? 0) eqn:F; [|lia].
    rewrite IH by lia. pose proof (index_byte_bounds b c). pose proof (len_nonneg a).
    destruct (index_byte b c <? 0) eqn:G; [reflexivity|].
    destruct (len a + index_byte b c <? 0) eqn:G2; lia.
Qed.

Lemma index_byte_app_notin a c b : index_byte a c = -1 -> index_byte (a ++ c :: b) c = len a.
Proof.
  intros H. rewrite (index_byte_app_skip a (c :: b) c H), index_byte_cons, N.eqb_refl. cbn. lia.
Qed.

Lemma index_byte_split data c :
  0 <= index_byte data c -> exists a b, data = a ++ c :: b /\ index_byte a c = -1.
Proof.
  destruct (index_byte_spec data c) as [[-> _]|(a & b & -> & H & _)]; [lia|]. intros _.
  exists a, b. split; [reflexivity|apply index_byte_none, H].
Qed.

Lemma bind_ok_inv {A B} (r : res A) (f : A -> res B) b : bind r f = Ok b -> exists a, r = Ok a /\ f a = Ok b.
Proof. destruct r; cbn [bind]; [eauto|discriminate|discriminate]. Qed.

Lemma bind_ok_iff {A B} (e : res A) (k k' : A -> res B) r :
  (forall a, k a = Ok r <-> k' a = Ok r) -> (bind e k = Ok r <-> bind e k' = Ok r).
Proof. intro H. destruct e; [apply H|reflexivity..]. Qed.

Lemma bind_not_panic {A B} (r : res A) (f : A -> res B) p :
  r <> Panic p -> (forall a, f a <> Panic p) -> bind r f <> Panic p.
Proof. intros Hr Hf. destruct r; cbn [bind]; [apply Hf|discriminate|congruence]. Qed.

Lemma bind_not_err {A B} (r : res A) (f : A -> res B) e :
  r <> Err e -> (forall a, f a <> Err e) -> bind r f <> Err e.
Proof. intros Hr Hf. destruct r; cbn [bind]; [apply Hf|congruence|discriminate]. Qed.

(* What is known of a result: its value satisfies [Q]; it is an error only if [e], a panic only if [p].  A fact of
   this form about a callee is what its caller needs to go on (where the offsets it returns lie), so "never panics"
   composes along [bind] in this form.  [ensures]: a scanner that may refuse its input; [returns]: one that always
   answers.  A model with an oracle that may itself panic takes [p] to be "the oracle did". *)
Definition post {A} (e p : Prop) (r : res A) (Q : A -> Prop) : Prop :=
  match r with Ok a => Q a | Err _ => e | Panic _ => p end.
Definition ensures {A} : res A -> (A -> Prop) -> Prop := post True False.
Definition returns {A} : res A -> (A -> Prop) -> Prop := post False False.

Lemma post_bind {A B e p} (r : res A) (k : A -> res B) P Q :
  post e p r P -> (forall a, P a -> post e p (k a) Q) -> post e p (bind r k) Q.
Proof. destruct r; cbn; auto. Qed.

Lemma post_weaken {A e p} (r : res A) (P Q : A -> Prop) : post e p r P -> (forall a, P a -> Q a) -> post e p r Q.
Proof. destruct r; cbn; auto. Qed.

(* for a continuation of [bind] that needs the equation beside the postcondition *)
Lemma post_self {A} (e p : Prop) (r : res A) Q : post e p r Q -> post e p r (fun a => r = Ok a /\ Q a).
Proof. destruct r; cbn; auto. Qed.

Lemma post_ok {A e p} (r : res A) Q a : post e p r Q -> r = Ok a -> Q a.
Proof. intros H ->. exact H. Qed.

Lemma post_total {A} e (r : res A) Q p : post e False r Q -> r <> Panic p.
Proof. intros H ->. exact H. Qed.

Lemma returns_ex {A} (r : res A) Q : returns r Q <-> exists a, r = Ok a /\ Q a.
Proof.
  destruct r as [a| |]; cbn; (split; [intros H|intros (b & E & H)]); try contradiction; try discriminate E.
  - exists a. auto.
  - injection E as ->. exact H.
Qed.

Lemma returns_pair {A B} (r : res (A * B)) (Q : A -> B -> Prop) :
  returns r (fun '(a, b) => Q a b) <-> exists a b, r = Ok (a, b) /\ Q a b.
Proof. rewrite returns_ex. split; [intros ([a b] & E & H)|intros (a & b & E & H)]; eauto. Qed.

(* Whatever is to be shown of an in-range slice holds if it holds of [Ok] of every value of the right length; of a
   chain of binds that starts with an in-range slice / index, if it holds of the rest of the chain. P is found by
   unification with the goal, whatever its shape. *)
Lemma slice_in_range {A} (P : res (list A) -> Prop) (l : list A) lo hi :
  0 <= lo <= hi /\ hi <= len l -> (forall r, len r = hi - lo -> P (Ok r)) -> P (slice l lo hi).
Proof. intros [H1 H2] Hk. destruct (slice_ok_ex l lo hi H1 H2) as (r & -> & L). exact (Hk r L). Qed.

Lemma bind_slice {A B} (P : res B -> Prop) (l : list A) lo hi (k : list A -> res B) :
  0 <= lo <= hi /\ hi <= len l -> (forall r, len r = hi - lo -> P (k r)) -> P (bind (slice l lo hi) k).
Proof. exact (slice_in_range (fun s => P (bind s k)) l lo hi). Qed.

Lemma bind_idx {A B} (P : res B -> Prop) (l : list A) i (k : A -> res B) :
  0 <= i < len l -> (forall x, idx l i = Ok x -> P (k x)) -> P (bind (idx l i) k).
Proof. intros H Hk. destruct (idx_ok_ex l i H) as (x & E). rewrite E. exact (Hk x E). Qed.

(* one fact [0 <= len l] per list in the context; two clauses because the match is syntactic: [bytes] is not [list _] to it *)
Ltac pose_lens :=
  repeat match goal with
         | l : bytes |- _ =>
             lazymatch goal with
             | _ : 0 <= len l |- _ => fail
             | _ => pose proof (len_nonneg l)
             end
         | l : list _ |- _ =>
             lazymatch goal with
             | _ : 0 <= len l |- _ => fail
             | _ => pose proof (len_nonneg l)
             end
         end.

(* give the name [pos] to an [index_byte l c] of the goal, and pose its range ([index_byte_bounds], as [B<pos>])
   and the byte found there ([index_byte_hit], as [H<pos>]) *)
Ltac name_index_byte pos :=
  match goal with
  | |- context [index_byte ?l ?c] =>
      let B := fresh "B" pos in let H := fresh "H" pos in
      pose proof (index_byte_bounds l c) as B;
      pose proof (index_byte_hit l c) as H;
      set (pos := index_byte l c) in *
  end.

(* The bounds of the next slice / index follow by lia from the context: name what it yields (for a slice that ends
   the chain too). [apply] takes the outermost [bind (slice _ _ _) _] that is written out in the goal, so
   [slice_to] / [slice_from] are unfolded first: behind one of them the step would go to a later slice. *)
Ltac next_slice r :=
  let L := fresh "L" r in
  unfold slice_to, slice_from; first [apply bind_slice | apply slice_in_range]; [pose_lens; lia|intros r L].
Ltac next_idx x := let E := fresh "E" x in apply bind_idx; [pose_lens; lia|intros x E].
