(* Proofs about Model/K8sMultiline.v: the line-end test reads the JSON string tokens correctly, the
   state machine never panics, and every step is the function [k_spec_t] of the chunks of the current
   line (in-order concatenation, exact size rule, lines independent, a time-out starts afresh). *)
From Verif Require Import Base.Sx Base.GoSem Model.Join Model.K8sMultiline Proofs.GoSemFacts Proofs.ListFacts.
From Coq Require Import Lia ZifyBool.

Lemma klen_skipn : forall {A} n (l : list A), (n <= length l)%nat -> len (skipn n l) = len l - Z.of_nat n.
Proof. intros. rewrite len_skipn, len_length. lia. Qed.

Lemma frag_decomp : forall (f : bytes), 2 <= len f -> exists q B z, f = q :: B ++ [z] /\ body f = B.
Proof.
  intros f H. destruct f as [|q tl]; [rewrite len_nil in H; lia|].
  destruct (exists_last (l := tl)) as [B [z Hz]].
  { intro E; subst tl. rewrite len_cons, len_nil in H. lia. }
  exists q, B, z. subst tl. split; [reflexivity|]. unfold body. cbn [tl]. apply removelast_last.
Qed.

Lemma body_len : forall f, 2 <= len f -> len (body f) = len f - 2.
Proof.
  intros f H. destruct (frag_decomp f H) as (q & B & z & -> & ->).
  rewrite len_cons, len_app. change (len [z]) with 1. lia.
Qed.

Lemma slice_body_prefix : forall f k, 2 <= len f -> 0 <= k <= len f - 2 ->
  slice f 1 (1 + k) = Ok (firstn (Z.to_nat k) (body f)).
Proof.
  intros f k H Hk. rewrite <- (body_len f H) in Hk. destruct (frag_decomp f H) as (q & B & z & -> & Hb). rewrite Hb in *.
  rewrite slice_ok; [|lia|rewrite len_cons, len_app; change (len [z]) with 1; lia].
  replace (1 + k - 1) with k by lia. change (Z.to_nat 1) with 1%nat. cbn [skipn].
  rewrite firstn_Z_app_le by lia. reflexivity.
Qed.

Lemma slice_body : forall f, 2 <= len f -> slice f 1 (len f - 1) = Ok (body f).
Proof.
  intros f H. replace (len f - 1) with (1 + (len f - 2)) by lia. rewrite slice_body_prefix by lia.
  rewrite <- (body_len f H), firstn_len. reflexivity.
Qed.

Lemma body_quoted : forall x, body (QUOTE :: x ++ [QUOTE]) = x.
Proof. intros. unfold body. cbn [tl]. apply removelast_last. Qed.

Lemma quoted_id : forall g, 2 <= len g -> hd QUOTE g = QUOTE -> last g QUOTE = QUOTE ->
  QUOTE :: body g ++ [QUOTE] = g.
Proof.
  intros g Hg Hh Hl. destruct (frag_decomp g Hg) as [q [B [z [Hf Hb]]]]. rewrite Hb. subst g.
  cbn [hd] in Hh. subst q. rewrite app_comm_cons, last_last in Hl. subst z. reflexivity.
Qed.

Lemma esc_wf_app : forall a b, esc_wf a = true -> esc_wf (a ++ b) = esc_wf b.
Proof.
  (* the recursion of esc_wf: behind the token at the head *)
  fix IH 1. intros [|ch r] b H; [reflexivity|]. cbn [app esc_wf] in H |- *.
  destruct (N.eqb ch BSLASH).
  - destruct r as [|e r1]; [discriminate|]. cbn [app]. destruct (N.eqb e CH_u).
    + destruct r1 as [|h1 [|h2 [|h3 [|h4 r2]]]]; try discriminate. cbn [app].
      destruct (is_hex h1 && is_hex h2 && is_hex h3 && is_hex h4); [|discriminate]. exact (IH r2 b H).
    + destruct (is_simple_esc e); [|discriminate]. exact (IH r1 b H).
  - destruct (plain_ok ch); [|discriminate]. exact (IH r b H).
Qed.

Lemma esc_wf_cat : forall a b, esc_wf a = true -> esc_wf b = true -> esc_wf (a ++ b) = true.
Proof. intros a b Ha Hb. rewrite esc_wf_app by exact Ha. exact Hb. Qed.

Lemma esc_wf_nlesc : esc_wf NLESC = true.
Proof. reflexivity. Qed.

(* the length of the token a string begins with (an ordinary byte, a two-byte escape, \uXXXX) as
   escapedCutKeep reads it: it does not look at what follows the backslash beyond the u *)
Definition tok_len (s : bytes) : nat :=
  match s with
  | [] => 0
  | ch :: r =>
      if N.eqb ch BSLASH then match r with e :: _ => if N.eqb e CH_u then 6 else 2 | [] => 2 end else 1
  end.

Lemma esc_wf_tok_split : forall s k, (0 < k < tok_len s)%nat -> esc_wf (firstn k s) = false.
Proof.
  intros [|ch r] k Hk; cbn [tok_len] in Hk; [lia|].
  destruct (N.eqb ch BSLASH) eqn:Hbs; [|lia]. destruct k as [|k]; [lia|].
  cbn [firstn esc_wf]. rewrite Hbs. destruct r as [|e r1]; [rewrite firstn_nil; reflexivity|].
  destruct k as [|k]; [reflexivity|]. cbn [firstn]. destruct (N.eqb e CH_u); [|lia].
  (* fewer than four bytes after the u *)
  pose proof (firstn_le_length k r1) as Hl.
  destruct (firstn k r1) as [|h1 [|h2 [|h3 [|h4 r2]]]]; try reflexivity. cbn [length] in Hl. clear - Hl Hk. lia.
Qed.

Lemma esc_wf_tok_app : forall s b, (tok_len s <= length s)%nat ->
  esc_wf (firstn (tok_len s) s ++ b) = esc_wf (firstn (tok_len s) s) && esc_wf b.
Proof.
  intros [|ch r] b; [reflexivity|]. cbn [tok_len]. intros H. apply Nat.leb_le in H.
  destruct (N.eqb ch BSLASH) eqn:Hbs.
  - destruct r as [|e r1]; [discriminate|]. destruct (N.eqb e CH_u) eqn:Hu.
    + destruct r1 as [|h1 [|h2 [|h3 [|h4 r2]]]]; try discriminate.
      cbn [firstn app esc_wf]. rewrite Hbs, Hu, andb_true_r. reflexivity.
    + cbn [firstn app esc_wf]. rewrite Hbs, Hu, andb_true_r. reflexivity.
  - cbn [firstn app esc_wf]. rewrite Hbs, andb_true_r. reflexivity.
Qed.

Lemma tok_len_range : forall ch r, (1 <= tok_len (ch :: r) <= 6)%nat.
Proof.
  intros. cbn [tok_len]. destruct (N.eqb ch BSLASH); [|lia]. destruct r as [|e r1]; [lia|].
  destruct (N.eqb e CH_u); lia.
Qed.

Lemma cut_loop_tok : forall f ch r i limit, i < limit ->
  cut_loop (S f) (ch :: r) i limit =
    if i + Z.of_nat (tok_len (ch :: r)) >? limit then Ok i
    else cut_loop f (skipn (tok_len (ch :: r)) (ch :: r)) (i + Z.of_nat (tok_len (ch :: r))) limit.
Proof.
  intros f ch r i limit Hlt. cbn [cut_loop tok_len]. replace (i <? limit) with true by lia.
  destruct (N.eqb ch BSLASH); cbn [negb].
  - destruct r as [|e r1]; [|destruct (N.eqb e CH_u)]; reflexivity.
  - replace (i + Z.of_nat 1 >? limit) with false by lia. reflexivity.
Qed.

(* escapedCutKeep's loop from any position i, [rest] being its view s[i:], so that the induction goes
   through; 6 is the longest token, \uXXXX *)
Lemma cut_loop_ok : forall fuel rest i limit,
  0 <= limit - i <= len rest -> (Z.to_nat (limit - i) < fuel)%nat ->
  exists m : nat,
    cut_loop fuel rest i limit = Ok (i + Z.of_nat m) /\
    i + Z.of_nat m <= limit /\ limit - (i + Z.of_nat m) < 6 /\
    (esc_wf rest = true -> esc_wf (firstn m rest) = true) /\
    (forall k, (m < k)%nat -> i + Z.of_nat k <= limit -> esc_wf (firstn k rest) = false).
Proof.
  induction fuel as [|f IH]; intros rest i limit Hb Hf; [lia|].
  destruct (Z.ltb_spec i limit) as [Hlt|Hge].
  2:{ exists 0%nat. cbn [cut_loop]. replace (i <? limit) with false by lia.
      split; [f_equal; lia|]. repeat split; lia. }
  destruct rest as [|ch r]; [change (len (@nil byte)) with 0 in Hb; lia|].
  rewrite (cut_loop_tok f ch r i limit Hlt). pose proof (tok_len_range ch r) as Hn.
  set (s := ch :: r) in *. set (n := tok_len s) in *.
  destruct (i + Z.of_nat n >? limit) eqn:Hfit.
  - (* the token does not fit: no prefix within the budget ends on a boundary *)
    clear IH. exists 0%nat. split; [f_equal; lia|]. split; [lia|]. split; [lia|]. split; [reflexivity|].
    intros k Hk Hk'. apply esc_wf_tok_split. fold n. lia.
  - assert (Hlen : (n <= length s)%nat) by (unfold len in Hb; lia).
    destruct (IH (skipn n s) (i + Z.of_nat n) limit) as (m & Hr & Hle & Hmax & Hwf & Hlong);
      [rewrite klen_skipn by exact Hlen; lia|lia|].
    clear IH. exists (n + m)%nat. rewrite Hr. split; [f_equal; lia|]. split; [lia|]. split; [lia|].
    assert (Happ : forall b, esc_wf (firstn n s ++ b) = esc_wf (firstn n s) && esc_wf b)
      by (intros b; apply esc_wf_tok_app; exact Hlen).
    assert (Hsplit : forall k, esc_wf (firstn (n + k) s) = esc_wf (firstn n s) && esc_wf (firstn k (skipn n s)))
      by (intros k; rewrite firstn_plus; apply Happ).
    split.
    + intros H. rewrite <- (firstn_skipn n s), Happ in H.
      apply andb_true_iff in H as [Ht Hs]. rewrite Hsplit, Ht, (Hwf Hs). reflexivity.
    + intros k Hk Hk'. replace k with (n + (k - n))%nat by lia.
      rewrite Hsplit, (Hlong (k - n)%nat) by lia. apply andb_false_r.
Qed.

(* what the cut keeps, for any string and any limit (a negative limit keeps nothing) *)
Lemma k8s_cut_keep_ok : forall s limit, let k := cut_keep s limit in
  escaped_cut_keep s limit = Ok (Z.of_nat k) /\ (k <= length s)%nat /\
  Z.of_nat k <= Z.max 0 limit /\
  (0 <= limit <= len s -> limit - Z.of_nat k < 6) /\
  (esc_wf s = true -> esc_wf (firstn k s) = true) /\
  (forall j, (k < j)%nat -> Z.of_nat j <= limit -> Z.of_nat j <= len s -> esc_wf (firstn j s) = false).
Proof.
  intros s limit. unfold cut_keep, escaped_cut_keep.
  destruct (limit >=? len s) eqn:Hge.
  - unfold len in *. rewrite Nat2Z.id, firstn_all. repeat split; lia.
  - destruct (limit <? 0) eqn:Hneg.
    + cbn. repeat split; lia.
    + destruct (cut_loop_ok (S (Z.to_nat limit)) s 0 limit) as (m & Hr & Hle & Hmax & Hwf & Hlong); [lia|lia|].
      rewrite Hr. cbn [Z.add] in *. rewrite Nat2Z.id. unfold len in *.
      split; [reflexivity|]. split; [lia|]. split; [lia|]. split; [lia|]. split; [exact Hwf|].
      intros j Hj Hj' _. apply Hlong; lia.
Qed.

(* the cut never keeps more than the byte limit ... *)
Theorem k8s_cut_keep_le : forall s limit,
  exists k, escaped_cut_keep s limit = Ok k /\ 0 <= k <= len s /\ (0 <= limit -> k <= Z.min limit (len s)).
Proof.
  intros s limit. destruct (k8s_cut_keep_ok s limit) as (Hk & Hle & Hlim & _).
  eexists. split; [exact Hk|]. unfold len. lia.
Qed.

(* ... never splits a token of a well-tokenised body, for every limit ... *)
Theorem k8s_cut_keep_tokens : forall s limit k,
  escaped_cut_keep s limit = Ok k -> esc_wf s = true -> esc_wf (firstn (Z.to_nat k) s) = true.
Proof.
  intros s limit k Hk. destruct (k8s_cut_keep_ok s limit) as (Hk' & _ & _ & _ & Hwf & _).
  rewrite Hk in Hk'. injection Hk' as ->. rewrite Nat2Z.id. exact Hwf.
Qed.

(* ... and keeps the LONGEST prefix within the limit that ends on a token boundary: fewer than 6 bytes
   (one \uXXXX sequence) of the budget stay unused, and no longer prefix within the limit is well
   tokenised *)
Theorem k8s_cut_keep_maximal : forall s limit k,
  escaped_cut_keep s limit = Ok k -> 0 <= limit <= len s ->
  limit - k < 6 /\ forall j, k < j <= limit -> esc_wf (firstn (Z.to_nat j) s) = false.
Proof.
  intros s limit k Hk Hl. destruct (k8s_cut_keep_ok s limit) as (Hk' & _ & _ & Hmax & _ & Hlong).
  rewrite Hk in Hk'. injection Hk' as ->. split; [exact (Hmax Hl)|].
  intros j Hj. apply Hlong; lia.
Qed.

(* [lead_bs (rev P)] = the number of backslashes P ends with; [par] = odd (Z.odd on nat, odd_par): a byte behind P is
   inside an escape iff that number is odd (esc_state), which is what the backward loop of isLineEnd counts *)
Fixpoint lead_bs (l : bytes) : nat :=
  match l with c :: r => if N.eqb c BSLASH then S (lead_bs r) else O | [] => O end.
Fixpoint par (k : nat) : bool := match k with O => false | S k' => negb (par k') end.

Lemma odd_par : forall k, Z.odd (Z.of_nat k) = par k.
Proof.
  induction k as [|k IH]; [reflexivity|].
  rewrite Nat2Z.inj_succ, Z.odd_succ, <- Z.negb_odd, IH. reflexivity.
Qed.

Lemma esc_scan_app : forall a b e l,
  esc_scan (a ++ b) e l = esc_scan b (fst (esc_scan a e l)) (snd (esc_scan a e l)).
Proof.
  induction a as [|c a IH]; intros b e l; [reflexivity|].
  cbn [app esc_scan]. destruct e; [apply IH|]. destruct (N.eqb c BSLASH); apply IH.
Qed.

(* after any prefix read from a non-escape state, "inside an escape" = odd number of trailing backslashes *)
Lemma esc_state : forall P l, fst (esc_scan P false l) = par (lead_bs (rev P)).
Proof.
  intros P. induction P as [|c P IH] using rev_ind; intros l; [reflexivity|].
  rewrite esc_scan_app, rev_app_distr. cbn [rev app lead_bs].
  rewrite IH. cbn [esc_scan].
  destruct (par (lead_bs (rev P))) eqn:E; destruct (N.eqb c BSLASH); cbn [fst par]; rewrite ?E; reflexivity.
Qed.

(* the last token is the pair backslash-n: the last byte is n and an odd number of backslashes stands before it *)
Lemma esc_last : forall P c, snd (esc_scan (P ++ [c]) false false) = par (lead_bs (rev P)) && N.eqb c CH_n.
Proof.
  intros P c. rewrite esc_scan_app, esc_state. cbn [esc_scan].
  destruct (par (lead_bs (rev P))); [reflexivity|]. destruct (N.eqb c BSLASH); reflexivity.
Qed.

Lemma idx_behind_quote : forall (q : byte) P c t, idx (q :: P ++ c :: t) (len P + 1) = Ok c.
Proof. intros. rewrite <- (len_cons q P). exact (idx_app (q :: P) c t). Qed.

(* the backward loop, started on the last byte of P, counts the backslashes P ends with *)
Lemma count_slashes_spec : forall (q : byte) (P t : bytes) fuel acc,
  (length P < fuel)%nat ->
  count_slashes fuel (q :: P ++ t) (len P) acc = Ok (acc + Z.of_nat (lead_bs (rev P))).
Proof.
  intros q P. induction P as [|c P IH] using rev_ind; intros t fuel acc Hf; (destruct fuel as [|fuel]; [lia|]).
  - cbn. f_equal. lia.
  - rewrite app_length in Hf. cbn [length] in Hf. cbn [count_slashes].
    rewrite len_app, <- app_assoc, rev_app_distr. change (len [c]) with 1. cbn [app rev lead_bs].
    pose proof (len_nonneg P). replace (len P + 1 >? 0) with true by lia.
    rewrite idx_behind_quote. cbn [bind].
    destruct (N.eqb c BSLASH); [|f_equal; cbn; lia].
    replace (len P + 1 - 1) with (len P) by lia. rewrite IH by lia. f_equal. lia.
Qed.

Theorem is_line_end_spec : forall f, 2 <= len f -> is_line_end f = Ok (ends_nl f).
Proof.
  intros f H. destruct (frag_decomp f H) as (q & B & z & -> & Hb).
  unfold ends_nl, is_line_end. rewrite Hb, len_cons, len_app. change (len [z]) with 1.
  replace (len B + 1 + 1 - 2) with (len B) by lia.
  destruct (len B <? 2) eqn:Hsmall.
  - (* fewer than two bytes inside the quotes: no escape pair fits *)
    destruct B as [|b1 [|b2 B']]; [reflexivity| |unfold len in Hsmall; cbn [length] in Hsmall; lia].
    cbn [esc_scan]. destruct (N.eqb b1 BSLASH); reflexivity.
  - destruct (exists_last (l := B)) as [P [c ->]]; [intros ->; discriminate|].
    rewrite len_app, <- app_assoc. change (len [c]) with 1. cbn [app].
    rewrite idx_behind_quote. cbn [bind].
    rewrite esc_last. destruct (N.eqb c CH_n); cbn [negb]; [|rewrite andb_false_r; reflexivity].
    replace (len P + 1 - 1) with (len P) by lia.
    rewrite count_slashes_spec by (unfold len; lia). cbn [bind Z.add]. rewrite odd_par, andb_true_r. reflexivity.
Qed.

(* stated on the tokens: a fragment "…<odd number of backslashes>n" ends the line, a literal
   backslash followed by n (an even, non-zero number of backslashes before the n) does not *)
Corollary ends_nl_tokens : forall (P : bytes),
  ends_nl (QUOTE :: (P ++ [CH_n]) ++ [QUOTE]) = par (lead_bs (rev P)).
Proof. intros P. unfold ends_nl. rewrite body_quoted, esc_last. apply andb_true_r. Qed.

Lemma bodies_app : forall a b, bodies (a ++ b) = bodies a ++ bodies b.
Proof. intros. unfold bodies. rewrite map_app, concat_app. reflexivity. Qed.

Lemma bodies_one : forall f, bodies [f] = body f.
Proof. intros. unfold bodies. cbn. apply app_nil_r. Qed.

(* the walk keeps the buffer length (1 for the quote, then the bodies), so it can be resumed *)
Lemma first_unfit_app : forall max (a b : list bytes) pre,
  Forall (fun f => 2 <= len f) a ->
  first_unfit max pre (a ++ b) =
    match first_unfit max pre a with
    | Some pu => Some pu
    | None => match first_unfit max (pre + len (bodies a)) b with
              | Some (p, u) => Some (a ++ p, u)
              | None => None
              end
    end.
Proof.
  induction a as [|g r IH]; intros b pre Ha; cbn [app first_unfit].
  - change (len (bodies [])) with 0. rewrite Z.add_0_r. destruct (first_unfit max pre b) as [[p u]|]; reflexivity.
  - inversion Ha as [|? ? Hg Hr]; subst. destruct ((max =? 0) || (pre + len g <? max)); [|reflexivity].
    rewrite (IH b _ Hr). change (bodies (g :: r)) with (body g ++ bodies r).
    rewrite len_app, (body_len g Hg). replace (pre + (len g - 2 + len (bodies r))) with (pre + len g - 2 + len (bodies r)) by lia.
    destruct (first_unfit max (pre + len g - 2) r) as [[p u]|]; [reflexivity|].
    destruct (first_unfit max (pre + len g - 2 + len (bodies r)) b) as [[p u]|]; reflexivity.
Qed.

Lemma first_unfit_split : forall max fs pre p u,
  first_unfit max pre fs = Some (p, u) ->
  exists rest, fs = p ++ u :: rest /\ max <> 0 /\
    (Forall (fun f => 2 <= len f) p -> max <= pre + len (bodies p) + len u).
Proof.
  induction fs as [|g r IH]; intros pre p u H; [discriminate|]. cbn [first_unfit] in H.
  destruct ((max =? 0) || (pre + len g <? max)) eqn:Hf.
  - destruct (first_unfit max (pre + len g - 2) r) as [[p' u']|] eqn:E; [|discriminate].
    injection H as <- <-. destruct (IH _ _ _ E) as (rest & -> & Hm & Hu).
    exists rest. split; [reflexivity|]. split; [exact Hm|]. intros Hp. inversion Hp as [|? ? Hg Hr]; subst.
    change (bodies (g :: p')) with (body g ++ bodies p'). rewrite len_app, (body_len g Hg). specialize (Hu Hr). lia.
  - injection H as <- <-. exists r. change (len (bodies [])) with 0. repeat split; lia.
Qed.

Lemma first_unfit_zero : forall fs pre, first_unfit 0 pre fs = None.
Proof. induction fs as [|f r IH]; intros pre; [reflexivity|]. cbn [first_unfit]. cbn. rewrite IH. reflexivity. Qed.

Lemma sum_sizes_snoc : forall h f sz, sum_sizes (h ++ [(f, sz)]) = sum_sizes h + sz.
Proof.
  induction h as [|x h IH]; intros; cbn [app sum_sizes fold_right snd]; [lia|].
  fold (sum_sizes (h ++ [(f, sz)])). fold (sum_sizes h). rewrite IH. lia.
Qed.

(* the state is a function of the chunks of the current line:
   while every chunk fitted the buffer is the quote and their bodies; from the first chunk u that does
   not fit the rest of the line is skipped, the buffer keeps the bodies of the chunks p before u and,
   with cut_off_event_by_limit, the whole tokens of u that fit *)
Definition kstate_of (c : kcfg) (hist : list (bytes * Z)) : kstate :=
  match first_unfit (kmax c) 1 (map fst hist) with
  | None => {| ebuf := QUOTE :: bodies (map fst hist); esize := sum_sizes hist;
               skipNext := false; cutOff := false |}
  | Some (p, u) => {| ebuf := QUOTE :: (if kcut c then cut_body (kmax c) p u else bodies p);
                      esize := sum_sizes hist; skipNext := true; cutOff := kcut c |}
  end.

Lemma k_reset_quote : forall tl e s co,
  k_reset {| ebuf := QUOTE :: tl; esize := e; skipNext := s; cutOff := co |}
  = Ok {| ebuf := [QUOTE]; esize := 0; skipNext := s; cutOff := false |}.
Proof.
  intros. unfold k_reset. cbn [ebuf skipNext].
  change (slice_to (QUOTE :: tl) 1) with (slice_to ([QUOTE] ++ tl) (len [QUOTE])). rewrite slice_to_app. reflexivity.
Qed.

(* the central lemma: ONE call of Do on the canonical state of the line so far ([kstate_of c hist]) gives the canonical
   state of the line extended (or of the empty line) and the step of the specification; the run lemmas iterate it *)
Lemma k_step_spec : forall c (hist : list (bytes * Z)) (f : bytes) sz,
  konly c = false -> Forall (fun f => 2 <= len f) (map fst hist) -> 2 <= len f ->
  k_do c (kstate_of c hist) (KChunk f sz) =
    Ok (if ends_nl f || (opt_is_none (first_unfit (kmax c) 1 (map fst hist)) &&
                         (sum_sizes hist + sz + lookahead >? ksplit c))
        then (kstate_of c [], final_step c (map fst hist) f)
        else (kstate_of c (hist ++ [(f, sz)]),
              (ACollapse,
               (if opt_is_none (first_unfit (kmax c) 1 (map fst hist)) &&
                   negb (opt_is_none (first_unfit (kmax c) 1 (map fst hist ++ [f]))) then 1 else 0),
               None, false))).
Proof.
  intros c hist f sz Ho Hfs Hf.
  assert (Hnz : Nat.eqb (length f) 0 = false) by (unfold len in Hf; lia).
  (* the state is made explicit before k_do is unfolded: the branches it excludes go by computation *)
  unfold final_step, kstate_of.
  rewrite map_app, sum_sizes_snoc. cbn [map fst]. rewrite (first_unfit_app _ _ [f] _ Hfs). cbn [first_unfit].
  destruct (first_unfit (kmax c) 1 (map fst hist)) as [[p u]|] eqn:Eu; cbn [opt_is_none andb negb];
    unfold k_do; cbn [ebuf esize skipNext cutOff negb andb orb];
    rewrite Ho, Hnz, (is_line_end_spec f Hf); cbn [bind];
    set (split := sum_sizes hist + sz + lookahead >? ksplit c).
  - (* an earlier chunk of the line did not fit: skipping until the line ends *)
    destruct (first_unfit_split _ _ _ _ _ Eu) as (_ & _ & Hmax & _).
    replace (kmax c =? 0) with false by lia. rewrite !orb_false_r.
    destruct (ends_nl f); cbn [negb andb orb]; [|destruct split; reflexivity].
    destruct (kcut c); cbn [negb andb]; rewrite ?orb_true_r, k_reset_quote; reflexivity.
  - (* everything so far fitted: the buffer is the quote and the bodies *)
    rewrite !orb_false_r, (slice_body f Hf). cbn [bind].
    replace (len (QUOTE :: bodies (map fst hist)) + len f) with (1 + len (bodies (map fst hist)) + len f)
      by (rewrite len_cons; lia).
    rewrite <- negb_orb. destruct (ends_nl f || split); cbn [negb].
    + (* the line ends here (escaped newline, or split_event_size reached) *)
      destruct (bodies (map fst hist)) as [|b0 bs].
      * rewrite k_reset_quote. reflexivity.
      * replace (len (QUOTE :: b0 :: bs) >? 1) with true by (rewrite !len_cons; pose proof (len_nonneg bs); lia).
        rewrite k_reset_quote. reflexivity.
    + (* a partial chunk *)
      destruct ((kmax c =? 0) || (1 + len (bodies (map fst hist)) + len f <? kmax c)) eqn:Hfit;
        cbn [opt_is_none negb].
      * (* it fits: appended *)
        rewrite bodies_app, bodies_one. reflexivity.
      * (* the first oversize chunk of the line: discard the line, or cut it after the whole tokens that fit *)
        rewrite app_nil_r. destruct (kcut c); [|reflexivity].
        replace (len (body f) - (1 + len (bodies (map fst hist)) + len f - kmax c))
          with (kmax c - 3 - len (bodies (map fst hist))) by (rewrite (body_len f Hf); lia).
        destruct (k8s_cut_keep_ok (body f) (kmax c - 3 - len (bodies (map fst hist)))) as (Hk & Hle & _).
        rewrite Hk. cbn [bind]. rewrite (slice_to_firstn _ _ Hle). reflexivity.
Qed.

(* what a time-out does: everything buffered is dropped and skipNextEvent is cleared too (multiline_action.go:68-74):
   whatever the state was, the state after a time-out is the initial one *)
Theorem k8s_timeout_drops : forall c tl e s co,
  k_do c {| ebuf := QUOTE :: tl; esize := e; skipNext := s; cutOff := co |} KTimeout
  = Ok ({| ebuf := [QUOTE]; esize := 0; skipNext := false; cutOff := false |}, (ADiscard, 0, None, false)).
Proof. intros. cbn [k_do]. rewrite k_reset_quote. reflexivity. Qed.

Lemma k_do_timeout : forall c hist,
  k_do c (kstate_of c hist) KTimeout = Ok (kstate_of c [], (ADiscard, 0, None, false)).
Proof.
  intros. unfold kstate_of at 1.
  destruct (first_unfit (kmax c) 1 (map fst hist)) as [[p u]|]; apply k8s_timeout_drops.
Qed.

(* every step is k_spec_t of the chunks of the current line.
   A time-out ends the action's claim on the stream (it is not busy any more, the processor may take the next event
   from any other stream), so the steps that follow must be those of a fresh action.  True for EVERY configuration
   and EVERY placement of time-outs: the time-out step leads to the state of the empty line, whatever the line
   that timed out had done (also: exceeded max_event_size). *)
Lemma k_run_spec_t : forall c, konly c = false ->
  forall xs (hist : list (bytes * Z)), Forall (fun f => 2 <= len f) (map fst hist) -> forallb frag_ok xs = true ->
  exists st', k_run c (kstate_of c hist) xs = (k_spec_t c hist xs, Ok st').
Proof.
  intros c Ho. induction xs as [|x r IH]; intros hist Hh Hok; [eexists; reflexivity|].
  cbn [forallb] in Hok. apply andb_true_iff in Hok as [Hx Hok].
  destruct (IH [] (Forall_nil _) Hok) as [st0 H0].
  destruct x as [|f sz]; cbn [k_run k_spec_t].
  - rewrite k_do_timeout, H0. eexists; reflexivity.
  - cbn [frag_ok] in Hx. assert (Hf : 2 <= len f) by lia.
    rewrite (k_step_spec c hist f sz Ho Hh Hf).
    destruct (ends_nl f || _); [rewrite H0; eexists; reflexivity|].
    destruct (IH (hist ++ [(f, sz)])) as [st' H1]; [|exact Hok|rewrite H1; eexists; reflexivity].
    rewrite map_app. apply Forall_app. split; [exact Hh|]. repeat constructor. exact Hf.
Qed.

Theorem k8s_timeout_fresh : forall c xs,
  konly c = false -> forallb frag_ok xs = true ->
  exists st, k_run c kstate0 xs = (k_spec_t c [] xs, Ok st).
Proof. intros c xs Ho Hok. exact (k_run_spec_t c Ho xs [] (Forall_nil _) Hok). Qed.

(* the chunks of the line that is still open after xs (up to the first time-out) *)
Fixpoint k_pending (c : kcfg) (hist : list (bytes * Z)) (xs : list kin) : list (bytes * Z) :=
  match xs with
  | [] => hist
  | KTimeout :: _ => hist
  | KChunk f sz :: r =>
      if ends_nl f || (opt_is_none (first_unfit (kmax c) 1 (map fst hist)) &&
                       (sum_sizes hist + sz + lookahead >? ksplit c))
      then k_pending c [] r else k_pending c (hist ++ [(f, sz)]) r
  end.

Lemma k_spec_t_app : forall c xs hist ys, no_timeout xs = true ->
  k_spec_t c hist (xs ++ ys) = k_spec c hist xs ++ k_spec_t c (k_pending c hist xs) ys.
Proof.
  intros c. induction xs as [|x r IH]; intros hist ys Hnt; [reflexivity|].
  cbn [no_timeout forallb] in Hnt. apply andb_true_iff in Hnt as [Hx Hnt].
  destruct x as [|f sz]; [discriminate|]. cbn [app k_spec_t k_spec k_pending].
  destruct (ends_nl f || (opt_is_none (first_unfit (kmax c) 1 (map fst hist)) &&
                          (sum_sizes hist + sz + lookahead >? ksplit c))); rewrite (IH _ ys Hnt); reflexivity.
Qed.

(* what follows a time-out is specified exactly like a sequence given to an action that has just been started *)
Theorem k_spec_t_restart : forall c hist xs ys,
  no_timeout xs = true ->
  k_spec_t c hist (xs ++ KTimeout :: ys) = k_spec c hist xs ++ (ADiscard, 0, None, false) :: k_spec_t c [] ys.
Proof. intros c hist xs ys Hnt. rewrite (k_spec_t_app c xs hist _ Hnt). reflexivity. Qed.

(* time-out free input: every step is the function k_spec of the chunks of the current line;
   every max_event_size (the cut treats a negative remainder as "keep nothing") *)
Theorem k8s_steps_are_spec : forall c xs,
  konly c = false -> no_timeout xs = true -> forallb frag_ok xs = true ->
  exists st, k_run c kstate0 xs = (k_spec c [] xs, Ok st).
Proof.
  intros c xs Ho Hnt Hok. destruct (k8s_timeout_fresh c xs Ho Hok) as [st Hr]. exists st.
  rewrite Hr, <- (app_nil_r xs) at 1. rewrite (k_spec_t_app c xs [] [] Hnt). cbn [k_spec_t]. rewrite app_nil_r. reflexivity.
Qed.

(* a line whose chunks all fit and which is not split: one event, the in-order concatenation *)
Theorem k8s_concat : forall c fs g,
  first_unfit (kmax c) 1 fs = None ->
  final_step c fs g =
    match bodies fs with
    | [] => (APass, 0, Some g, false)
    | _ :: _ => (APass, 0, Some (QUOTE :: bodies fs ++ body g ++ [QUOTE]), false)
    end.
Proof. intros c fs g H. unfold final_step. rewrite H. reflexivity. Qed.

Lemma k_out_bytes_cons : forall o os,
  k_out_bytes (o :: os) = (match snd (fst o) with Some l => body l | None => [] end) ++ k_out_bytes os.
Proof. reflexivity. Qed.

(* conservation (max_event_size = 0, no time-out): bytes out + bytes still buffered = bytes in *)
Theorem k8s_conservation : forall c, kmax c = 0 ->
  forall xs hist, no_timeout xs = true ->
  k_out_bytes (k_spec c hist xs) ++ bodies (map fst (k_pending c hist xs))
    = bodies (map fst hist) ++ k_in_bytes xs.
Proof.
  intros c Hz. induction xs as [|x r IH]; intros hist Hnt.
  - cbn. rewrite app_nil_r. reflexivity.
  - cbn [no_timeout forallb] in Hnt. apply andb_true_iff in Hnt. destruct Hnt as [Hx Hnt].
    destruct x as [|f sz]; [discriminate|].
    cbn [k_spec k_pending]. rewrite Hz, first_unfit_zero. cbn [opt_is_none andb].
    change (k_in_bytes (KChunk f sz :: r)) with (body f ++ k_in_bytes r).
    destruct (ends_nl f || (sum_sizes hist + sz + lookahead >? ksplit c)).
    + rewrite k_out_bytes_cons, <- app_assoc, (IH [] Hnt). cbn [map bodies concat app].
      unfold final_step. rewrite Hz, first_unfit_zero.
      destruct (bodies (map fst hist)) as [|b0 bs] eqn:Eb; cbn [snd fst].
      * reflexivity.
      * rewrite (app_assoc (b0 :: bs) (body f) [QUOTE]), body_quoted, <- app_assoc. reflexivity.
    + rewrite k_out_bytes_cons. cbn [snd fst app]. rewrite (IH _ Hnt).
      rewrite map_app, bodies_app. cbn [map fst]. rewrite bodies_one, <- app_assoc. reflexivity.
Qed.

Theorem k8s_conservation_top : forall c, kmax c = 0 ->
  forall xs, no_timeout xs = true ->
  k_out_bytes (k_spec c [] xs) ++ bodies (map fst (k_pending c [] xs)) = k_in_bytes xs.
Proof. intros c Hz xs Hnt. exact (k8s_conservation c Hz xs [] Hnt). Qed.

(* only_node: every event is passed untouched, a time-out only resets the buffer *)
Definition only_step (x : kin) : kstep :=
  match x with KTimeout => (ADiscard, 0, None, false) | KChunk f _ => (APass, 0, Some f, false) end.

Lemma k_run_only : forall c, konly c = true ->
  forall xs tl e s co, exists st',
    k_run c {| ebuf := QUOTE :: tl; esize := e; skipNext := s; cutOff := co |} xs = (map only_step xs, Ok st').
Proof.
  intros c Ho. induction xs as [|[|f sz] r IH]; intros; [eexists; reflexivity| |]; cbn [k_run map only_step].
  - rewrite k8s_timeout_drops. destruct (IH [] 0 false false) as [st' ->]. eexists; reflexivity.
  - cbn [k_do]. rewrite Ho. destruct (IH tl e s co) as [st' ->]. eexists; reflexivity.
Qed.

Lemma k_spec_t_length : forall c xs hist, length (k_spec_t c hist xs) = length xs.
Proof.
  intros c. induction xs as [|[|f sz] r IH]; intros hist; cbn [k_spec_t length]; [reflexivity|now rewrite IH|].
  destruct (ends_nl f || _); cbn [length]; now rewrite IH.
Qed.

(* never panics: time-outs anywhere, every fragment at least the two quotes, every configuration: any
   max_event_size (also 1..3 and negative values: the cut then keeps nothing) *)
Theorem k8s_total : forall c xs, forallb frag_ok xs = true ->
  is_ok (snd (k_run c kstate0 xs)) = true /\ length (fst (k_run c kstate0 xs)) = length xs.
Proof.
  intros c xs Hok. destruct (konly c) eqn:Ho.
  - destruct (k_run_only c Ho xs [] 0 false false) as [st Hr]. unfold kstate0. rewrite Hr.
    split; [reflexivity|apply map_length].
  - destruct (k8s_timeout_fresh c xs Ho Hok) as [st Hr]. rewrite Hr. split; [reflexivity|apply k_spec_t_length].
Qed.

(* what the passed event of an oversize line carries when cut_off_event_by_limit is on: the bodies of
   the chunks that fitted and the longest run of whole tokens of the first chunk that did not, within
   max_event_size - 3 bytes in all.  It is a PREFIX of the line (nothing after the cut is glued on),
   and falls short of that limit by less than one \uXXXX sequence *)
Theorem k8s_cut_event : forall c fs g p u,
  Forall (fun f => 2 <= len f) fs ->
  first_unfit (kmax c) 1 fs = Some (p, u) -> kcut c = true ->
  final_step c fs g =
    (APass, 0, Some (QUOTE :: cut_body (kmax c) p u ++ (if ends_nl g then NLESC else []) ++ [QUOTE]), kfield c) /\
  (exists rest, bodies fs = cut_body (kmax c) p u ++ rest) /\
  len (bodies p) <= len (cut_body (kmax c) p u) <= Z.max (len (bodies p)) (kmax c - 3) /\
  (len (bodies p) <= kmax c - 3 -> kmax c - 3 - len (cut_body (kmax c) p u) < 6).
Proof.
  intros c fs g p u Hfs Hu Hcut.
  destruct (first_unfit_split _ _ _ _ _ Hu) as (rest & -> & _ & Hnofit).
  apply Forall_app in Hfs as [Hp Hfs]. specialize (Hnofit Hp). inversion Hfs as [|? ? Hlu _]; subst.
  destruct (k8s_cut_keep_ok (body u) (kmax c - 3 - len (bodies p))) as (_ & Hkle & Hklim & Hkmax & _).
  unfold final_step, cut_body. rewrite Hu, Hcut.
  rewrite len_app, len_firstn, Z.min_l by (unfold len at 2; lia). pose proof (body_len u Hlu).
  split; [reflexivity|]. split; [|lia].
  eexists (skipn _ (body u) ++ bodies rest).
  rewrite bodies_app. change (bodies (u :: rest)) with (body u ++ bodies rest).
  rewrite <- app_assoc. f_equal. rewrite app_assoc, firstn_skipn. reflexivity.
Qed.

Lemma esc_wf_bodies : forall fs, forallb (fun f => esc_wf (body f)) fs = true -> esc_wf (bodies fs) = true.
Proof.
  induction fs as [|f r IH]; intros H; [reflexivity|]. cbn [forallb] in H. apply andb_true_iff in H as [Hf Hr].
  change (bodies (f :: r)) with (body f ++ bodies r). apply esc_wf_cat; [exact Hf|exact (IH Hr)].
Qed.

(* the joined event (a concatenation of valid bodies), the cut event (whole tokens only, then the token \n)
   and the event passed untouched *)
Lemma final_step_wf : forall c fs g,
  forallb (fun f => esc_wf (body f)) fs = true -> esc_wf (body g) = true ->
  step_wf (final_step c fs g) = true.
Proof.
  intros c fs g Hwf Hg. unfold final_step, step_wf.
  destruct (first_unfit (kmax c) 1 fs) as [[p u]|] eqn:Eu.
  - destruct (kcut c); [|reflexivity]. cbn [fst snd].
    destruct (first_unfit_split _ _ _ _ _ Eu) as (rest & -> & _).
    rewrite forallb_app in Hwf. apply andb_true_iff in Hwf as [Hp Hu]. cbn [forallb] in Hu. apply andb_true_iff in Hu as [Hu _].
    rewrite app_assoc, body_quoted. apply esc_wf_cat; [|destruct (ends_nl g); reflexivity].
    apply esc_wf_cat; [exact (esc_wf_bodies p Hp)|].
    destruct (k8s_cut_keep_ok (body u) (kmax c - 3 - len (bodies p))) as (_ & _ & _ & _ & Hk & _). exact (Hk Hu).
  - apply esc_wf_bodies in Hwf. destruct (bodies fs) as [|b0 bs]; cbn [fst snd]; [exact Hg|].
    rewrite app_assoc, body_quoted. apply esc_wf_cat; [exact Hwf|exact Hg].
Qed.

Lemma k_spec_t_wf : forall c xs (hist : list (bytes * Z)),
  forallb (fun f => esc_wf (body f)) (map fst hist) = true ->
  forallb frag_wf xs = true -> forallb step_wf (k_spec_t c hist xs) = true.
Proof.
  intros c. induction xs as [|[|f sz] r IH]; intros hist Hw Hwf; [reflexivity| |];
    cbn [forallb] in Hwf; apply andb_true_iff in Hwf as [Hg Hwf]; cbn [k_spec_t].
  - exact (IH [] eq_refl Hwf).
  - cbn [frag_wf] in Hg. destruct (ends_nl f || _); cbn [forallb].
    + rewrite (final_step_wf c _ f Hw Hg). exact (IH [] eq_refl Hwf).
    + apply IH; [|exact Hwf]. rewrite map_app, forallb_app, Hw. cbn. rewrite Hg. reflexivity.
Qed.

(* end to end, every configuration, time-outs anywhere, only_node or not: when every fragment is a
   valid escaped JSON string, the log field of every passed event is one too *)
Theorem k8s_cut_event_wf : forall c xs,
  forallb frag_ok xs = true -> forallb frag_wf xs = true ->
  forallb step_wf (fst (k_run c kstate0 xs)) = true.
Proof.
  intros c xs Hok Hwf. destruct (konly c) eqn:Ho.
  - destruct (k_run_only c Ho xs [] 0 false false) as [st Hr]. unfold kstate0. rewrite Hr. cbn [fst].
    clear Hr Hok. induction xs as [|[|f sz] r IH]; [reflexivity|exact (IH Hwf)|].
    cbn [forallb] in Hwf. apply andb_true_iff in Hwf as [Hf Hwf]. cbn [map forallb]. rewrite (IH Hwf), andb_true_r. exact Hf.
  - destruct (k8s_timeout_fresh c xs Ho Hok) as [st Hr]. rewrite Hr. exact (k_spec_t_wf c xs [] eq_refl Hwf).
Qed.

(* the flush-on-time-out clause does NOT hold for this action: the time-out branch only resets the
   buffer (the code says "todo: do same logic as in join plugin here to send not full logs") *)
Definition k8s_timeout_witness : list kin :=
  [KChunk [34; 97; 98; 34]%N 10; KTimeout; KChunk [34; 99; 92; 110; 34]%N 10].

Theorem k8s_timeout_flush_refuted :
  exists c xs, kmax c = 0 /\ forallb frag_ok xs = true /\
    is_ok (snd (k_run c kstate0 xs)) = true /\
    k_out_bytes (fst (k_run c kstate0 xs)) <> k_in_bytes xs /\
    k_in_bytes xs = [97; 98; 99; 92; 110]%N /\ k_out_bytes (fst (k_run c kstate0 xs)) = [99; 92; 110]%N.
Proof.
  exists {| kmax := 0; ksplit := 524288; kcut := false; kfield := false; konly := false |}, k8s_timeout_witness.
  vm_compute. repeat split; try reflexivity. intro H; discriminate H.
Qed.

(* an action that keeps skipNextEvent across the time-out is excluded.  Witness: max_event_size 9; the chunk 0123456789
   (does not fit: the rest of its line is to be skipped), a time-out, the complete line ok, the complete line next.  The
   steps are those of k_spec_t: Collapse, Discard, Pass, Pass, both lines untouched; with skipNextEvent kept they would be
   Collapse, Discard, DISCARD, Pass (the line ok lost), which the last conjunct rules out *)
Definition k8s_fresh_witness : list kin :=
  [KChunk [34; 48; 49; 50; 51; 52; 53; 54; 55; 56; 57; 34]%N 50; KTimeout;
   KChunk [34; 111; 107; 92; 110; 34]%N 43; KChunk [34; 110; 101; 120; 116; 92; 110; 34]%N 45].
Definition k8s_fresh_cfg : kcfg := {| kmax := 9; ksplit := 524288; kcut := false; kfield := false; konly := false |}.

Example k8s_timeout_old_keeps_skip_excluded :
  konly k8s_fresh_cfg = false /\ forallb frag_ok k8s_fresh_witness = true /\
  k_run k8s_fresh_cfg kstate0 k8s_fresh_witness = (k_spec_t k8s_fresh_cfg [] k8s_fresh_witness, Ok kstate0) /\
  fst (k_run k8s_fresh_cfg kstate0 k8s_fresh_witness) =
    [(ACollapse, 1, None, false); (ADiscard, 0, None, false);
     (APass, 0, Some [34; 111; 107; 92; 110; 34]%N, false);
     (APass, 0, Some [34; 110; 101; 120; 116; 92; 110; 34]%N, false)] /\
  map (fun o : kstep => fst (fst (fst o))) (fst (k_run k8s_fresh_cfg kstate0 k8s_fresh_witness))
    <> [ACollapse; ADiscard; ADiscard; APass].
Proof. vm_compute. repeat split; try reflexivity. intro H; discriminate H. Qed.

(* the raw text behind the escaped fragment: insane-json's escaper is an oracle *)
Definition last_is_nl (raw : bytes) : bool :=
  match rev raw with c :: _ => N.eqb c 10%N | [] => false end.

Section RawLevel.
  Variable escaped : bytes -> bytes.       (* AppendEscapedString of a string node holding [raw] *)
  Hypothesis escaped_quoted : forall raw, 2 <= len (escaped raw).
  Hypothesis escaped_newline : forall raw, ends_nl (escaped raw) = last_is_nl raw.

  Theorem line_end_raw : forall raw, is_line_end (escaped raw) = Ok (last_is_nl raw).
  Proof. intros raw. rewrite is_line_end_spec by apply escaped_quoted. rewrite escaped_newline. reflexivity. Qed.
End RawLevel.
