(* The guards never wedge the processor (Model/Proc.v = pipeline/processor.go: processEvent / doActions / Propagate /
   Spawn as a stack machine, actions arbitrary up to the protocol guards P1-P6): from EVERY reachable state,
   without taking any new regular event from the stream, it can finish everything it has in hand: every
   event on the stack leaves (output or dropped) and every held event is flushed; the only events taken
   from the stream on the way are stream time-outs.

   The witness is a computable schedule [choose], iterated by [drain]; [choose_step] shows that the label
   chosen is enabled.  It chooses the actions' answers too (a holder propagates what it holds, an action that holds nothing
   discards): the claim is that no guard bars the way out, not that every behaviour of the actions ends; a holder that keeps
   its event at every time-out never does.  That it decreases the variant [rank] is true of every step with a label of its kind
   ([lowering_rank]), and that nothing is lost ([keeps]) of every step of [pstep], scheduled or not, by the
   count of places of Proofs/Proc.v.

   Not needed: reachability serves only for [pcrashed s = false] (no step sets the flag), so the theorem
   holds from every state that is not crashed ([can_finish_from]); the premise [0 <= n] of
   [proc_can_always_finish]; the invariants [struct_ok] and [ord_ok] of Proofs/Proc.v: no guard P1-P6 can
   block the schedule. *)
From Verif Require Import Base.Sx Model.Proc Proofs.Proc.
From Verif Require Proofs.Lts.
From Coq Require Import Lia ZifyBool Bool List ZArith.
Import ListNotations.
Local Open Scope Z_scope.

(* the only events taken are stream time-outs *)
Definition internal (l : plabel) : Prop :=
  match l with PTake e _ => pkind e = 3 | _ => True end.

Lemma pstep_crashed s l s' : pstep s l = Some s' -> pcrashed s = false /\ pcrashed s' = false.
Proof. intros H. apply pstep_inv in H as [Hc H]. split; [exact Hc|]. destruct H; exact Hc. Qed.

Lemma reachable_not_crashed n ls s : prun (pinit n) ls = Some s -> pcrashed s = false.
Proof.
  apply (Lts.run_invariant pstep (fun s => pcrashed s = false)); [|reflexivity].
  intros s0 l s1 _ Hstep. exact (proj2 (pstep_crashed _ _ _ Hstep)).
Qed.

Definition holding (h : list (Z * pev)) (a : Z) : bool :=
  match held_at h a with Some _ => true | None => false end.

(* the smallest action index that holds an event (0 for the empty list) *)
Fixpoint min_idx (h : list (Z * pev)) : Z :=
  match h with
  | [] => 0
  | (i, _) :: r => match r with [] => i | _ :: _ => Z.min i (min_idx r) end
  end.

Lemma min_idx_cons i x p r : min_idx ((i, x) :: p :: r) = Z.min i (min_idx (p :: r)).
Proof. reflexivity. Qed.

Lemma min_idx_le h : forall j y, In (j, y) h -> min_idx h <= j.
Proof.
  induction h as [|[i x] r IH]; intros j y Hin; [destruct Hin|].
  destruct r as [|p r'].
  - destruct Hin as [Heq|[]]. inversion Heq; subst. cbn [min_idx]. lia.
  - rewrite min_idx_cons. destruct Hin as [Heq|Hin].
    + inversion Heq; subst. lia.
    + specialize (IH j y Hin). lia.
Qed.

Lemma min_idx_in h : h <> [] -> exists y, In (min_idx h, y) h.
Proof.
  induction h as [|[i x] r IH]; [congruence|]. intros _.
  destruct r as [|p r'].
  - exists x. left. reflexivity.
  - rewrite min_idx_cons.
    assert (Hne : p :: r' <> []) by discriminate.
    destruct (IH Hne) as [y Hy].
    destruct (Z.min_spec i (min_idx (p :: r'))) as [[_ Hm]|[_ Hm]]; rewrite Hm.
    + exists x. left. reflexivity.
    + exists y. right. exact Hy.
Qed.

Lemma held_at_some h a y : In (a, y) h -> exists y', held_at h a = Some y'.
Proof.
  intros Hin. destruct (held_at h a) as [y'|] eqn:E; [eauto|]. destruct (held_at_None _ _ E _ Hin).
Qed.

Lemma none_left_min h : existsb (fun p : Z * pev => fst p <? min_idx h) h = false.
Proof.
  destruct (existsb (fun p : Z * pev => fst p <? min_idx h) h) eqn:E; [|reflexivity].
  apply existsb_exists in E. destruct E as [[j y] [Hin Hlt]]. cbn [fst] in Hlt.
  pose proof (min_idx_le _ _ _ Hin) as Hle. lia.
Qed.

Lemma unhold_length h a y : held_at h a = Some y -> S (length (unhold h a)) = length h.
Proof.
  induction h as [|[i x] r IH]; cbn [held_at unhold]; [discriminate|].
  destruct (i =? a); intros H; cbn [length]; [reflexivity|]. f_equal. exact (IH H).
Qed.

Lemma held_split h a y : held_at h a = Some y ->
  forall e, In e (map snd h) -> e = y \/ In e (map snd (unhold h a)).
Proof.
  intros H e Hin. apply (count_occ_In pev_eq_dec) in Hin. rewrite (cnt_unhold _ _ _ e H) in Hin.
  apply (count_occ_In pev_eq_dec) in Hin. destruct Hin as [<-|Hin]; [left; reflexivity|right; exact Hin].
Qed.

Lemma pev_eqb_refl x : pev_eqb x x = true.
Proof. unfold pev_eqb. rewrite !Z.eqb_refl. reflexivity. Qed.

Definition tmo : pev := {| pseq := 0; pkind := 3 |}.   (* a stream time-out event *)

(* The schedule.  Before a Do: enter it, with the busy flag the model demands.  Inside the Do of a busy action:
   Propagate what it holds (P1); of an idle one: Discard, which P2-P4 never forbid (they restrict Pass, Break
   and Hold).  Leaving: Out.  Stack empty, something held: take a time-out at the FIRST busy action, the only
   index the guard of PTake admits. *)
Definition choose (s : pst) : option plabel :=
  match stack s with
  | [] => match held s with
          | [] => None
          | _ :: _ => Some (PTake tmo (min_idx (held s)))
          end
  | f :: _ =>
      Some match fph f with
           | BeforeDo => PDo (fev f) (fidx f) (holding (held s) (fidx f))
           | InDo => match held_at (held s) (fidx f) with
                     | Some y => PPropagate y (fidx f + 1)
                     | None => PResult (fev f) (fidx f) RDiscard
                     end
           | MustOut => POut (fev f)
           end
  end.

Fixpoint drain (k : nat) (s : pst) : list plabel :=
  match k with
  | O => []
  | S k' => match choose s with
            | None => []
            | Some l => match pstep s l with
                        | Some s1 => l :: drain k' s1
                        | None => []
                        end
            end
  end.

(* steps the schedule spends on a frame itself: Do + result, or result only, or output *)
Definition fbase (f : frame) : nat :=
  match fph f with BeforeDo => 2%nat | InDo => 1%nat | MustOut => 1%nat end.

(* a held event costs 6 (time-out taken, its Do, Propagate, the flushed event's Do + result or its output,
   the time-out's result); 3 of them are already paid when the head frame is at the action that holds it *)
Definition adj (st : list frame) (h : list (Z * pev)) : nat :=
  match st with
  | [] => 3%nat
  | f :: _ => match fph f with
              | MustOut => 3%nat
              | _ => if holding h (fidx f) then 0%nat else 3%nat
              end
  end.

Fixpoint fsum (st : list frame) : nat :=
  match st with [] => 0%nat | f :: r => (fbase f + fsum r)%nat end.

Definition rank (s : pst) : nat :=
  (6 * length (held s) + fsum (stack s) + adj (stack s) (held s))%nat.

Lemma adj_le3 st h : (adj st h <= 3)%nat.
Proof.
  unfold adj. destruct st as [|f r]; [lia|].
  destruct (fph f); try lia; destruct (holding h (fidx f)); lia.
Qed.

Definition inhand (s : pst) : list pev := map fev (stack s) ++ map snd (held s).
Definition acct (s : pst) (e : pev) : Prop := In e (inhand s) \/ In e (outs s) \/ In e (dropped s).
(* every event that is not a time-out and is in hand, output or dropped before, still is after *)
Definition keeps (s s1 : pst) : Prop := forall e, pkind e <> 3 -> acct s e -> acct s1 e.

Lemma keeps_refl s : keeps s s.
Proof. intros e _ H. exact H. Qed.

Lemma keeps_trans s1 s2 s3 : keeps s1 s2 -> keeps s2 s3 -> keeps s1 s3.
Proof. intros H12 H23 e Hk Ha. apply H23; [exact Hk|]. apply H12; assumption. Qed.

Lemma acct_places s e : acct s e <-> In e (places s).
Proof. unfold acct, inhand, places. rewrite !in_app_iff. tauto. Qed.

Lemma pstep_keeps s l s' : pstep s l = Some s' -> keeps s s'.
Proof.
  intros H e Hk. apply pstep_inv in H as [_ H].
  rewrite !acct_places, !(count_occ_In pev_eq_dec), (places_step _ _ _ e H Hk). lia.
Qed.

Lemma choose_none s : choose s = None -> stack s = [] /\ held s = [].
Proof.
  unfold choose. destruct (stack s) as [|f r]; [|discriminate].
  destruct (held s) as [|p h']; [split; reflexivity|discriminate].
Qed.

(* The labels [rank] is a variant of, in every state that enables them: a time-out taken, Do entered, a flush,
   Discard by an idle action, the output.  The schedule picks no others. *)
Definition lowering (s : pst) (l : plabel) : Prop :=
  match l with
  | PTake e _ => pkind e = 3
  | PDo _ _ _ | PPropagate _ _ | POut _ => True
  | PResult _ a r => r = RDiscard /\ held_at (held s) a = None
  | _ => False
  end.

Lemma lowering_internal s l : lowering s l -> internal l.
Proof. intros Hf. destruct l; try exact I. exact Hf. Qed.

Lemma lowering_rank s l s' : pstep_rel s l s' -> lowering s l -> (rank s' < rank s)%nat.
Proof.
  intros H Hf. unfold rank.
  (* seven of the twelve rules go by the shape of their label *)
  destruct H; cbn [lowering] in Hf; try contradiction; try (destruct Hf; discriminate).
  all: rewrite E; cbn [set_stack set_held stack held fsum adj fph fidx]; unfold fbase, holding; cbn [fph]; try rewrite Hp.
  - (* a time-out taken for a busy action: 3 for the new frame, and [adj] falls from 3 to 0 *)
    rewrite Hy. lia.
  - (* Do entered *)
    lia.
  - (* a flush: one held event less pays for the new frame and for [adj] *)
    rewrite Hi, Hy. cbv iota. pose proof (unhold_length _ _ _ Hy).
    destruct (fph (enter e next (nact s))); try destruct (held_at (unhold _ _) _); lia.
  - (* Discard by an idle action: the frame and the 3 of [adj] go, [adj] of the rest is at most 3 *)
    rewrite (proj2 Hf). pose proof (adj_le3 r (held s)). lia.
  - (* the output: likewise *)
    pose proof (adj_le3 r (held s)). lia.
Qed.

Lemma choose_step s l : pcrashed s = false -> choose s = Some l ->
  exists s1, pstep s l = Some s1 /\ internal l /\ (rank s1 < rank s)%nat /\ keeps s s1.
Proof.
  intros Hc Hl.
  (* the label chosen is lowering by its shape: the work is to show it enabled *)
  enough (Hen : exists s1, pstep s l = Some s1 /\ lowering s l).
  { destruct Hen as (s1 & Hs & Hf). exists s1. split; [exact Hs|]. split; [exact (lowering_internal _ _ Hf)|].
    split; [|exact (pstep_keeps _ _ _ Hs)]. exact (lowering_rank _ _ _ (proj2 (pstep_inv _ _ _ Hs)) Hf). }
  unfold choose in Hl. destruct (stack s) as [|f r] eqn:E.
  - (* stack empty: a time-out for the first busy action *)
    destruct (held s) as [|p h'] eqn:Eh; [discriminate|]. rewrite <- Eh in *. injection Hl as <-.
    destruct (min_idx_in (held s)) as [y Hy]; [congruence|]. destruct (held_at_some _ _ _ Hy) as [y' Hy'].
    unfold pstep. rewrite Hc, E. change (pkind tmo =? 3) with true. cbv iota. rewrite Hy', none_left_min.
    eexists. split; reflexivity.
  - destruct (fph f) eqn:Hp.
    + (* BeforeDo: enter Do *)
      injection Hl as <-. unfold pstep. rewrite Hc, E, Hp, pev_eqb_refl, Z.eqb_refl, eqb_reflx.
      eexists. split; [reflexivity|exact I].
    + (* InDo *)
      destruct (held_at (held s) (fidx f)) as [y|] eqn:Ehd; injection Hl as <-; unfold pstep; rewrite Hc, E, Hp.
      * (* the action is busy: it flushes what it holds *)
        rewrite Z.add_simpl_r, Ehd, Z.eqb_refl, pev_eqb_refl.
        eexists. split; [reflexivity|exact I].
      * (* the action is idle: its Do may return Discard *)
        rewrite pev_eqb_refl, Z.eqb_refl.
        eexists. split; [reflexivity|]. split; [reflexivity|exact Ehd].
    + (* MustOut: the event is handed to the output *)
      injection Hl as <-. unfold pstep. rewrite Hc, E, Hp, pev_eqb_refl.
      eexists. split; [reflexivity|exact I].
Qed.

Lemma finished_or_progress s : pcrashed s = false ->
  (stack s = [] /\ held s = []) \/
  exists l s1, choose s = Some l /\ internal l /\ pstep s l = Some s1 /\ (rank s1 < rank s)%nat /\ keeps s s1.
Proof.
  intros Hc. destruct (choose s) as [l|] eqn:El.
  - right. destruct (choose_step s l Hc El) as (s1 & Hs & Hi & Hlt & Hk). exists l, s1. auto.
  - left. apply choose_none. exact El.
Qed.

Theorem proc_finished_or_progress :
  forall n ls s, prun (pinit n) ls = Some s ->
  (stack s = [] /\ held s = []) \/
  exists l s1, internal l /\ pstep s l = Some s1 /\ (rank s1 < rank s)%nat.
Proof.
  intros n ls s Hrun.
  destruct (finished_or_progress s (reachable_not_crashed _ _ _ Hrun)) as [Hfin|(l & s1 & _ & Hi & Hs & Hlt & _)]; eauto 6.
Qed.

(* [drain] is [Lts.sched pstep choose] and [prun] is [Lts.run pstep], by conversion *)
Lemma drain_finishes k : forall s, (rank s < k)%nat -> pcrashed s = false ->
  exists s', prun s (drain k s) = Some s' /\ Forall internal (drain k s) /\
    pcrashed s' = false /\ stack s' = [] /\ held s' = [] /\ keeps s s'.
Proof.
  intros s Hr Hc.
  destruct (Lts.sched_rests pstep choose rank (fun x => pcrashed x = false /\ keeps s x) internal) with (fuel := k) (s := s)
    as (s' & Hrun & Hall & Hn & Hc' & Hk); [|exact Hr|split; [exact Hc|apply keeps_refl]|].
  { intros x l [Hx Hkx] El. destruct (choose_step x l Hx El) as (x1 & Hs & Hi & Hlt & Hk1). exists x1.
    repeat split; try assumption; [exact (proj2 (pstep_crashed _ _ _ Hs))|exact (keeps_trans _ _ _ Hkx Hk1)]. }
  destruct (choose_none s' Hn) as [Hst Hh]. exists s'. auto 6.
Qed.

Theorem can_finish_from : forall s, pcrashed s = false ->
  exists s', prun s (drain (S (rank s)) s) = Some s' /\ Forall internal (drain (S (rank s)) s) /\
    pcrashed s' = false /\ stack s' = [] /\ held s' = [] /\
    (forall e, In e (map fev (stack s) ++ map snd (held s)) -> pkind e <> 3 -> In e (outs s') \/ In e (dropped s')).
Proof.
  intros s Hc.
  destruct (drain_finishes (S (rank s)) s) as (s' & Hrun & Hall & Hc' & Hst & Hh & Hk); [lia|exact Hc|].
  exists s'. repeat (split; [assumption|]).
  intros e Hin Hk3. destruct (Hk e Hk3) as [Hi|Ho]; [left; exact Hin| |exact Ho].
  unfold inhand in Hi. rewrite Hst, Hh in Hi. destruct Hi.
Qed.

Theorem proc_can_always_finish :
  forall n ls s, 0 <= n -> prun (pinit n) ls = Some s ->
  exists ls' s', Forall internal ls' /\ prun s ls' = Some s' /\
    pcrashed s' = false /\ stack s' = [] /\ held s' = [] /\
    (* nothing is lost on the way: what was in hand is now output or dropped *)
    (forall e, In e (map fev (stack s) ++ map snd (held s)) -> pkind e <> 3 -> In e (outs s') \/ In e (dropped s')).
Proof.
  intros n ls s _ Hrun.
  destruct (can_finish_from s (reachable_not_crashed _ _ _ Hrun)) as (s' & Hr & Hall & Hrest).
  exists (drain (S (rank s)) s), s'. auto.
Qed.

Lemma drain_length k : forall s, (length (drain k s) <= k)%nat.
Proof. exact (Lts.sched_length pstep choose k). Qed.

(* 3 actions.  e1 passes actions 0 and 1 and is held by action 2; e2 passes action 0 and is held by
   action 1; e3 is taken and is inside Do of action 0. *)
Definition two_holders_in_do : list plabel :=
  [PTake (ev 1 0) 0; PDo (ev 1 0) 0 false; PResult (ev 1 0) 0 RPass; PDo (ev 1 0) 1 false; PResult (ev 1 0) 1 RPass;
   PDo (ev 1 0) 2 false; PResult (ev 1 0) 2 RHold;
   PTake (ev 2 0) 0; PDo (ev 2 0) 0 false; PResult (ev 2 0) 0 RPass; PDo (ev 2 0) 1 false; PResult (ev 2 0) 1 RHold;
   PTake (ev 3 0) 0; PDo (ev 3 0) 0 false].

Example proc_two_holders_in_do_state :
  option_map (fun s => (held s, stack s, outs s, dropped s)) (prun (pinit 3) two_holders_in_do)
    = Some ([(1, ev 2 0); (2, ev 1 0)], [{| fev := ev 3 0; fidx := 0; fph := InDo |}], [], []).
Proof. vm_compute. reflexivity. Qed.

(* the schedule of the proof: e3 is discarded; ONE time-out goes to action 1, which flushes e2; e2 makes
   action 2 flush e1 (out) and is discarded there; the time-out is discarded *)
Definition finish_by_schedule : list plabel :=
  [PResult (ev 3 0) 0 RDiscard;
   PTake tmo 1; PDo tmo 1 true; PPropagate (ev 2 0) 2;
     PDo (ev 2 0) 2 true; PPropagate (ev 1 0) 3; POut (ev 1 0);
     PResult (ev 2 0) 2 RDiscard;
   PResult tmo 1 RDiscard].

Example proc_finish_example_schedule :
  forall s, prun (pinit 3) two_holders_in_do = Some s ->
    drain (S (rank s)) s = finish_by_schedule /\ Forall internal finish_by_schedule /\
    option_map (fun s' => (pcrashed s', stack s', held s', outs s', dropped s')) (prun s finish_by_schedule)
      = Some (false, [], [], [ev 1 0], [ev 2 0; ev 3 0]).
Proof.
  intros s H. vm_compute in H. inversion H; subst s; clear H.
  split; [vm_compute; reflexivity|]. split; [|vm_compute; reflexivity].
  unfold finish_by_schedule. repeat constructor.
Qed.

(* another finish of the same state, every held event flushed by its own stream time-out *)
Definition finish_by_two_timeouts : list plabel :=
  [PResult (ev 3 0) 0 RDiscard;
   PTake (ev 0 3) 1; PDo (ev 0 3) 1 true; PPropagate (ev 2 0) 2;
     PDo (ev 2 0) 2 true; PResult (ev 2 0) 2 RDiscard;
   PResult (ev 0 3) 1 RDiscard;
   PTake (ev 0 3) 2; PDo (ev 0 3) 2 true; PPropagate (ev 1 0) 3; POut (ev 1 0);
   PResult (ev 0 3) 2 RDiscard].

Example proc_finish_example_two_timeouts :
  Forall internal finish_by_two_timeouts /\
  option_map (fun s' => (pcrashed s', stack s', held s', outs s', dropped s'))
    (prun (pinit 3) (two_holders_in_do ++ finish_by_two_timeouts))
    = Some (false, [], [], [ev 1 0], [ev 2 0; ev 3 0]).
Proof.
  split; [|vm_compute; reflexivity].
  unfold finish_by_two_timeouts. repeat constructor.
Qed.

(* taking a regular event instead is not internal, and a time-out is refused while the stack is not empty
   or at an action that is not the first busy one: the schedule has no other way to reach the held events *)
Example proc_timeout_guard_example :
  forall s, prun (pinit 3) two_holders_in_do = Some s ->
    ~ internal (PTake (ev 4 0) 0) /\
    pstep s (PTake tmo 1) = None /\
    (forall s1, pstep s (PResult (ev 3 0) 0 RDiscard) = Some s1 ->
       pstep s1 (PTake tmo 2) = None /\ pstep s1 (PTake tmo 0) = None /\ pstep s1 (PTake tmo 1) <> None).
Proof.
  intros s H. vm_compute in H. inversion H; subst s; clear H.
  split; [cbn; discriminate|]. split; [vm_compute; reflexivity|].
  intros s1 H1. vm_compute in H1. inversion H1; subst s1; clear H1.
  split; [vm_compute; reflexivity|]. split; [vm_compute; reflexivity|]. vm_compute. discriminate.
Qed.

(* n = 0: no action, nothing can be held; the only thing in hand is an event on its way out *)
Example proc_finish_example_no_actions :
  forall s, prun (pinit 0) [PTake (ev 1 0) 0] = Some s ->
    held s = [] /\ drain (S (rank s)) s = [POut (ev 1 0)] /\
    option_map (fun s' => (stack s', held s', outs s')) (prun s [POut (ev 1 0)]) = Some ([], [], [ev 1 0]).
Proof.
  intros s H. vm_compute in H. inversion H; subst s; clear H.
  split; [reflexivity|]. split; vm_compute; reflexivity.
Qed.

Print Assumptions proc_can_always_finish.
Print Assumptions proc_finished_or_progress.
Print Assumptions can_finish_from.
