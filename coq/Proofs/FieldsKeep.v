(* Proofs for C18, part 2: keep_fields.Do against [project] (the trie of Start; traverseFieldsTree with its
   delete buffers computes the function [keepv]; [keepv] is [project] up to key order), the two plugins from
   their configured selectors (ParseNestedFields in closed form, [parse_nested_eq]), and what is false of the
   code. *)
From Verif Require Import Base.Sx Base.GoSem Base.Json Model.Fields Proofs.GoSemFacts Proofs.ListFacts
  Proofs.JsonFacts Proofs.Fields.
From Coq Require Import Lia Permutation.

(* the loop over the children inside [trie_insert] (the trie of Start), word for word *)
Definition ins_child (k : bytes) (r : path) : list (bytes * trie) -> list (bytes * trie) :=
  fix ins ch :=
    match ch with
    | [] => [(k, trie_insert r (Trie []))]
    | (k', c) :: ch' =>
        if key_eqb k' k then (k', trie_insert r c) :: ch' else (k', c) :: ins ch'
    end.
Lemma trie_insert_cons k r t : trie_insert (k :: r) t = Trie (ins_child k r (children t)).
Proof. reflexivity. Qed.

Definition tdefault (o : option trie) : trie := match o with Some c => c | None => Trie [] end.

Lemma get_ins_child k r ch k2 :
  trie_get (ins_child k r ch) k2 =
  if key_eqb k k2 then Some (trie_insert r (tdefault (trie_get ch k))) else trie_get ch k2.
Proof.
  induction ch as [|[k' c] ch IH]; cbn [ins_child trie_get]; [destruct (key_eqb k k2); reflexivity|].
  destruct (key_eqb_spec k' k) as [->|Hne]; cbn [trie_get tdefault]; [destruct (key_eqb k k2); reflexivity|].
  rewrite IH. destruct (key_eqb_spec k k2) as [E|_]; [|reflexivity].
  destruct (key_eqb_spec k' k2); [congruence|reflexivity].
Qed.

Lemma trie_of_snoc ps p : trie_of (ps ++ [p]) = trie_insert p (trie_of ps).
Proof. unfold trie_of. rewrite fold_left_app. reflexivity. Qed.

(* below k the trie of ps is the trie of the continuations of ps below k *)
Lemma trie_of_get ps k :
  trie_get (children (trie_of ps)) k = if is_nil (tails k ps) then None else Some (trie_of (tails k ps)).
Proof.
  induction ps as [|p ps IH] using rev_ind; [reflexivity|].
  rewrite trie_of_snoc, tails_app. destruct p as [|k' r]; [rewrite app_nil_r; exact IH|].
  rewrite trie_insert_cons. cbn [children tails]. rewrite get_ins_child.
  destruct (key_eqb_spec k' k) as [->|_]; [|rewrite app_nil_r; exact IH].
  rewrite IH, trie_of_snoc. destruct (tails k ps); reflexivity.
Qed.

Lemma trie_of_leaf ps : is_leaf (trie_of ps) = forallb is_nil ps.
Proof.
  induction ps as [|p ps IH] using rev_ind; [reflexivity|].
  rewrite trie_of_snoc, forallb_app. destruct p as [|k r]; cbn [forallb is_nil].
  - rewrite andb_true_r. exact IH.
  - rewrite andb_false_r, trie_insert_cons. unfold is_leaf. cbn [children].
    destruct (children (trie_of ps)) as [|[k' c] ch]; cbn [ins_child]; [|destruct (key_eqb k' k)]; reflexivity.
Qed.

Lemma prefix_free_tails k : forall ps, prefix_free ps -> prefix_free (tails k ps).
Proof.
  induction ps as [|p r IH]; intro PF; [exact I|]. destruct PF as [F PF]. specialize (IH PF).
  destruct p as [|k' t]; cbn [tails]; [exact IH|].
  destruct (key_eqb_spec k' k) as [->|_]; [|exact IH].
  cbn [prefix_free]. split; [|exact IH]. apply Forall_forall. intros q Hq. apply tails_in in Hq.
  rewrite Forall_forall in F. specialize (F _ Hq). cbn [is_prefix] in F. rewrite key_eqb_refl in F. exact F.
Qed.

Lemma prefix_free_nil_only ps : prefix_free ps -> In [] ps -> ps = [[]].
Proof.
  destruct ps as [|p r]; intros PF H; [destruct H|]. destruct PF as [F PF].
  rewrite Forall_forall in F. destruct H as [->|H].
  - destruct r as [|q r]; [reflexivity|]. destruct (F q (or_introl eq_refl)) as [H1 _]. discriminate.
  - destruct (F _ H) as [_ H2]. discriminate.
Qed.

Lemma pf_leaf ts : prefix_free ts -> ts <> [] -> forallb is_nil ts = existsb is_nil ts.
Proof.
  intros PF NE. destruct (existsb is_nil ts) eqn:E.
  - apply existsb_exists in E as ([|] & H & E); [|discriminate].
    rewrite (prefix_free_nil_only ts PF H). reflexivity.
  - destruct ts as [|p r]; [congruence|]. cbn in E. apply orb_false_iff in E as [E _].
    cbn. rewrite E. reflexivity.
Qed.

(* the loop over the keys inside [trav], word for word, with the recursive call as a parameter *)
Definition kloop (rec : trie -> json -> bufs_t -> res (bool * json * bufs_t)) (t : trie) (depth : nat) :=
  fix loop (keys : list bytes) (fs : fields) (bufs : bufs_t) (pres : bool) {struct keys}
    : res (fields * bufs_t * bool) :=
    match keys with
    | [] => Ok (fs, bufs, pres)
    | k :: keys' =>
        match trie_get (children t) k with
        | Some c =>
            if is_leaf c then loop keys' fs bufs true
            else
              match field_get fs k with
              | Some v =>
                  r <- rec c v bufs ;;
                  let '(e, v', bufs') := r in
                  let fs' := upd_field k (fun _ => v') fs in
                  if (e : bool) then loop keys' fs' bufs' true
                  else (b2 <- buf_push bufs' depth k ;; loop keys' fs' b2 pres)
              | None => b2 <- buf_push bufs depth k ;; loop keys' fs b2 pres
              end
        | None => b2 <- buf_push bufs depth k ;; loop keys' fs b2 pres
        end
    end.

Definition is_some {A} (o : option A) : bool := match o with Some _ => true | None => false end.

(* what the specification keeps of one field: all of it, its projection, or nothing *)
Definition proj_entry (ps : list path) (kv : bytes * json) : option json :=
  if existsb is_nil (tails (fst kv) ps) then Some (snd kv) else proj (tails (fst kv) ps) (snd kv).
Lemma proj_fields_cons ps k v r :
  proj_fields ps ((k, v) :: r) =
  match proj_entry ps (k, v) with Some v' => (k, v') :: proj_fields ps r | None => proj_fields ps r end.
Proof. unfold proj_entry. cbn [proj_fields fst snd]. destruct (existsb is_nil (tails k ps)); reflexivity. Qed.

Definition kept (ps : list path) (kv : bytes * json) : bool := is_some (proj_entry ps kv).
Definition dropped (ps : list path) (fs : fields) : list bytes :=
  map fst (filter (fun kv => negb (kept ps kv)) fs).
Lemma proj_nil : forall j, proj [] j = None.
Proof.
  induction j as [|x|x|x|l _|fs IH] using json_ind2; try reflexivity.
  rewrite proj_obj.
  assert (E : proj_fields [] fs = []).
  { induction IH as [|[k v] r Hv _ IHr]; [reflexivity|]. cbn [proj_fields tails existsb].
    cbn [snd] in Hv. rewrite Hv. exact IHr. }
  rewrite E. reflexivity.
Qed.

Definition not_in_keys (ks : list bytes) (kv : bytes * json) : bool := negb (mem_key (fst kv) ks).

Lemma not_in_keys_cons k r fs : ~ In k (keys fs) -> filter (not_in_keys (k :: r)) fs = filter (not_in_keys r) fs.
Proof.
  intro H. apply filter_ext_in. intros [k' v] HI. unfold not_in_keys. cbn [fst mem_key].
  destruct (key_eqb_spec k k') as [->|_]; [destruct (H (in_keys _ _ _ HI))|reflexivity].
Qed.

Lemma del_keys_perm : forall ks fs, NoDup (keys fs) ->
  Permutation (del_keys ks fs) (filter (not_in_keys ks) fs).
Proof.
  induction ks as [|k r IH]; intros fs ND; cbn [del_keys].
  - rewrite filter_all by reflexivity. reflexivity.
  - (* del_key k fs has no field named k, so there k :: r filters as r does; on fs it drops the field (k, v) *)
    destruct (del_key_nodup k fs ND) as [Hk ND']. rewrite (IH _ ND'), <- (not_in_keys_cons k r) by exact Hk.
    pose proof (del_key_cases k fs) as C. destruct (field_get fs k); [|rewrite C; reflexivity].
    rewrite (filter_perm _ _ _ C). cbn [filter]. unfold not_in_keys at 2. cbn [fst mem_key].
    rewrite key_eqb_refl. reflexivity.
Qed.

Lemma mem_key_in k ks : mem_key k ks = true <-> In k ks.
Proof.
  induction ks as [|x r IH]; cbn; [split; [discriminate|tauto]|].
  rewrite orb_true_iff, key_eqb_eq, IH. tauto.
Qed.

Lemma dropped_mem ps fs k v :
  NoDup (keys fs) -> In (k, v) fs -> mem_key k (dropped ps fs) = negb (kept ps (k, v)).
Proof.
  intros ND HI. apply eq_true_iff_eq. rewrite mem_key_in. unfold dropped. rewrite in_map_iff. split.
  - intros ([k2 v2] & E & H). cbn in E. subst k2. apply filter_In in H as [H D].
    pose proof (field_get_nodup _ _ _ ND H) as G1. rewrite (field_get_nodup _ _ _ ND HI) in G1.
    injection G1 as ->. exact D.
  - intro D. exists (k, v). split; [reflexivity|]. apply filter_In. split; assumption.
Qed.

Lemma proj_obj_kept ps fs :
  proj ps (JObj fs) = if existsb (kept ps) fs then Some (JObj (proj_fields ps fs)) else None.
Proof.
  rewrite proj_obj.
  assert (E : is_nil (proj_fields ps fs) = negb (existsb (kept ps) fs)).
  { induction fs as [|[k v] r IH]; [reflexivity|]. rewrite proj_fields_cons. cbn [existsb]. unfold kept at 1.
    destruct (proj_entry ps (k, v)); [reflexivity|exact IH]. }
  destruct (proj_fields ps fs), (existsb (kept ps) fs); try discriminate E; reflexivity.
Qed.

Lemma project_obj ps fs : project ps (JObj fs) = JObj (proj_fields ps fs).
Proof. unfold project. cbn [is_obj]. rewrite proj_obj. destruct (proj_fields ps fs); reflexivity. Qed.
Lemma project_some ps j x : proj ps j = Some x -> project ps j = x.
Proof. unfold project. destruct j; try discriminate. intros ->. reflexivity. Qed.

(* What traverseFieldsTree leaves of a value, as a function: every field selected below its key is replaced
   by what the call one level down leaves of it; then, at the top ([top]) or when something is selected,
   the fields of which nothing is selected are deleted (Suicide, one after the other). *)
Fixpoint keepv (top : bool) (ps : list path) (j : json) {struct j} : json :=
  match j with
  | JObj fs =>
      let fs1 := map (fun kv : bytes * json =>
                        (fst kv, if existsb is_nil (tails (fst kv) ps) then snd kv
                                 else keepv false (tails (fst kv) ps) (snd kv))) fs in
      JObj (if top || existsb (kept ps) fs then del_keys (dropped ps fs) fs1 else fs1)
  | _ => j
  end.
Definition kentry (ps : list path) (kv : bytes * json) : bytes * json :=
  (fst kv, if existsb is_nil (tails (fst kv) ps) then snd kv else keepv false (tails (fst kv) ps) (snd kv)).
Lemma keepv_obj top ps fs : keepv top ps (JObj fs) =
  JObj (if top || existsb (kept ps) fs then del_keys (dropped ps fs) (map (kentry ps) fs) else map (kentry ps) fs).
Proof. reflexivity. Qed.

(* nothing selected below: the value comes back as it was, for the caller to delete as a whole *)
Lemma keepv_none : forall j ps, proj ps j = None -> keepv false ps j = j.
Proof.
  induction j as [|x|x|x|l _|fs IH] using json_ind2; intros ps E; try reflexivity.
  rewrite keepv_obj. rewrite proj_obj_kept in E. destruct (existsb (kept ps) fs) eqn:K; [discriminate|].
  cbn [orb]. f_equal. induction IH as [|[k v] r Hv _ IHr]; [reflexivity|].
  cbn [existsb] in K. apply orb_false_iff in K as [K1 K2]. cbn [map]. rewrite (IHr K2).
  unfold kept, proj_entry in K1. unfold kentry. cbn [fst snd] in *.
  destruct (existsb is_nil (tails k ps)); [reflexivity|]. rewrite Hv; [reflexivity|].
  destruct (proj (tails k ps) v); [discriminate|reflexivity].
Qed.

Lemma filter_kentry_proj ps D : forall fs,
  Forall (fun kv => forall qs x, proj qs (snd kv) = Some x -> jperm (keepv false qs (snd kv)) x) fs ->
  (forall k v, In (k, v) fs -> mem_key k D = negb (kept ps (k, v))) ->
  fperm (filter (not_in_keys D) (map (kentry ps) fs)) (proj_fields ps fs).
Proof.
  induction 1 as [|[k v] r Hv _ IH]; intro HD; [apply FP_nil|].
  assert (IH' := IH (fun k2 v2 H2 => HD k2 v2 (or_intror H2))).
  cbn [map filter].
  change (kentry ps (k, v)) with (k, if existsb is_nil (tails k ps) then v else keepv false (tails k ps) v).
  unfold not_in_keys at 1. cbn [fst snd] in *.
  rewrite proj_fields_cons, (HD k v (or_introl eq_refl)), negb_involutive. unfold kept, proj_entry. cbn [fst snd].
  destruct (existsb is_nil (tails k ps)); cbn [is_some]; [apply FP_cons; [apply JP_refl|exact IH']|].
  destruct (proj (tails k ps) v) eqn:P; cbn [is_some]; [apply FP_cons; [exact (Hv _ _ P)|exact IH']|exact IH'].
Qed.

(* [keepv] against the specification: what is left is the projection, up to the order Suicide leaves the keys in *)
Theorem keepv_spec : forall j ps top,
  ouniq j -> top || is_some (proj ps j) = true -> jperm (keepv top ps j) (project ps j).
Proof.
  induction j as [|x|x|x|l _|fs IH] using json_ind2; intros ps top U T; try apply JP_refl.
  apply ouniq_obj in U as [ND FU]. rewrite keepv_obj, project_obj. rewrite proj_obj_kept in T.
  replace (top || existsb (kept ps) fs) with true by (destruct (existsb (kept ps) fs); exact (eq_sym T)).
  apply JP_obj. eapply FP_trans.
  - apply Permutation_fperm, del_keys_perm. unfold keys. rewrite map_map. exact ND.
  - apply filter_kentry_proj; [|intros k v H; apply dropped_mem; assumption].
    rewrite Forall_forall in *. intros kv HI qs x P. rewrite <- (project_some _ _ _ P).
    apply (IH _ HI); [exact (FU _ HI)|rewrite P; reflexivity].
Qed.

Lemma buf_push_app (pre : bufs_t) b rest k :
  buf_push (pre ++ b :: rest) (length pre) k = Ok (pre ++ (k :: b) :: rest).
Proof. unfold buf_push. rewrite (idx_app pre). cbn [bind]. rewrite set_at_app. reflexivity. Qed.

Lemma upd_field_app_notin done k v r f :
  ~ In k (keys done) -> upd_field k f (done ++ (k, v) :: r) = done ++ (k, f v) :: r.
Proof.
  induction done as [|[k' v'] d IH]; cbn; intro H.
  - rewrite key_eqb_refl. reflexivity.
  - destruct (key_eqb_spec k' k) as [->|_]; [tauto|]. rewrite IH by tauto. reflexivity.
Qed.

Section Level.
  Variable rec : trie -> json -> bufs_t -> res (bool * json * bufs_t).
  Variable ps : list path.
  Variable pre : bufs_t.
  Variable m : nat.
  Hypothesis PF : prefix_free ps.
  (* what [trav_spec] says of the calls one level down *)
  Hypothesis Hrec : forall k v b,
    tails k ps <> [] -> existsb is_nil (tails k ps) = false -> ouniq v ->
    rec (trie_of (tails k ps)) v (pre ++ b :: repeat [] m)
    = Ok (is_some (proj (tails k ps) v), keepv false (tails k ps) v, pre ++ b :: repeat [] m).

  (* one key: it is pushed on the buffer of this depth exactly if the specification keeps nothing of
     its field *)
  Lemma kloop_step k v ks done r b pres :
    ~ In k (keys done) -> ouniq v ->
    kloop rec (trie_of ps) (length pre) (k :: ks) (done ++ (k, v) :: r) (pre ++ b :: repeat [] m) pres =
    kloop rec (trie_of ps) (length pre) ks (done ++ kentry ps (k, v) :: r)
      (pre ++ (if kept ps (k, v) then b else k :: b) :: repeat [] m) (pres || kept ps (k, v)).
  Proof.
    intros Hk Uv. unfold kentry, kept, proj_entry. cbn [kloop fst snd]. rewrite trie_of_get.
    destruct (tails k ps) as [|t0 ts0] eqn:ET; cbn [is_nil].
    - (* no configured path goes through k *)
      rewrite (keepv_none v []), proj_nil, buf_push_app, orb_false_r by apply proj_nil. reflexivity.
    - rewrite <- ET. assert (NE : tails k ps <> []) by (rewrite ET; discriminate).
      rewrite trie_of_leaf, pf_leaf by (try apply prefix_free_tails; assumption).
      destruct (existsb is_nil (tails k ps)) eqn:EN.
      + (* k is a configured leaf: kept whole *)
        rewrite orb_true_r. reflexivity.
      + rewrite field_get_app_notin, (Hrec k v b NE EN Uv) by exact Hk. cbn [bind].
        rewrite upd_field_app_notin by exact Hk.
        destruct (proj (tails k ps) v); cbn [is_some]; [rewrite orb_true_r; reflexivity|].
        rewrite buf_push_app, orb_false_r. reflexivity.
  Qed.

  Lemma kloop_spec : forall todo done b pres,
    NoDup (keys (done ++ todo)) -> Forall (fun kv => ouniq (snd kv)) todo ->
    kloop rec (trie_of ps) (length pre) (keys todo) (done ++ todo) (pre ++ b :: repeat [] m) pres
    = Ok (done ++ map (kentry ps) todo, pre ++ (rev (dropped ps todo) ++ b) :: repeat [] m,
          pres || existsb (kept ps) todo).
  Proof.
    induction todo as [|[k v] r IH]; intros done b pres ND FU.
    - cbn. rewrite orb_false_r. reflexivity.
    - apply Forall_cons_iff in FU as [Uv FU']. cbn [snd] in Uv.
      unfold keys in ND. rewrite map_app in ND. pose proof (NoDup_remove_2 _ _ _ ND) as Hk.
      rewrite in_app_iff in Hk. change (keys ((k, v) :: r)) with (k :: keys r).
      rewrite (kloop_step k v (keys r) done r b pres (fun H => Hk (or_introl H)) Uv).
      change (done ++ kentry ps (k, v) :: r) with (done ++ [kentry ps (k, v)] ++ r). rewrite app_assoc, IH.
      + unfold dropped. cbn [existsb filter map]. rewrite orb_assoc, <- app_assoc.
        destruct (kept ps (k, v)); cbn [negb map fst rev]; rewrite <- ?app_assoc; reflexivity.
      + unfold keys. rewrite <- app_assoc, map_app. exact ND.
      + exact FU'.
  Qed.

  (* what traverseFieldsTree does with an object, given what it does one level down: the left side is the
     object case of [trav], its loop and then its deletions, with [kloop] for the inner fix *)
  Lemma level_spec fs0 :
    NoDup (keys fs0) -> Forall (fun kv => ouniq (snd kv)) fs0 ->
    (r <- kloop rec (trie_of ps) (length pre) (keys fs0) fs0 (pre ++ [] :: repeat [] m) false ;;
     let '(fs, bufs1, pres) := r in
     b <- idx bufs1 (Z.of_nat (length pre)) ;;
     let fs' := if Nat.eqb (length pre) 0 || pres then del_keys (rev b) fs else fs in
     Ok (pres, JObj fs', set_at bufs1 (length pre) []))
    = Ok (is_some (proj ps (JObj fs0)), keepv (is_nil pre) ps (JObj fs0), pre ++ [] :: repeat [] m).
  Proof.
    intros ND FU. pose proof (kloop_spec fs0 [] [] false ND FU) as EL. cbn [app orb] in EL.
    rewrite EL. cbn [bind].
    rewrite (idx_app pre). cbn [bind]. rewrite set_at_app, app_nil_r, rev_involutive, keepv_obj, proj_obj_kept.
    replace (Nat.eqb (length pre) 0) with (is_nil pre) by (destruct pre; reflexivity).
    destruct (existsb (kept ps) fs0); reflexivity.
  Qed.
End Level.

Lemma tails_bound k n ps :
  Forall (fun p => (length p <= S n)%nat) ps -> Forall (fun p => (length p <= n)%nat) (tails k ps).
Proof.
  intro F. apply Forall_forall. intros t Ht. apply tails_in in Ht. rewrite Forall_forall in F.
  exact (le_S_n _ _ (F _ Ht)).
Qed.

(* some path is not empty, so the bound on the lengths is not 0 and there is a buffer for the present depth *)
Lemma depth_pos ps :
  ps <> [] -> existsb is_nil ps = false -> ~ Forall (fun p : path => (length p <= 0)%nat) ps.
Proof.
  intros NE EN B. destruct ps as [|[|k p] r]; [congruence|discriminate EN|]. apply Forall_inv in B. inversion B.
Qed.

(* the code against [keepv]: with unique keys traverseFieldsTree computes it, leaves the buffers as they were
   and reports whether anything is selected.  One number m bounds the paths, counts the buffers left and, as
   [S m], is the fuel: [keep_run] calls [trav (S md) .. (repeat [] md)], and each level uses up one of each. *)
Theorem trav_spec : forall m ps j pre,
  prefix_free ps -> ps <> [] -> existsb is_nil ps = false ->
  Forall (fun p => (length p <= m)%nat) ps -> ouniq j ->
  trav (S m) (trie_of ps) j (length pre) (pre ++ repeat [] m)
  = Ok (is_some (proj ps j), keepv (is_nil pre) ps j, pre ++ repeat [] m).
Proof.
  induction m as [|m IH]; intros ps j pre PF NE EN B U; [destruct (depth_pos ps NE EN B)|].
  (* the fuel of the calls one level down gets a name first: on [S (S m)], cbn [trav] would unfold two levels *)
  set (f := S m) at 1. cbn [trav]. rewrite trie_of_leaf, pf_leaf, EN by assumption.
  destruct j as [| | | | |fs0]; try reflexivity.
  apply ouniq_obj in U as [ND FU].
  apply level_spec; try assumption. intros k v b TN TE Uv.
  pose proof (IH (tails k ps) v (pre ++ [b]) (prefix_free_tails k ps PF) TN TE (tails_bound k m ps B) Uv) as E.
  rewrite app_length, Nat.add_1_r, <- app_assoc in E.
  replace (is_nil (pre ++ [b])) with false in E by (destruct pre; reflexivity). exact E.
Qed.

Lemma max_depth_ge : forall ps a,
  (a <= fold_left (fun m (p : path) => Nat.max m (length p)) ps a)%nat /\
  Forall (fun p : path => (length p <= fold_left (fun m (p : path) => Nat.max m (length p)) ps a)%nat) ps.
Proof.
  induction ps as [|p ps IH]; intro a; [split; [cbn; lia|constructor]|].
  cbn [fold_left]. destruct (IH (Nat.max a (length p))) as [H1 H2]. split; [lia|].
  constructor; [lia|exact H2].
Qed.

(* keep_fields.Do computes [keepv] at the top, key order included *)
Theorem keep_run_keepv : forall ps j,
  prefix_free ps -> ps <> [] -> no_empty ps -> ouniq j ->
  keep_run ps j = Ok (keepv true ps j, repeat [] (max_depth ps)).
Proof.
  intros ps j PF NE NN U. unfold keep_run. destruct j as [| | | | |fs]; try reflexivity. cbn [is_obj].
  pose proof (trav_spec (max_depth ps) ps (JObj fs) [] PF NE
                (proj1 (no_empty_existsb ps) NN) (proj2 (max_depth_ge ps 0)) U) as E.
  cbn [length app is_nil] in E. rewrite E. reflexivity.
Qed.

(* keep_fields.Do = project, up to key order; the delete buffers are empty again afterwards *)
Theorem keep_spec : forall ps j,
  prefix_free ps -> ps <> [] -> no_empty ps -> ouniq j ->
  exists j', keep_run ps j = Ok (j', repeat [] (max_depth ps)) /\ jperm j' (project ps j).
Proof.
  intros ps j PF NE NN U. exists (keepv true ps j).
  split; [apply keep_run_keepv; assumption|apply keepv_spec; [exact U|reflexivity]].
Qed.

Definition plain (sels : list bytes) : Prop := Forall (fun s => has_dotdot s = false) sels.

Lemma parse_all_eq sels :
  parse_all sels = let qs := map (split_dd [] []) sels in if existsb is_nil qs then Err 2 else Ok qs.
Proof.
  induction sels as [|s r IH]; [reflexivity|]. cbn [parse_all map existsb]. rewrite parse_selector_dd, IH. cbn [bind].
  destruct (split_dd [] [] s); [reflexivity|]. cbn [is_nil orb]. destruct (existsb is_nil _); reflexivity.
Qed.

(* ParseNestedFields on every list of selectors, ".." forms included, in closed form *)
Theorem parse_nested_eq sels :
  parse_nested sels =
  let qs := map (split_dd [] []) sels in
  if is_nil sels then Err 1 else if existsb is_nil qs then Err 2 else Ok (nest_pure [] (sort_len qs)).
Proof.
  destruct sels as [|s r]; [reflexivity|]. unfold parse_nested. rewrite parse_all_eq. cbv zeta. cbn [is_nil].
  destruct (existsb is_nil _); [reflexivity|apply nest_pure_eq].
Qed.

(* ParseNestedFields never panics and always terminates: paths, "empty fields list" or "empty path parsed" *)
Theorem parse_nested_total : forall sels,
  (exists ps, parse_nested sels = Ok ps) \/ parse_nested sels = Err 1 \/ parse_nested sels = Err 2.
Proof.
  intro sels. rewrite parse_nested_eq. cbv zeta. destruct (is_nil sels); [tauto|].
  destruct (existsb is_nil _); [tauto|]. left. eexists. reflexivity.
Qed.

Lemma parse_nested_inv sels ps :
  plain sels -> parse_nested sels = Ok ps ->
  let qs := map split_unesc sels in
  no_empty qs /\ no_empty ps /\ ps <> [] /\ prefix_free ps /\ covers qs ps /\ covers ps qs.
Proof.
  intros PL H qs. rewrite parse_nested_eq in H. cbv zeta in H.
  replace (map (split_dd [] []) sels) with qs in H
    by (symmetry; apply map_ext_in; intros s Hs; exact (split_dd_go s [] [] (proj1 (Forall_forall _ _) PL s Hs))).
  destruct sels as [|s r]; [discriminate|]. destruct (existsb is_nil qs) eqn:NE; [discriminate|].
  apply no_empty_existsb in NE. injection H as <-. destruct (nest_spec qs) as (Inc & Cov & PFR).
  repeat split; try assumption.
  - exact (incl_Forall Inc NE).
  - intro E. destruct (Cov (split_unesc s)) as (q & Hq & _); [left; reflexivity|]. rewrite E in Hq. destruct Hq.
  - apply covers_incl. exact Inc.
Qed.

Theorem remove_fields_spec : forall sels j ps,
  plain sels -> parse_nested sels = Ok ps -> ouniq j -> arr_safe ps j = true ->
  exists r, remove_fields sels j = Ok r /\ jperm r (subtract (map split_unesc sels) j).
Proof.
  intros sels j ps PL HP U S. unfold remove_fields. rewrite HP. cbn [bind].
  eexists. split; [reflexivity|].
  destruct (parse_nested_inv _ _ PL HP) as (NE & NEp & _ & _ & C1 & C2).
  destruct (spec_cover_eq j _ _ NEp NE C2 C1) as [<- _]. apply remove_spec; assumption.
Qed.

Theorem keep_fields_spec : forall sels j ps,
  plain sels -> parse_nested sels = Ok ps -> ouniq j ->
  exists r, keep_fields sels j = Ok r /\ jperm r (project (map split_unesc sels) j) /\
            keep_run ps j = Ok (r, repeat [] (max_depth ps)).
Proof.
  intros sels j ps PL HP U. unfold keep_fields, keep_do. rewrite HP. cbn [bind].
  destruct (parse_nested_inv _ _ PL HP) as (NE & NEp & NN & PFp & C1 & C2).
  destruct (keep_spec ps j PFp NN NEp U) as (r & ER & J). rewrite ER. cbn [bind fst].
  exists r. split; [reflexivity|]. split; [|reflexivity].
  destruct (spec_cover_eq j _ _ NEp NE C2 C1) as [_ EP].
  unfold project in *. rewrite <- EP. exact J.
Qed.

(* the documented normalisation: a path and one of its descendants *)
Theorem nest_drops_descendant p q : nest [p; p ++ q] = Ok [p].
Proof.
  rewrite nest_pure_eq. unfold sort_len. cbn [fold_left insert_len].
  replace (length (p ++ q) <? length p)%nat with false
    by (symmetry; apply Nat.ltb_ge; rewrite app_length; lia).
  cbn [nest_pure sel existsb app]. rewrite is_prefix_app. reflexivity.
Qed.

(* [c18_run] rejects a test case unless [ouniq_b] holds of its event *)
Lemma nodup_b_sound ks : nodup_b ks = true -> NoDup ks.
Proof.
  induction ks as [|k r IH]; cbn; intro H; [constructor|]. apply andb_true_iff in H as [H1 H2].
  constructor; [|apply IH; exact H2]. intro HI. apply mem_key_in in HI. rewrite HI in H1. discriminate.
Qed.
Theorem ouniq_b_sound : forall j, ouniq_b j = true -> ouniq j.
Proof.
  induction j as [|x|x|x|l _|fs IH] using json_ind2; intro H; try exact I.
  apply ouniq_obj. cbn [ouniq_b] in H. apply andb_true_iff in H as [H1 H2]. split.
  - apply nodup_b_sound. exact H1.
  - clear H1. induction IH as [|[k v] r Hv _ IHr]; [constructor|].
    apply andb_true_iff in H2 as [Hv' Hr]. constructor; [apply Hv; exact Hv'|apply IHr; exact Hr].
Qed.

Definition kA : bytes := [97%N].  Definition kB : bytes := [98%N].
Definition kC : bytes := [99%N].  Definition kD : bytes := [100%N].
Definition n1 : json := JNum [49%N].
Definition n2 : json := JNum [50%N].
Definition n3 : json := JNum [51%N].
Definition n4 : json := JNum [52%N].
Definition abcd : json := JObj [(kA, n1); (kB, n2); (kC, n3); (kD, n4)].
(* {"a":[1,2,3],"b":2} and the selectors a.0, a.1 *)
Definition with_array : json := JObj [(kA, JArr [n1; n2; n3]); (kB, n2)].
Definition sel_a0 : bytes := [97; 46; 48]%N.
Definition sel_a1 : bytes := [97; 46; 49]%N.

(* remove_fields ["b"] {"a":1,"b":2,"c":3,"d":4} = {"a":1,"d":4,"c":3} *)
Theorem remove_key_order_witness :
  remove_fields [kB] abcd = Ok (JObj [(kA, n1); (kD, n4); (kC, n3)]) /\
  subtract (map split_unesc [kB]) abcd = JObj [(kA, n1); (kC, n3); (kD, n4)].
Proof. split; vm_compute; reflexivity. Qed.

(* keep_fields ["a","c","d"] {"a":1,"b":2,"c":3,"d":4} = {"a":1,"d":4,"c":3} *)
Theorem keep_key_order_witness :
  keep_fields [kA; kC; kD] abcd = Ok (JObj [(kA, n1); (kD, n4); (kC, n3)]) /\
  project (map split_unesc [kA; kC; kD]) abcd = JObj [(kA, n1); (kC, n3); (kD, n4)].
Proof. split; vm_compute; reflexivity. Qed.

Theorem remove_array_index_witness :
  remove_fields [sel_a0; sel_a1] with_array = Ok (JObj [(kA, JArr [n2]); (kB, n2)]) /\
  subtract (map split_unesc [sel_a0; sel_a1]) with_array = with_array.
Proof. split; vm_compute; reflexivity. Qed.

(* "key order of survivors untouched" fails for both plugins *)
Theorem remove_key_order_refuted :
  exists sels j r, plain sels /\ ouniq j /\
    (exists ps, parse_nested sels = Ok ps /\ arr_safe ps j = true) /\
    remove_fields sels j = Ok r /\ r <> subtract (map split_unesc sels) j.
Proof.
  exists [kB], abcd, (JObj [(kA, n1); (kD, n4); (kC, n3)]).
  destruct remove_key_order_witness as [W1 W2]. split; [|split; [|split; [|split]]].
  - repeat constructor.
  - apply ouniq_b_sound. reflexivity.
  - exists [[kB]]. split; reflexivity.
  - exact W1.
  - rewrite W2. intro E. discriminate E.
Qed.

Theorem keep_key_order_refuted :
  exists sels j r, plain sels /\ ouniq j /\
    keep_fields sels j = Ok r /\ r <> project (map split_unesc sels) j.
Proof.
  exists [kA; kC; kD], abcd, (JObj [(kA, n1); (kD, n4); (kC, n3)]).
  destruct keep_key_order_witness as [W1 W2]. split; [|split; [|split]].
  - repeat constructor.
  - apply ouniq_b_sound. reflexivity.
  - exact W1.
  - rewrite W2. intro E. discriminate E.
Qed.

(* "paths that cross a non-object are ignored" fails for remove_fields: Dig indexes arrays *)
Theorem remove_array_index_refuted :
  exists sels j r, plain sels /\ ouniq j /\
    remove_fields sels j = Ok r /\ ~ jperm r (subtract (map split_unesc sels) j).
Proof.
  exists [sel_a0; sel_a1], with_array, (JObj [(kA, JArr [n2]); (kB, n2)]).
  destruct remove_array_index_witness as [W1 W2]. split; [|split; [|split]].
  - repeat constructor.
  - apply ouniq_b_sound. reflexivity.
  - exact W1.
  - rewrite W2. intro J. apply jperm_b_complete in J.
    + vm_compute in J. discriminate J.
    + apply ouniq_b_sound. reflexivity.
    + apply ouniq_b_sound. reflexivity.
Qed.
