(* Proofs for C18 (Model/Fields.v): the test [jperm_b] decides equality up to key order; remove_fields.Do
   against [subtract]; ParseFieldSelector against [split_dd] on every selector, which is [split_unesc] on those
   without ".."; what ParseNestedFields leaves; [subtract] and [proj] see a list of paths only through the paths it selects ([sel]),
   so lists that cover each other select the same parts. *)
From Verif Require Import Base.Sx Base.GoSem Base.Json Model.Fields Proofs.GoSemFacts Proofs.ListFacts
  Proofs.JsonFacts.
From Coq Require Import Lia ZifyBool Permutation Sorted.

Lemma forallb_Forall {A} (f : A -> bool) l : forallb f l = true <-> Forall (fun x => f x = true) l.
Proof. rewrite forallb_forall, Forall_forall. reflexivity. Qed.

Definition keys (fs : fields) : list bytes := map fst fs.
Lemma in_keys k v fs : In (k, v) fs -> In k (keys fs).
Proof. apply (in_map fst). Qed.

(* The loops over the fields of an object inside [subtract], [proj] and [jperm_b], under names.  Each is
   the anonymous fix it names, word for word, so the [_obj] equations hold by computation. *)
Definition sub_fields (ps : list path) : fields -> fields :=
  fix go fs :=
    match fs with
    | [] => []
    | (k, v) :: r =>
        if existsb is_nil (tails k ps) then go r
        else (k, subtract (tails k ps) v) :: go r
    end.
Lemma subtract_obj ps fs : subtract ps (JObj fs) = JObj (sub_fields ps fs).
Proof. reflexivity. Qed.

Definition proj_fields (ps : list path) : fields -> fields :=
  fix go fs :=
    match fs with
    | [] => []
    | (k, v) :: r =>
        if existsb is_nil (tails k ps) then (k, v) :: go r
        else match proj (tails k ps) v with
             | Some v' => (k, v') :: go r
             | None => go r
             end
    end.
Lemma proj_obj ps fs :
  proj ps (JObj fs) = match proj_fields ps fs with [] => None | kept => Some (JObj kept) end.
Proof. reflexivity. Qed.

Definition perm_go : fields -> fields -> bool :=
  fix go fs gs :=
    match fs with
    | [] => is_nil gs
    | (k, v) :: r =>
        match take_field k gs with
        | Some (v', gs') => jperm_b v v' && go r gs'
        | None => false
        end
    end.
Lemma jperm_b_obj fs gs : jperm_b (JObj fs) (JObj gs) = perm_go fs gs.
Proof. reflexivity. Qed.

Lemma ouniq_obj fs :
  ouniq (JObj fs) <-> NoDup (keys fs) /\ Forall (fun kv => ouniq (snd kv)) fs.
Proof.
  cbn [ouniq]. apply and_iff_compat_l. induction fs as [|[k v] r IH]; [split; constructor|].
  rewrite Forall_cons_iff, <- IH. reflexivity.
Qed.

Lemma arr_safe_obj ps fs :
  arr_safe ps (JObj fs) = forallb (fun kv => arr_safe (tails (fst kv) ps) (snd kv)) fs.
Proof.
  cbn [arr_safe]. induction fs as [|[k v] r IH]; [reflexivity|].
  cbn [forallb fst snd]. rewrite <- IH. reflexivity.
Qed.

Lemma tails_same k p ps : tails k ((k :: p) :: ps) = p :: tails k ps.
Proof. cbn [tails]. rewrite key_eqb_refl. reflexivity. Qed.

Lemma fperm_refl fs : fperm fs fs.
Proof. induction fs as [|[k v] r IH]; constructor; [apply JP_refl|exact IH]. Qed.

Lemma jperm_trans a b c : jperm a b -> jperm b c -> jperm a c.
Proof.
  intros H1 H2. inversion H1; subst; [exact H2|].
  inversion H2; subst; [exact H1|].
  apply JP_obj. eapply FP_trans; eassumption.
Qed.

Lemma Permutation_fperm fs gs : Permutation fs gs -> fperm fs gs.
Proof.
  induction 1 as [|[k v] l l' _ IH|x y l|l l' l'' _ IH1 _ IH2].
  - apply FP_nil.
  - apply FP_cons; [apply JP_refl|exact IH].
  - apply FP_swap.
  - eapply FP_trans; eassumption.
Qed.

Lemma fperm_keys fs gs : fperm fs gs -> Permutation (keys fs) (keys gs).
Proof.
  induction 1 as [| |a b fs|fs gs hs _ IH1 _ IH2]; cbn.
  - constructor.
  - apply perm_skip. assumption.
  - apply perm_swap.
  - eapply Permutation_trans; eassumption.
Qed.

Lemma fperm_in fs gs : fperm fs gs ->
  forall k v, In (k, v) fs -> exists v', In (k, v') gs /\ jperm v v'.
Proof.
  induction 1 as [|k0 v0 v0' fs gs Hv _ IH|a b fs|fs gs hs _ IH1 _ IH2]; intros k v HI.
  - destruct HI.
  - destruct HI as [[= -> ->]|HI].
    + exists v0'. split; [left; reflexivity|exact Hv].
    + destruct (IH _ _ HI) as (v' & HI' & J). exists v'. split; [right; exact HI'|exact J].
  - exists v. split; [|apply JP_refl]. cbn in *. tauto.
  - destruct (IH1 _ _ HI) as (v1 & H1 & J1). destruct (IH2 _ _ H1) as (v2 & H2 & J2).
    exists v2. split; [exact H2|eapply jperm_trans; eassumption].
Qed.

Lemma take_field_perm k gs v' gs' :
  take_field k gs = Some (v', gs') -> Permutation gs ((k, v') :: gs').
Proof.
  revert v' gs'. induction gs as [|[k' v] r IH]; cbn; intros v' gs' H; [discriminate|].
  destruct (key_eqb_spec k' k) as [->|_].
  - injection H as <- <-. apply Permutation_refl.
  - destruct (take_field k r) as [[v2 r2]|]; [|discriminate]. injection H as <- <-.
    eapply Permutation_trans; [apply perm_skip; apply IH; reflexivity|apply perm_swap].
Qed.

Theorem jperm_b_sound : forall a b, jperm_b a b = true -> jperm a b.
Proof.
  induction a as [|x|x|x|l _|fs IH] using json_ind2; intros y H;
    try (apply json_eqb_eq in H; subst; apply JP_refl).
  destruct y; try discriminate. rewrite jperm_b_obj in H. apply JP_obj.
  revert fs0 H. induction IH as [|[k v] r Hv _ IHr]; intros gs H.
  - destruct gs; [apply FP_nil|discriminate].
  - cbn [perm_go] in H. destruct (take_field k gs) as [[v' gs']|] eqn:T; [|discriminate].
    apply andb_true_iff in H as [H1 H2].
    eapply FP_trans; [apply FP_cons; [apply Hv; exact H1|apply IHr; exact H2]|].
    apply Permutation_fperm. apply Permutation_sym. apply take_field_perm. exact T.
Qed.

Lemma jperm_b_refl : forall a, jperm_b a a = true.
Proof.
  induction a as [|x|x|x|l _|fs IH] using json_ind2; try apply json_eqb_refl.
  rewrite jperm_b_obj. induction IH as [|[k v] r Hv _ IHr]; [reflexivity|].
  cbn [perm_go take_field]. cbn [snd] in Hv. rewrite key_eqb_refl, Hv, IHr. reflexivity.
Qed.

Lemma take_field_in k v gs :
  NoDup (keys gs) -> In (k, v) gs -> exists gs', take_field k gs = Some (v, gs').
Proof.
  induction gs as [|[k' v'] r IH]; cbn; intros ND HI; [contradiction|].
  apply NoDup_cons_iff in ND as [Hn ND']. destruct (key_eqb_spec k' k) as [->|Hne].
  - destruct HI as [[= ->]|HI]; [eexists; reflexivity|]. destruct (Hn (in_keys _ _ _ HI)).
  - destruct HI as [[= E _]|HI]; [contradiction|].
    destruct (IH ND' HI) as (gs' & ->). eexists; reflexivity.
Qed.

Lemma perm_go_complete : forall fs gs,
  NoDup (keys fs) -> Permutation (keys fs) (keys gs) ->
  (forall k v, In (k, v) fs -> exists v', In (k, v') gs /\ jperm_b v v' = true) ->
  perm_go fs gs = true.
Proof.
  induction fs as [|[k v] r IH]; intros gs ND P H.
  - apply Permutation_nil in P. destruct gs; [reflexivity|discriminate].
  - destruct (H k v (or_introl eq_refl)) as (v' & HI & J).
    destruct (take_field_in _ _ _ (Permutation_NoDup P ND) HI) as (gs' & T).
    cbn [perm_go]. rewrite T, J. cbn [andb]. apply take_field_perm in T.
    apply NoDup_cons_iff in ND as [Hn NDr]. apply IH; [exact NDr| |].
    + apply (Permutation_cons_inv (a := k)). exact (Permutation_trans P (Permutation_map fst T)).
    + intros k2 v2 H2. destruct (H k2 v2 (or_intror H2)) as (v2' & HI2 & J2).
      exists v2'. split; [|exact J2].
      apply (Permutation_in _ T) in HI2 as [[= -> _]|HI2]; [|exact HI2].
      destruct (Hn (in_keys _ _ _ H2)).
Qed.

(* Unique keys are needed: of two fields with the same key [take_field] finds the first, which need not
   be the partner. *)
Theorem jperm_b_complete : forall a b, jperm a b -> ouniq a -> ouniq b -> jperm_b a b = true.
Proof.
  induction a as [|x|x|x|l _|fs IH] using json_ind2; intros y H Ua Ub;
    try (inversion H; subst; apply jperm_b_refl).
  inversion H as [|? gs FP]; subst; [apply jperm_b_refl|].
  rewrite jperm_b_obj. apply ouniq_obj in Ua as [NDa Fa]. apply ouniq_obj in Ub as [_ Fb].
  rewrite Forall_forall in IH, Fa, Fb.
  apply perm_go_complete; [exact NDa|apply fperm_keys; exact FP|].
  intros k v HI. destruct (fperm_in _ _ FP _ _ HI) as (v' & HI' & J).
  exists v'. split; [exact HI'|]. apply (IH _ HI); [exact J|apply (Fa _ HI)|apply (Fb _ HI')].
Qed.

(* Go removes the first field named k by moving the last field into its place, so the rest is fs without
   that field only up to order. *)
Lemma del_key_cases k fs :
  match field_get fs k with
  | Some v => Permutation fs ((k, v) :: del_key k fs)
  | None => del_key k fs = fs
  end.
Proof.
  unfold del_key. destruct (field_index fs k 0) as [i|] eqn:E.
  - destruct (field_index_nth k fs i E) as (v & Hn & ->). apply swap_remove_perm, Hn.
  - apply field_index_none in E. rewrite E. reflexivity.
Qed.

Lemma del_key_Forall (P : bytes * json -> Prop) k fs : Forall P fs -> Forall P (del_key k fs).
Proof.
  intro F. pose proof (del_key_cases k fs) as C. destruct (field_get fs k); [|rewrite C; exact F].
  exact (Forall_inv_tail (Permutation_Forall C F)).
Qed.
Lemma del_key_nodup k fs : NoDup (keys fs) -> ~ In k (keys (del_key k fs)) /\ NoDup (keys (del_key k fs)).
Proof.
  intro ND. pose proof (del_key_cases k fs) as C. destruct (field_get fs k) eqn:G.
  - apply NoDup_cons_iff, (Permutation_NoDup (Permutation_map fst C) ND).
  - rewrite C. split; [apply field_get_none, G|exact ND].
Qed.

Lemma tails_app k ps qs : tails k (ps ++ qs) = tails k ps ++ tails k qs.
Proof.
  induction ps as [|[|k' t] r IH]; cbn; [reflexivity|exact IH|].
  destruct (key_eqb k' k); cbn; rewrite IH; reflexivity.
Qed.

Lemma subtract_nil : forall j, subtract [] j = j.
Proof.
  induction j as [|x|x|x|l _|fs IH] using json_ind2; try reflexivity.
  rewrite subtract_obj. f_equal. induction IH as [|[k v] r Hv _ IHr]; [reflexivity|].
  cbn [sub_fields tails existsb]. cbn [snd] in Hv. rewrite Hv, IHr. reflexivity.
Qed.
Lemma subtract_nil_path : forall j ps, subtract ([] :: ps) j = subtract ps j.
Proof. destruct j; reflexivity. Qed.

Lemma sub_fields_perm ps fs gs :
  Permutation fs gs -> Permutation (sub_fields ps fs) (sub_fields ps gs).
Proof.
  induction 1 as [|[k v] l l' _ IH|[k1 v1] [k2 v2] l|l l' l'' _ IH1 _ IH2].
  - apply Permutation_refl.
  - cbn [sub_fields]. destruct (existsb is_nil (tails k ps)); [exact IH|apply perm_skip; exact IH].
  - cbn [sub_fields]. destruct (existsb is_nil (tails k1 ps)), (existsb is_nil (tails k2 ps));
      try apply Permutation_refl. apply perm_swap.
  - eapply Permutation_trans; eassumption.
Qed.

Lemma sub_fields_other_key k rest ps fs :
  ~ In k (keys fs) -> sub_fields ((k :: rest) :: ps) fs = sub_fields ps fs.
Proof.
  induction fs as [|[k' v] r IH]; cbn [keys map fst In]; intro H; [reflexivity|].
  cbn [sub_fields tails]. destruct (key_eqb_spec k k') as [->|_]; [tauto|].
  rewrite IH by tauto. reflexivity.
Qed.

Lemma sub_fields_upd k k2 rest ps f fs :
  NoDup (keys fs) ->
  (forall v, In (k, v) fs -> jperm (subtract (tails k ps) (f v)) (subtract ((k2 :: rest) :: tails k ps) v)) ->
  fperm (sub_fields ps (upd_field k f fs)) (sub_fields ((k :: k2 :: rest) :: ps) fs).
Proof.
  intros ND Hf. induction fs as [|[k' v] r IH]; [apply FP_nil|].
  apply NoDup_cons_iff in ND as [Hn ND']. cbn [upd_field]. destruct (key_eqb_spec k' k) as [->|Hne].
  - cbn [sub_fields]. rewrite tails_same, sub_fields_other_key by exact Hn. cbn [existsb is_nil orb].
    destruct (existsb is_nil (tails k ps)); [apply fperm_refl|].
    apply FP_cons; [|apply fperm_refl]. apply Hf. left. reflexivity.
  - assert (IH' := IH ND' (fun v HI => Hf v (or_intror HI))).
    cbn [sub_fields tails]. rewrite (key_eqb_sym k k'). destruct (key_eqb_spec k' k) as [E|_]; [contradiction|].
    destruct (existsb is_nil (tails k' ps)); [exact IH'|apply FP_cons; [apply JP_refl|exact IH']].
Qed.

Lemma keys_upd_field k f fs : keys (upd_field k f fs) = keys fs.
Proof.
  induction fs as [|[k' v] r IH]; [reflexivity|]. cbn [upd_field].
  destruct (key_eqb k' k); cbn; [reflexivity|]. unfold keys in IH. rewrite IH. reflexivity.
Qed.

Lemma upd_field_Forall (Q : bytes * json -> Prop) k f fs :
  (forall kv, In kv fs -> Q kv) -> (forall v, In (k, v) fs -> Q (k, f v)) -> Forall Q (upd_field k f fs).
Proof.
  induction fs as [|[k' v] r IH]; intros HQ Hk; [constructor|]. cbn [upd_field].
  destruct (key_eqb_spec k' k) as [->|_]; constructor.
  - apply Hk. left. reflexivity.
  - apply Forall_forall. intros x Hx. apply HQ. right. exact Hx.
  - apply HQ. left. reflexivity.
  - apply IH; intros; [apply HQ|apply Hk]; right; assumption.
Qed.

Lemma arr_safe_app : forall j ps qs, arr_safe (ps ++ qs) j = arr_safe ps j && arr_safe qs j.
Proof.
  induction j as [|x|x|x|l _|fs IH] using json_ind2; intros ps qs; try reflexivity.
  - cbn [arr_safe]. rewrite existsb_app, negb_orb. reflexivity.
  - rewrite !arr_safe_obj. induction IH as [|[k v] r Hv _ IHr]; [reflexivity|].
    cbn [forallb fst snd]. cbn [snd] in Hv. rewrite tails_app, Hv, IHr.
    destruct (arr_safe (tails k ps) v), (arr_safe (tails k qs) v); cbn [andb];
      rewrite ?andb_false_r; reflexivity.
Qed.
Lemma arr_safe_cons p ps j : arr_safe (p :: ps) j = arr_safe [p] j && arr_safe ps j.
Proof. apply (arr_safe_app j [p] ps). Qed.

Lemma arr_safe_field ps fs k v : arr_safe ps (JObj fs) = true -> In (k, v) fs -> arr_safe (tails k ps) v = true.
Proof. rewrite arr_safe_obj, forallb_forall. intros H HI. exact (H _ HI). Qed.

Lemma remove1_obj_last k fs : remove1 [k] (JObj fs) = JObj (del_key k fs).
Proof. cbn [remove1]. unfold del_key. destruct (field_index fs k 0); reflexivity. Qed.
Lemma remove1_obj_deep k k2 rest fs :
  remove1 (k :: k2 :: rest) (JObj fs) = JObj (upd_field k (remove1 (k2 :: rest)) fs).
Proof. reflexivity. Qed.

(* a segment that is not a valid index of the array stops Dig *)
Lemma remove1_arr k rest l : arr_safe [k :: rest] (JArr l) = true -> remove1 (k :: rest) (JArr l) = JArr l.
Proof. cbn [arr_safe existsb remove1]. destruct (arr_index k (length l)); [discriminate|reflexivity]. Qed.

(* Dig(p...).Suicide() on a value that p does not index an array of: keys stay unique, no other path comes to index
   an array, and deleting ps afterwards is deleting p :: ps, up to key order *)
Lemma remove1_post : forall p j,
  ouniq j -> arr_safe [p] j = true ->
  ouniq (remove1 p j) /\
  (forall qs, arr_safe qs j = true -> arr_safe qs (remove1 p j) = true) /\
  forall ps, jperm (subtract ps (remove1 p j)) (subtract (p :: ps) j).
Proof.
  induction p as [|k rest IH]; intros j U S.
  - split; [exact U|split; [intros qs Q; exact Q|]]. intro ps. rewrite subtract_nil_path. apply JP_refl.
  - destruct j as [|x|x|x|l|fs]; try rewrite (remove1_arr _ _ _ S).
    (* a scalar and, by [remove1_arr], an array are left as they are *)
    1-5: split; [exact U|split; [intros qs Q; exact Q|intro; apply JP_refl]].
    apply ouniq_obj in U as [ND FU]. rewrite Forall_forall in FU. destruct rest as [|k2 rest].
    + rewrite remove1_obj_last. split; [|split].
      * apply ouniq_obj. split; [apply del_key_nodup|apply del_key_Forall, Forall_forall]; assumption.
      * intros qs Q. rewrite arr_safe_obj, forallb_Forall in *. apply del_key_Forall. exact Q.
      * intro ps. rewrite !subtract_obj. apply JP_obj, Permutation_fperm.
        (* [k] :: ps deletes every field named k, and del_key has left none *)
        rewrite <- (sub_fields_other_key k [] ps (del_key k fs)) by (apply del_key_nodup, ND).
        pose proof (del_key_cases k fs) as C. destruct (field_get fs k); [|rewrite C; reflexivity].
        rewrite (sub_fields_perm _ _ _ C). cbn [sub_fields]. rewrite tails_same. reflexivity.
    + (* the induction hypothesis at the values under k *)
      assert (IH' : forall v, In (k, v) fs -> _) by
        (intros v HI; apply (IH v (FU _ HI)); apply (arr_safe_field _ _ _ _ S) in HI; rewrite tails_same in HI;
         exact HI).
      rewrite remove1_obj_deep. split; [|split].
      * apply ouniq_obj. rewrite keys_upd_field. split; [exact ND|].
        apply upd_field_Forall; [exact FU|]. intros v HI. apply (IH' v HI).
      * intros qs Q. rewrite arr_safe_obj. apply forallb_Forall, upd_field_Forall.
        -- intros [k' v] HI. exact (arr_safe_field _ _ _ _ Q HI).
        -- intros v HI. apply (IH' v HI). exact (arr_safe_field _ _ _ _ Q HI).
      * intro ps. rewrite !subtract_obj. apply JP_obj, sub_fields_upd; [exact ND|].
        intros v HI. apply (IH' v HI).
Qed.

Lemma remove_fold_spec : forall ps j,
  ouniq j -> arr_safe ps j = true ->
  jperm (fold_left (fun j p => remove1 p j) ps j) (subtract ps j).
Proof.
  induction ps as [|p ps IH]; intros j U S.
  - cbn [fold_left]. rewrite subtract_nil. apply JP_refl.
  - cbn [fold_left]. rewrite arr_safe_cons in S. apply andb_true_iff in S as [S1 S].
    destruct (remove1_post p j U S1) as (U' & S' & J).
    eapply jperm_trans; [apply IH; [exact U'|exact (S' _ S)]|apply J].
Qed.

Theorem remove_spec : forall ps j,
  ouniq j -> arr_safe ps j = true -> jperm (remove_do ps j) (subtract ps j).
Proof.
  intros ps j U S. unfold remove_do. destruct (is_obj j) eqn:O.
  - apply remove_fold_spec; assumption.
  - destruct j; try apply JP_refl. discriminate.
Qed.

(* What ParseFieldSelector returns for every selector: [split_go] with its segment in two parts (both reversed),
   [c] the bytes since the last dot of any kind and [t] what escaped dots committed before.  The parts matter at
   "..": `tail = selector[:pos+1]` (cfg/config.go:548) overwrites the committed tail, so the segment goes on from
   [c] and one dot, and what [t] held is lost ("a\.b..c" gives the one segment "b.c"). *)
Fixpoint split_dd (t c : bytes) (s : bytes) {struct s} : list bytes :=
  match s with
  | [] => split_go (c ++ t) []
  | x :: r =>
      if N.eqb x DOT then
        match r with
        | d :: r' => if N.eqb d DOT then split_dd (DOT :: c) [] r' else rev (c ++ t) :: split_dd [] [] r
        | [] => rev (c ++ t) :: split_dd [] [] r
        end
      else if N.eqb x BSL then
        match r with
        | d :: r' => if N.eqb d DOT then split_dd (DOT :: c ++ t) [] r' else split_dd t (BSL :: c) r
        | [] => [rev (BSL :: c ++ t)]
        end
      else split_dd t (x :: c) r
  end.

(* a run of bytes without a dot only grows the segment, unless it ends in the backslash of an escaped dot *)
Lemma split_dd_run t pre : forall c rest,
  ~ In DOT pre -> (last pre DOT = BSL -> hd BSL rest <> DOT) ->
  split_dd t c (pre ++ rest) = split_dd t (rev pre ++ c) rest.
Proof.
  induction pre as [|x p IH]; intros c rest Hn HL; [reflexivity|].
  cbn [app rev]. rewrite <- app_assoc, <- IH.
  - cbn [split_dd app]. destruct (N.eqb_spec x DOT) as [->|_]; [destruct Hn; left; reflexivity|].
    destruct (N.eqb_spec x BSL) as [->|_]; [|reflexivity].
    destruct p as [|d p']; cbn [app]; [destruct rest as [|d r']; [reflexivity|]|];
      (destruct (N.eqb_spec d DOT) as [->|_]; [exfalso|reflexivity]).
    + apply HL; reflexivity.
    + apply Hn. right. left. reflexivity.
  - intro HI. apply Hn. right. exact HI.
  - destruct p; [discriminate|exact HL].
Qed.

(* without the ".." form the two parts are never separated *)
Lemma split_dd_go : forall s t c, has_dotdot s = false -> split_dd t c s = split_go (c ++ t) s.
Proof.
  induction s as [|x r IH IH'] using list_ind_tl; intros t c H; [reflexivity|].
  cbn [split_dd split_go has_dotdot] in *. destruct (N.eqb x DOT).
  - destruct r as [|d r']; [reflexivity|]. destruct (N.eqb d DOT); [discriminate H|].
    rewrite (IH [] [] H). reflexivity.
  - destruct (N.eqb x BSL); [|exact (IH t (x :: c) H)].
    destruct r as [|d r']; [reflexivity|]. destruct (N.eqb d DOT); [|exact (IH t (BSL :: c) H)].
    exact (IH' (DOT :: c ++ t) [] H).
Qed.

(* only the empty selector, with nothing pending, gives no segment at all *)
Lemma split_dd_nil : forall s t c, split_dd t c s = [] -> s = [] /\ c ++ t = [].
Proof.
  induction s as [|x r IH IH'] using list_ind_tl; intros t c H.
  - split; [reflexivity|]. cbn [split_dd] in H. destruct (c ++ t); [reflexivity|discriminate H].
  - exfalso. cbn [split_dd] in H. destruct (N.eqb x DOT).
    + destruct r as [|d r']; [discriminate H|]. destruct (N.eqb d DOT); [|discriminate H].
      destruct (IH' _ _ H) as [_ E]. discriminate E.
    + destruct (N.eqb x BSL); [|destruct (IH _ _ H) as [_ E]; discriminate E].
      destruct r as [|d r']; [discriminate H|].
      destruct (N.eqb d DOT); [destruct (IH' _ _ H) as [_ E]|destruct (IH _ _ H) as [_ E]]; discriminate E.
Qed.

Lemma last_bsl (pre : bytes) : last pre DOT = BSL -> exists p, pre = p ++ [BSL] /\ removelast pre = p.
Proof.
  intro E. exists (removelast pre). split; [|reflexivity].
  rewrite <- E. apply app_removelast_last. intros ->. discriminate E.
Qed.

(* [tail] is the segment read so far as ParseFieldSelector holds it; the specification keeps it reversed *)
Lemma split_go_end cur : split_go cur [] = if len cur =? 0 then [] else [rev cur].
Proof. destruct cur; reflexivity. Qed.
Lemma split_dd_nodot tail s :
  ~ In DOT s -> split_dd (rev tail) [] s = if len s + len tail =? 0 then [] else [tail ++ s].
Proof.
  intro H. assert (R := split_dd_run (rev tail) s [] [] H ltac:(discriminate)).
  rewrite app_nil_r in R. rewrite R. cbn [split_dd]. rewrite app_nil_r, split_go_end, <- rev_app_distr, rev_involutive.
  rewrite len_rev, len_app, Z.add_comm. reflexivity.
Qed.
Lemma split_dd_dot tail pre post : ~ In DOT pre ->
  split_dd (rev tail) [] (pre ++ DOT :: post) =
  if N.eqb (last pre DOT) BSL then split_dd (rev (tail ++ removelast pre ++ [DOT])) [] post
  else if N.eqb (hd BSL post) DOT then split_dd (rev (pre ++ [DOT])) [] (tl post)
  else (tail ++ pre) :: split_dd [] [] post.
Proof.
  intro Hn. destruct (N.eqb_spec (last pre DOT) BSL) as [E|Hne].
  - destruct (last_bsl _ E) as (p & -> & ->). rewrite <- app_assoc, split_dd_run, !rev_app_distr, app_nil_r.
    + reflexivity.
    + intro HI. apply Hn, in_or_app. left. exact HI.
    + discriminate.
  - rewrite split_dd_run by (exact Hn || contradiction).
    cbn [split_dd]. rewrite N.eqb_refl, !rev_app_distr, !rev_involutive, !app_nil_r.
    destruct post as [|d post']; [reflexivity|]. cbn [hd tl]. destruct (N.eqb d DOT); reflexivity.
Qed.

(* slices and elements of a list given as a concatenation, at a position given as an expression *)
Lemma idx_at {A} (l a : list A) x b i : l = a ++ x :: b -> i = len a -> idx l i = Ok x.
Proof. intros -> ->. apply idx_app. Qed.
Lemma slice_to_at {A} (l a b : list A) i : l = a ++ b -> i = len a -> slice_to l i = Ok a.
Proof. intros -> ->. apply slice_to_app. Qed.
Lemma slice_from_at {A} (l a b : list A) i : l = a ++ b -> i = len a -> slice_from l i = Ok b.
Proof. intros -> ->. apply slice_from_app. Qed.
(* their side conditions: reassociation, or arithmetic on lengths *)
Ltac at_solve :=
  first [ solve [repeat rewrite <- app_assoc; reflexivity]
        | solve [repeat rewrite len_app; repeat rewrite len_cons; unfold len; cbn [length]; lia] ].

(* the two look-around tests of ParseFieldSelector at the first dot: a backslash before it, a dot after it *)
Lemma esc_test (pre : bytes) (x : byte) (post : bytes) :
  (if 0 <? len pre then c <- idx (pre ++ x :: post) (len pre - 1) ;; Ok (N.eqb c BSL) else Ok false)
  = Ok (N.eqb (last pre DOT) BSL).
Proof.
  destruct pre as [|b p _] using rev_ind; [reflexivity|].
  rewrite last_last, (idx_at _ p b (x :: post)) by at_solve. pose proof (len_nonneg p).
  replace (0 <? len (p ++ [b])) with true by at_solve. reflexivity.
Qed.
Lemma dotdot_test (pre : bytes) (x : byte) (post : bytes) :
  (if len pre + 1 <? len (pre ++ x :: post) then c <- idx (pre ++ x :: post) (len pre + 1) ;; Ok (N.eqb c DOT)
   else Ok false)
  = Ok (N.eqb (hd BSL post) DOT).
Proof.
  rewrite len_app, len_cons. destruct post as [|d post'].
  - replace (len pre + 1 <? len pre + (len [] + 1)) with false by at_solve. reflexivity.
  - rewrite (idx_at _ (pre ++ [x]) d post') by at_solve. pose proof (len_nonneg post').
    replace (len pre + 1 <? len pre + (len (d :: post') + 1)) with true by at_solve. reflexivity.
Qed.

Lemma psel_nodot f racc tail sel : ~ In DOT sel ->
  psel_loop (S f) racc tail sel = Ok (rev racc ++ (if len sel + len tail =? 0 then [] else [tail ++ sel])).
Proof. intro H. cbn [psel_loop]. rewrite (index_byte_none _ _ H), rev_append_rev. reflexivity. Qed.

Lemma psel_dot f racc tail pre post : ~ In DOT pre ->
  psel_loop (S f) racc tail (pre ++ DOT :: post) =
  if N.eqb (last pre DOT) BSL then psel_loop f racc (tail ++ removelast pre ++ [DOT]) post
  else if N.eqb (hd BSL post) DOT then psel_loop f racc (pre ++ [DOT]) (tl post)
  else psel_loop f ((tail ++ pre) :: racc) [] post.
Proof.
  intro Hn. cbn [psel_loop]. rewrite (index_byte_app_notin pre DOT post) by (apply index_byte_none; exact Hn).
  pose proof (len_nonneg pre). replace (len pre =? -1) with false by lia.
  rewrite esc_test, dotdot_test. cbn [bind].
  destruct (N.eqb_spec (last pre DOT) BSL) as [E|_].
  - destruct (last_bsl _ E) as (p & -> & ->).
    rewrite (slice_to_at _ p (BSL :: DOT :: post)), slice_from_app_cons by at_solve. reflexivity.
  - destruct post as [|d post']; cbn [hd tl]; [|destruct (N.eqb d DOT)].
    + rewrite slice_to_app, slice_from_app_cons. reflexivity.
    + rewrite (slice_to_at _ (pre ++ [DOT]) (d :: post')), (slice_from_at _ (pre ++ [DOT; d]) post') by at_solve.
      reflexivity.
    + rewrite slice_to_app, slice_from_app_cons. reflexivity.
Qed.

(* ParseFieldSelector, whatever the selector: it never panics, returns [split_dd], and needs no more rounds than
   the selector has bytes (every round consumes one) *)
Lemma psel_dd : forall fuel racc tail sel,
  match psel_loop fuel racc tail sel with
  | Ok r => r = rev racc ++ split_dd (rev tail) [] sel
  | _ => (fuel <= length sel)%nat
  end.
Proof.
  induction fuel as [|f IH]; intros racc tail sel; [apply Nat.le_0_l|].
  destruct (index_byte_spec sel DOT) as [[_ Hn]|(pre & post & -> & Hn & _)].
  - rewrite psel_nodot, split_dd_nodot by exact Hn. reflexivity.
  - rewrite psel_dot, split_dd_dot, app_length by exact Hn. cbn [length].
    destruct (N.eqb (last pre DOT) BSL); [|destruct (N.eqb (hd BSL post) DOT)].
    + specialize (IH racc (tail ++ removelast pre ++ [DOT]) post). destruct (psel_loop f _ _ post); [exact IH|lia..].
    + specialize (IH racc (pre ++ [DOT]) (tl post)).
      destruct (psel_loop f _ _ (tl post)); [exact IH|destruct post; cbn [tl length] in *; lia..].
    + specialize (IH ((tail ++ pre) :: racc) [] post). cbn [rev] in IH. rewrite <- app_assoc in IH.
      destruct (psel_loop f _ _ post); [exact IH|lia..].
Qed.
Theorem parse_selector_dd s : parse_selector s = Ok (split_dd [] [] s).
Proof.
  unfold parse_selector. pose proof (psel_dd (S (length s)) [] [] s) as D.
  destruct (psel_loop _ [] [] s); [rewrite D; reflexivity|lia..].
Qed.
Theorem parse_selector_total s : exists p, parse_selector s = Ok p.
Proof. eexists. apply parse_selector_dd. Qed.

Theorem selector_split s : has_dotdot s = false -> parse_selector s = Ok (split_unesc s).
Proof. intro H. rewrite parse_selector_dd. exact (f_equal Ok (split_dd_go s [] [] H)). Qed.

Lemma is_prefix_app p q : is_prefix p (p ++ q) = true.
Proof. induction p as [|x p IH]; [reflexivity|]. cbn. rewrite key_eqb_refl. exact IH. Qed.
Lemma is_prefix_refl p : is_prefix p p = true.
Proof. rewrite <- (app_nil_r p) at 2. apply is_prefix_app. Qed.
Lemma is_prefix_trans a : forall b c, is_prefix a b = true -> is_prefix b c = true -> is_prefix a c = true.
Proof.
  induction a as [|x a IH]; intros [|y b] [|z c]; cbn; try discriminate; try reflexivity.
  intros H1 H2. apply andb_true_iff in H1 as [E1 H1]. apply andb_true_iff in H2 as [E2 H2].
  apply key_eqb_eq in E1 as ->. rewrite E2. exact (IH _ _ H1 H2).
Qed.
Lemma is_prefix_long a : forall b, is_prefix a b = true -> (length b <= length a)%nat -> a = b.
Proof.
  induction a as [|x a IH]; intros [|y b] H L; cbn in H, L; try discriminate H; try reflexivity; [lia|].
  apply andb_true_iff in H as [E H]. apply key_eqb_eq in E as ->. f_equal. apply IH; [exact H|lia].
Qed.
Lemma path_eqb_firstn sp : forall lp, path_eqb sp (firstn (length sp) lp) = is_prefix sp lp.
Proof.
  induction sp as [|x sp IH]; intros [|y lp]; cbn; try reflexivity. rewrite IH. reflexivity.
Qed.

(* the paths a list selects, those with a listed prefix: the test of the nesting loop ([covered_ok]), what [covers]
   compares ([covers_sel]), and all that [subtract] and [proj] depend on ([spec_sel_eq]) *)
Definition sel (ps : list path) (p : path) : bool := existsb (fun q => is_prefix q p) ps.

Lemma covered_ok before lp :
  Forall (fun b => (length b <= length lp)%nat) before ->
  covered before lp = Ok (sel before lp).
Proof.
  induction 1 as [|sp r L _ IH]; [reflexivity|].
  unfold sel in *. cbn [covered existsb]. unfold len. rewrite slice_to_firstn by exact L. cbn [bind].
  rewrite path_eqb_firstn. destruct (is_prefix sp lp); [reflexivity|exact IH].
Qed.

Definition lsorted : list path -> Prop := StronglySorted (fun x y : path => (length x <= length y)%nat).

Fixpoint nest_pure (before rest : list path) : list path :=
  match rest with
  | [] => []
  | lp :: r =>
      if sel before lp then nest_pure (before ++ [lp]) r
      else lp :: nest_pure (before ++ [lp]) r
  end.

Lemma nest_loop_pure : forall rest before racc,
  lsorted (before ++ rest) -> nest_loop before rest racc = Ok (rev racc ++ nest_pure before rest).
Proof.
  induction rest as [|lp r IH]; intros before racc LS.
  - cbn. rewrite app_nil_r. reflexivity.
  - cbn [nest_loop nest_pure]. rewrite covered_ok.
    2:{ apply sorted_app in LS as (_ & _ & LB). apply Forall_forall. intros b Hb.
        apply LB; [exact Hb|left; reflexivity]. }
    cbn [bind]. rewrite IH by (rewrite <- app_assoc; exact LS).
    destruct (sel before lp); [reflexivity|].
    cbn [rev]. rewrite <- app_assoc. reflexivity.
Qed.

Definition len_before (p q : path) : bool := (length p <? length q)%nat.

(* by induction and not by conversion: where the model rebuilds [q :: r], [insert] returns the list it matched *)
Lemma insert_len_insert p l : insert_len p l = insert len_before p l.
Proof. induction l as [|q r IH]; [reflexivity|]. cbn [insert_len insert]. now rewrite IH. Qed.

Lemma sort_len_spec ps : Permutation ps (sort_len ps) /\ lsorted (sort_len ps).
Proof.
  unfold sort_len.
  assert (G : forall acc, lsorted acc ->
            Permutation (acc ++ ps) (fold_left (fun acc p => insert_len p acc) ps acc) /\
            lsorted (fold_left (fun acc p => insert_len p acc) ps acc)).
  { induction ps as [|p ps IH]; intros acc LS.
    - cbn. rewrite app_nil_r. now split.
    - cbn [fold_left]. rewrite insert_len_insert. destruct (IH (insert len_before p acc)) as [P S].
      { apply insert_sorted; [unfold len_before; lia ..|exact LS]. }
      split; [|exact S]. rewrite <- P, insert_perm. symmetry. apply Permutation_middle. }
  apply (G []). constructor.
Qed.

Theorem nest_pure_eq ps : nest ps = Ok (nest_pure [] (sort_len ps)).
Proof.
  unfold nest. rewrite nest_loop_pure; [reflexivity|apply sort_len_spec].
Qed.

Definition covers (ps qs : list path) : Prop :=
  forall p, In p ps -> exists q, In q qs /\ is_prefix q p = true.

Lemma covers_incl ps qs : incl ps qs -> covers ps qs.
Proof. intros I p Hp. exists p. split; [apply I; exact Hp|apply is_prefix_refl]. Qed.

Lemma covers_drop ps qs lp rs b :
  covers ps (qs ++ lp :: rs) -> In b qs -> is_prefix b lp = true -> covers ps (qs ++ rs).
Proof.
  intros C Hb Pb p Hp. destruct (C p Hp) as (q & Hq & Pq). apply in_app_or in Hq as [Hq|[<-|Hq]].
  - exists q. split; [apply in_or_app; left; exact Hq|exact Pq].
  - exists b. split; [apply in_or_app; left; exact Hb|exact (is_prefix_trans _ _ _ Pb Pq)].
  - exists q. split; [apply in_or_app; right; exact Hq|exact Pq].
Qed.

(* the kept paths among [rest] when [before] went before: a sublist, which with [before] still covers everything,
   holds no path with a prefix in [before], and no two of which are prefixes of each other *)
Lemma nest_pure_post : forall rest before, lsorted rest ->
  let R := nest_pure before rest in
  incl R rest /\ covers (before ++ rest) (before ++ R) /\ (forall x, In x R -> sel before x = false) /\ prefix_free R.
Proof.
  induction rest as [|lp r IH]; intros before LS.
  - repeat split; [apply incl_refl|apply covers_incl, incl_refl|intros x []].
  - apply StronglySorted_inv in LS as [LS2 LS1]. destruct (IH (before ++ [lp]) LS2) as (Inc & Cov & Kept & PF).
    rewrite <- !app_assoc in Cov. cbn [nest_pure].
    assert (K : forall x, In x (nest_pure (before ++ [lp]) r) -> sel before x = false /\ is_prefix lp x = false).
    { intros x Hx. specialize (Kept x Hx). unfold sel in Kept. rewrite existsb_app in Kept. cbn [existsb] in Kept.
      rewrite orb_false_r in Kept. apply orb_false_iff. exact Kept. }
    destruct (sel before lp) eqn:EX.
    + apply existsb_exists in EX as (b & Hb & Pb).
      repeat split; [apply incl_tl, Inc|exact (covers_drop _ _ _ _ _ Cov Hb Pb)|apply K|exact PF].
    + repeat split; [apply incl_cons; [left; reflexivity|apply incl_tl, Inc]|exact Cov| | |exact PF].
      * intros x [<-|Hx]; [exact EX|apply K, Hx].
      * apply Forall_forall. intros q Hq. destruct (K q Hq) as [_ P1].
        split; [exact P1|]. destruct (is_prefix q lp) eqn:E; [|reflexivity].
        (* q is at least as long as lp, so it would be lp itself *)
        apply is_prefix_long in E as ->; [rewrite is_prefix_refl in P1; discriminate|].
        rewrite Forall_forall in LS1. apply LS1, Inc, Hq.
Qed.

(* what ParseNestedFields leaves: a prefix-free subset that covers every listed path *)
Theorem nest_spec ps :
  let R := nest_pure [] (sort_len ps) in incl R ps /\ covers ps R /\ prefix_free R.
Proof.
  destruct (sort_len_spec ps) as [P S]. destruct (nest_pure_post _ [] S) as (Inc & Cov & _ & PF). repeat split.
  - intros x Hx. exact (Permutation_in _ (Permutation_sym P) (Inc x Hx)).
  - intros p Hp. exact (Cov p (Permutation_in _ P Hp)).
  - exact PF.
Qed.

Definition no_empty (ps : list path) : Prop := Forall (fun p => p <> []) ps.

Lemma tails_in k t ps : In t (tails k ps) <-> In (k :: t) ps.
Proof.
  induction ps as [|[|k' t'] r IH]; cbn [tails In].
  - tauto.
  - rewrite IH. intuition discriminate.
  - destruct (key_eqb_spec k' k) as [->|Hne]; cbn [In]; rewrite IH.
    + split; (intros [H|H]; [left; congruence|right; exact H]).
    + split; [tauto|]. intros [H|H]; [congruence|exact H].
Qed.

Lemma no_empty_existsb ps : no_empty ps <-> existsb is_nil ps = false.
Proof.
  split.
  - induction 1 as [|p r Hp _ IH]; [reflexivity|]. destruct p; [destruct (Hp eq_refl)|exact IH].
  - induction ps as [|[|k t] r IH]; cbn [existsb is_nil orb]; intro H; [constructor|discriminate H|].
    constructor; [discriminate|exact (IH H)].
Qed.

(* one key down: what [tails k ps] selects of t is what ps selects of k :: t, and it holds the empty path when ps
   selects [k] *)
Lemma sel_tails k t : forall ps, existsb is_nil ps = false ->
  existsb is_nil (tails k ps) = sel ps [k] /\ sel (tails k ps) t = sel ps (k :: t).
Proof.
  induction ps as [|[|k' q] r IH]; cbn [existsb is_nil orb]; intro H; [split; reflexivity|discriminate H|].
  destruct (IH H) as [I1 I2]. unfold sel in *. cbn [tails existsb is_prefix].
  destruct (key_eqb k' k); cbn [existsb andb orb]; rewrite I1, I2; [destruct q|]; split; reflexivity.
Qed.

(* the recursion of [subtract] and [proj] asks a list two things, both answered by [sel] ([sel_tails]) *)
Lemma spec_sel_eq : forall j ps qs,
  existsb is_nil ps = false -> existsb is_nil qs = false -> (forall p, sel ps p = sel qs p) ->
  subtract ps j = subtract qs j /\ proj ps j = proj qs j.
Proof.
  induction j as [|x|x|x|l _|fs IH] using json_ind2; intros ps qs NP NQ H; try (split; reflexivity).
  rewrite !subtract_obj, !proj_obj.
  assert (G : sub_fields ps fs = sub_fields qs fs /\ proj_fields ps fs = proj_fields qs fs).
  { induction IH as [|[k v] r Hv _ IHr]; [split; reflexivity|]. destruct IHr as [I1 I2].
    cbn [sub_fields proj_fields]. cbn [snd] in Hv.
    assert (E : existsb is_nil (tails k ps) = existsb is_nil (tails k qs))
      by (rewrite (proj1 (sel_tails k [] ps NP)), (proj1 (sel_tails k [] qs NQ)); apply H).
    rewrite <- E, I1, I2. destruct (existsb is_nil (tails k ps)) eqn:EN; [split; reflexivity|].
    destruct (Hv (tails k ps) (tails k qs) EN (eq_sym E)) as [-> ->]; [|split; reflexivity].
    intro t. rewrite (proj2 (sel_tails k t ps NP)), (proj2 (sel_tails k t qs NQ)). apply H. }
  destruct G as [-> ->]. split; reflexivity.
Qed.

Lemma covers_sel ps qs p : covers ps qs -> sel ps p = true -> sel qs p = true.
Proof.
  intros C H. apply existsb_exists in H as (q & Hq & P). destruct (C q Hq) as (q' & Hq' & P').
  apply existsb_exists. exists q'. split; [exact Hq'|exact (is_prefix_trans _ _ _ P' P)].
Qed.

Theorem spec_cover_eq : forall j ps qs,
  no_empty ps -> no_empty qs -> covers ps qs -> covers qs ps ->
  subtract ps j = subtract qs j /\ proj ps j = proj qs j.
Proof.
  intros j ps qs NP NQ C1 C2. apply spec_sel_eq; [apply no_empty_existsb; assumption..|].
  intro p. apply eq_true_iff_eq. split; apply covers_sel; assumption.
Qed.

Theorem spec_nested_idem : forall ps p q j,
  no_empty ps -> In p ps ->
  subtract ((p ++ q) :: ps) j = subtract ps j /\ proj ((p ++ q) :: ps) j = proj ps j.
Proof.
  intros ps p q j NE Hp. apply spec_cover_eq.
  - constructor; [|exact NE]. unfold no_empty in NE. rewrite Forall_forall in NE. specialize (NE _ Hp).
    destruct p; [congruence|discriminate].
  - exact NE.
  - intros x [<-|Hx].
    + exists p. split; [exact Hp|apply is_prefix_app].
    + exists x. split; [exact Hx|apply is_prefix_refl].
  - apply covers_incl, incl_tl, incl_refl.
Qed.
