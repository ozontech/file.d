(* C08 / C09 — the status a worker reads back from commitBatch (pipeline/batch.go work(): `switch status`) is always one of
   MaxSizeExceeded (1), TimeoutExceeded (2), InDeadQueue (3): the `default: logger.Panic("unreachable")` arm is never taken,
   for every interleaving the batcher LTS allows.  Invariant: every sealed batch in flight carries status 1 or 2 (the Seal
   guard), the retry frame's give-up is the only writer of 3 (bemptied). *)
From Verif Require Import Base.Sx Model.Batcher Proofs.Batcher.
From Coq Require Import Lia ZifyBool Bool List ZArith.
Import ListNotations.
Local Open Scope Z_scope.

Definition inv_status (s : st) : Prop := forall b, In b (flight s) -> bstatus b = 1 \/ bstatus b = 2.

Lemma bstatus_set_stage g b : bstatus (set_stage g b) = bstatus b. Proof. reflexivity. Qed.

Lemma inv_status_step c s l s' : inv_status s -> step c s l = Some s' -> inv_status s'.
Proof.
  intros I H. apply step_Step in H.
  destruct H; unfold inv_status; post_state; try assumption;
    (* a worker's step keeps the status of its batch *)
    try (intros x Hx; in_upd Hx; [exact (I x Hx)|exact (I _ (proj1 (find_bat_In _ _ _ Hf)))]).
  - (* Seal *) intros x Hx. in_snoc Hx; [exact (I x Hx)|]. cbn [bstatus]. destruct (size_ready c _ _); lia.
  - (* CommitEnd *) intros x Hx. exact (I x (In_del_bat _ _ _ Hx)).
  - (* GiveUp: the emptied flag carries InDeadQueue, the status stays *) intros x Hx. in_upd Hx; [exact (I x Hx)|exact (I _ (proj1 (find_bat_In _ _ _ Hfind)))].
Qed.

Lemma inv_status_init c : inv_status (init c).
Proof. intros b []. Qed.

Lemma inv_status_reach c ls s : run c (init c) ls = Some s -> inv_status s.
Proof. exact (run_invariant c inv_status (inv_status_step c) ls _ _ (inv_status_init c)). Qed.

(* the status commitBatch returns (label CommitEnd) in any reachable state *)
Theorem commit_status_known c ls s seq status s' :
  run c (init c) ls = Some s -> step c s (LCommitEnd seq status) = Some s' ->
  status = 1 \/ status = 2 \/ status = 3.
Proof.
  intros Hr H. pose proof (inv_status_reach _ _ _ Hr) as I. step_inv H.
  destruct (I b (proj1 (find_bat_In _ _ _ Hfind))), (bemptied b); lia.
Qed.

(* ... and 3 (InDeadQueue) only for a batch the retry frame gave up with a dead queue *)
Theorem commit_status_dead_queue_only c ls s seq s' :
  run c (init c) ls = Some s -> step c s (LCommitEnd seq 3) = Some s' ->
  exists b, find_bat (flight s) seq = Some b /\ bemptied b = true.
Proof.
  intros Hr H. pose proof (inv_status_reach _ _ _ Hr) as I. step_inv H.
  exists b. split; [assumption|]. destruct (I b (proj1 (find_bat_In _ _ _ Hfind))), (bemptied b); lia.
Qed.
