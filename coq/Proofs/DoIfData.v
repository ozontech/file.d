(* The second caller of a do_if checker: antispam rules (pipeline/antispam). The data handed to the
   checker is not an event tree but (record bytes, source name, meta map); only field and logical
   nodes are supported there. The refinement check = eval carries over leaf by leaf (field_core). *)
From Verif Require Import Base.Sx Base.GoSem Base.Json Model.DoIf Proofs.GoSemFacts Proofs.ListFacts Proofs.DoIf.

Section Data.
  Variable lower : bytes -> bytes.
  Variable re_match : bytes -> bytes -> bool.
  Variable go_contains_any : bytes -> bytes -> bool.
  Variable re_ok : bytes -> bool.

  Notation checkA := (check_as lower re_match go_contains_any).
  Notation evalA := (eval_as lower re_match go_contains_any).

  Lemma check_as_and ops d : checkA (NAnd ops) d = forallb (fun x => checkA x d) ops.
  Proof. reflexivity. Qed.

  Lemma check_as_or ops d : checkA (NOr ops) d = existsb (fun x => checkA x d) ops.
  Proof. reflexivity. Qed.

  (* for every rule tree the constructors accept and every antispam datum, the decision computed with
     the short-cuts of fieldOpNode.Check and the short-circuit loops is the documented one: field
     operations over  event | source_name | meta.<key>  (anything else is absent), and / or / not;
     length, timestamp and type leaves do not apply to this data and never hold *)
  Theorem check_as_eq_eval_as : forall n d,
    wfb re_ok n = true ->
    lower_hyp_as lower n d = true ->
    checkA n d = evalA n d.
  Proof.
    intros n d. induction n as [op path cs v0 vr| | | |ops IH|ops IH|x IH] using node_ind'; intros Hwf Hh.
    - (* [as_fget d path] computes to [fd_of (as_get d path)] *)
      apply (field_core lower re_match go_contains_any op cs v0 vr (as_get d path));
        [intros ->; exact (wfb_contains_any _ _ _ _ _ Hwf)|exact Hh].
    - reflexivity.
    - reflexivity.
    - reflexivity.
    - rewrite check_as_and. apply forallb_ext_in. intros x Hx.
      exact (IH x Hx (wfb_ops re_ok ops Hwf x Hx) (proj1 (forallb_forall _ _) Hh x Hx)).
    - rewrite check_as_or. apply existsb_ext_in. intros x Hx.
      exact (IH x Hx (wfb_ops re_ok ops Hwf x Hx) (proj1 (forallb_forall _ _) Hh x Hx)).
    - cbn [check_as eval_as]. f_equal. apply IH; assumption.
  Qed.

  (* byte-wise lower-casing meets the side condition on every rule and datum *)
  Section Global.
    Hypothesis lower_len : forall x, length (lower x) = length x.
    Hypothesis lower_firstn : forall k x, lower (firstn k x) = firstn k (lower x).
    Hypothesis lower_skipn : forall k x, lower (skipn k x) = skipn k (lower x).

    Lemma lower_hyp_as_global n d : lower_hyp_as lower n d = true.
    Proof.
      induction n as [| | | |ops IH|ops IH|x IH] using node_ind'; cbn [lower_hyp_as]; try reflexivity.
      - apply fhyp_global; assumption.
      - apply forallb_forall. exact IH.
      - apply forallb_forall. exact IH.
      - exact IH.
    Qed.

    Theorem check_as_eq_eval_as_global : forall n d,
      wfb re_ok n = true -> checkA n d = evalA n d.
    Proof. intros n d Hwf. apply check_as_eq_eval_as; [exact Hwf|apply lower_hyp_as_global]. Qed.
  End Global.

  (* the decision of a rule on antispam data agrees with the decision of the same rule on the event
     tree  {"event": <bytes>, "source_name": <name>, "meta": {<key>: <value>, ...}}  whenever the rule
     is built of field operations over the three documented paths and of and / or / not *)
  Fixpoint documented_paths (n : node) : bool :=
    match n with
    | NField _ path _ _ _ =>
        match path with
        | [k] => bytes_eqb k b_event || bytes_eqb k b_source_name
        | [k; _] => bytes_eqb k b_meta
        | _ => false
        end
    | NAnd ops | NOr ops => forallb documented_paths ops
    | NNot x => documented_paths x
    | _ => false
    end.

  Definition as_tree (d : asdata) : json :=
    JObj [(b_event, JStr (as_event d)); (b_source_name, JStr (as_source d));
          (b_meta, JObj (map (fun kv => (fst kv, JStr (snd kv))) (as_meta d)))].

  Lemma meta_get_field_get m k :
    get (JObj (map (fun kv => (fst kv, JStr (snd kv))) m)) [k] = meta_get m k.
  Proof.
    unfold get. cbn [jdig].
    induction m as [|[k' v'] r IH]; cbn [map field_get meta_get fst snd]; [reflexivity|].
    unfold key_eqb, bytes_eqb. destruct (N_eqb_list k' k); [reflexivity|exact IH].
  Qed.

  Lemma as_tree_get d path :
    match path with
    | [k] => bytes_eqb k b_event || bytes_eqb k b_source_name
    | [k; _] => bytes_eqb k b_meta
    | _ => false
    end = true ->
    get (as_tree d) path = as_get d path.
  Proof.
    destruct path as [|k [|k2 [|k3 r]]]; try discriminate; intros H.
    - apply orb_true_iff in H. destruct H as [H|H]; apply bytes_eqb_eq in H; subst k; reflexivity.
    - apply bytes_eqb_eq in H. subst k.
      change (as_get d [b_meta; k2]) with (meta_get (as_meta d) k2).
      rewrite <- meta_get_field_get. reflexivity.
  Qed.

  Variable parse_time : bytes -> bytes -> option Z.
  Variable as_int : bytes -> Z.

  Theorem check_as_is_check_on_tree : forall n d now,
    documented_paths n = true ->
    checkA n d = check lower re_match go_contains_any parse_time as_int n (as_tree d) now.
  Proof.
    intros n d now. induction n as [| | | |ops IH|ops IH|x IH] using node_ind'; cbn [documented_paths]; intros Hd;
      try discriminate.
    - cbn [check_as check]. rewrite (as_tree_get d _ Hd). reflexivity.
    - rewrite check_as_and, check_and. apply forallb_ext_in. intros x Hx.
      exact (IH x Hx (proj1 (forallb_forall _ _) Hd x Hx)).
    - rewrite check_as_or, check_or. apply existsb_ext_in. intros x Hx.
      exact (IH x Hx (proj1 (forallb_forall _ _) Hd x Hx)).
    - cbn [check_as check]. f_equal. apply IH. exact Hd.
  Qed.
End Data.
