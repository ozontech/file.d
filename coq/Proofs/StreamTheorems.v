(* Final statements about Model/Stream.v (pipeline/stream.go + charged list of pipeline/streamer.go).
   Every lemma quantifies over ALL label lists [ls] accepted by the model from [sinit] (i.e. over every
   interleaving of put / makeCharged / joinStream / attach / get / leave / tryDetach / commit /
   blockGet / tryUnblock on any number of streams) and over every stream index [i] of the table.
   [sti t i] is the stream with table index [i]; its id in [charged] / [taken] / labels is [Z.of_nat i]. *)
From Verif Require Import Base.Sx Model.Stream Proofs.ListFacts Proofs.Lts Proofs.Stream.
From Coq Require Import Lia Bool List ZArith.
Import ListNotations.
Local Open Scope Z_scope.

Definition sti (t : sst) (i : nat) : stream := get_s (streams t) i.

Lemma sti_sget t i : sget t (Z.of_nat i) = sti t i.
Proof. unfold sget, sti. rewrite Nat2Z.id. reflexivity. Qed.

Lemma reach_sinv ls t i :
  srun sinit ls = Some t -> sinv (In (Z.of_nat i) (charged t)) (tk_of (Z.of_nat i) (taken t)) (sti t i).
Proof. intros Hr. exact (Inv_nat _ i (Inv_reach _ _ Hr)). Qed.

Lemma reach_view ls t i :
  srun sinit ls = Some t -> sview (In (Z.of_nat i) (charged t)) (tk_of (Z.of_nat i) (taken t)) (sti t i).
Proof. intros Hr. exact (sinv_view _ _ _ (reach_sinv _ _ i Hr)). Qed.

(* [sstep t l] in the goal, for a label [l] of the stream with table index [i], as guards on [sti t i] *)
Ltac sstep_sti Hcr t i := sstep_guards Hcr (Nat2Z.is_nonneg i); rewrite ?Nat2Z.id; fold (sti t i).

(* the six Panicf sites that Model/Stream.v has as [crash] (attach x3, get and leave while detaching, tryUnblock) are unreachable.
   The three Panicf for a stream that is not attached are refused labels instead; tryUnblock's rests on SBlock's guard
   [away = scommit], a fact about the caller in processor.go that is checked on every trace *)
Lemma stream_never_crashes ls t : srun sinit ls = Some t -> scrashed t = false.
Proof. intros Hr. exact (I_cr _ (Inv_reach _ _ Hr)). Qed.

(* the same, per step: whatever label the code performs next in a reachable state, it is not a Panicf *)
Lemma stream_step_never_crashes ls t l t' :
  srun sinit ls = Some t -> sstep t l = Some t' -> scrashed t' = false.
Proof. intros Hr Hs. exact (I_cr _ (Inv_step _ _ _ (Inv_reach _ _ Hr) Hs)). Qed.

Lemma stream_seq_bounds ls t i :
  srun sinit ls = Some t ->
  let st := sti t i in 0 <= scommit st /\ scommit st <= away st /\ away st <= cur st.
Proof. intros Hr st. destruct (reach_sinv _ _ i Hr). auto. Qed.

(* events wait in put order; none is lost or duplicated inside the stream *)
Lemma stream_queue_shape ls t i :
  srun sinit ls = Some t ->
  let st := sti t i in
  exists marker, q st = marker ++ range (away st + 1) (cur st) /\
    (marker = [] \/
     (marker = [- scommit st - 1] /\ att st = true /\ own st = true /\ blk st = false /\ away st = scommit st)).
Proof.
  intros Hr st. destruct (reach_sinv _ _ i Hr). fold st in i_q, i_own.
  destruct i_q as [Hq|(Hq & Ho & Ha & Hb)].
  - exists []. split; [exact Hq|left; reflexivity].
  - exists [- scommit st - 1]. split; [exact Hq|right]. destruct (i_own Ho). auto.
Qed.

(* Each event is taken exactly once, in put order.
   [taken_of t i]: the regular events taken from stream [i], oldest first ([taken] is kept newest first) *)
Definition taken_of (t : sst) (i : nat) : list Z :=
  map snd (filter (fun p => fst p =? Z.of_nat i) (rev (taken t))).

Lemma stream_taken_in_order ls t i :
  srun sinit ls = Some t -> taken_of t i = range 1 (away (sti t i)).
Proof.
  intros Hr. unfold taken_of. fold (tk_of (Z.of_nat i) (rev (taken t))).
  rewrite tk_of_rev, (i_tk _ _ _ (reach_sinv _ _ i Hr)), rev_involutive. reflexivity.
Qed.

(* [away] is the number of regular events taken (a time-out event leaves it unchanged) *)
Lemma stream_taken_count ls t i :
  srun sinit ls = Some t -> Z.of_nat (length (taken_of t i)) = away (sti t i) /\ NoDup (taken_of t i).
Proof.
  intros Hr. rewrite (stream_taken_in_order _ _ _ Hr). destruct (stream_seq_bounds _ _ i Hr) as (H0 & H1 & _).
  split; [rewrite range_length; lia|apply range_NoDup].
Qed.

Lemma charged_wf ls t :
  srun sinit ls = Some t ->
  NoDup (charged t) /\
  forall s, In s (charged t) -> 0 <= s /\
    let st := sti t (Z.to_nat s) in att st = false /\ q st <> [] /\ popped st = false /\ pend st = false.
Proof.
  intros Hr. assert (HI := Inv_reach _ _ Hr). split; [exact (I_nd _ HI)|].
  intros s Hs. assert (H0 := I_pos _ HI s Hs). split; [exact H0|]. exact (i_ch _ _ _ (I_s _ HI s H0) Hs).
Qed.

(* C04: no interleaving leaves a stream with pending events unattended *)
Lemma no_unattended_stream ls t i :
  srun sinit ls = Some t ->
  let st := sti t i in
  att st = false -> q st <> [] -> In (Z.of_nat i) (charged t) \/ popped st = true \/ pend st = true.
Proof. intros Hr. exact (i_un _ _ _ (reach_sinv _ _ i Hr)). Qed.

(* the three attendants are exclusive *)
Lemma attendant_unique ls t i :
  srun sinit ls = Some t ->
  let st := sti t i in
  (In (Z.of_nat i) (charged t) -> popped st = false /\ pend st = false) /\ (popped st = true -> pend st = false).
Proof. intros Hr. cbv zeta. destruct (reach_view _ _ i Hr); sfields; intuition discriminate. Qed.

(* ... and each of them has its next step enabled: the pending makeCharged, *)
Lemma pending_charge_enabled ls t i :
  srun sinit ls = Some t -> pend (sti t i) = true -> exists t', sstep t (SCharge (Z.of_nat i)) = Some t'.
Proof.
  intros Hr. sstep_sti (stream_never_crashes _ _ Hr) t i. destruct (reach_view _ _ i Hr); sfields; try discriminate.
  rewrite (proj2 (existsb_eqb_notIn _ _)), range_cons by (assumption || lia). eexists; reflexivity.
Qed.

(* the pop of the stream on top of the charged list (joinStream pops the last element), *)
Lemma charged_nonempty_pop_enabled ls t :
  srun sinit ls = Some t -> charged t <> [] -> exists s t', In s (charged t) /\ sstep t (SPop s) = Some t'.
Proof.
  intros Hr Hne. destruct (rev_nonempty _ Hne) as (s & r & E & Hin). assert (HI := Inv_reach _ _ Hr).
  exists s. eexists. split; [exact Hin|]. sstep_guards (I_cr _ HI) (I_pos _ HI s Hin). rewrite E, Z.eqb_refl. reflexivity.
Qed.

(* and the attach after the pop, which does not hit a Panicf *)
Lemma popped_attach_enabled ls t i :
  srun sinit ls = Some t -> popped (sti t i) = true ->
  exists t', sstep t (SAttach (Z.of_nat i)) = Some t' /\ scrashed t' = false /\
    att (sti t' i) = true /\ own (sti t' i) = true /\ det (sti t' i) = false.
Proof.
  intros Hr. sstep_sti (stream_never_crashes _ _ Hr) t i. destruct (reach_view _ _ i Hr); sfields; try discriminate.
  destruct (range (a + 1) cu) eqn:E; [apply range_nil_inv in E; lia|].
  eexists. split; [reflexivity|]. unfold sti. cbn [scrashed streams]. rewrite get_set_same. auto.
Qed.

Lemma owner_wf ls t i :
  srun sinit ls = Some t ->
  let st := sti t i in
  (own st = true -> att st = true /\ det st = false) /\
  (* after leave(): attached + detaching, no owner, not blocked, no time-out marker, not offered to anybody;
     it stays so until the last event the previous owner took is committed (see detach_when_committed) *)
  (det st = true -> att st = true /\ own st = false /\ blk st = false /\ popped st = false /\ pend st = false /\
                    ~ In (Z.of_nat i) (charged t) /\ q st = range (away st + 1) (cur st)) /\
  (popped st = true -> att st = false /\ det st = false /\ own st = false /\ pend st = false /\ q st <> [] /\
                       ~ In (Z.of_nat i) (charged t)) /\
  (blk st = true -> own st = true /\ att st = true /\ det st = false /\ q st = [] /\ away st = scommit st) /\
  (att st = true -> (own st = true /\ det st = false) \/ (own st = false /\ det st = true)) /\
  (att st = false -> det st = false /\ own st = false /\ blk st = false /\ away st = scommit st).
Proof.
  intros Hr. cbv zeta. destruct (reach_view _ _ i Hr); sfields; repeat split; try discriminate; auto.
  apply range_nonempty. lia.
Qed.

(* C04: no stream blocked forever behind a multi-line action.  In every reachable state a blocked stream offers tryUnblock's time-out event (its guards
   first == nil and awaySeq == commitSeq hold, so it is not the Panicf), and after it the owner's
   get of that time-out event is enabled and ends the block. *)
Lemma blocked_stream_gets_timeout ls t i :
  srun sinit ls = Some t ->
  let st := sti t i in
  blk st = true ->
  exists t', sstep t (STimeout (Z.of_nat i) (scommit st)) = Some t' /\ scrashed t' = false /\
    blk (sti t' i) = false /\ q (sti t' i) = [- scommit st - 1] /\
  exists t'', sstep t' (SGet (Z.of_nat i) (scommit st) 3) = Some t'' /\ scrashed t'' = false /\
    blk (sti t'' i) = false /\ own (sti t'' i) = true /\ q (sti t'' i) = [].
Proof.
  intros Hr. cbv zeta. sstep_sti (stream_never_crashes _ _ Hr) t i.
  destruct (reach_view _ _ i Hr); sfields; try discriminate. intros _.
  rewrite Z.eqb_refl. cbn [negb]. eexists. split; [reflexivity|].
  unfold sti. cbn [scrashed streams]. rewrite !get_set_same. sfields.
  rewrite (proj2 (Z.ltb_ge a 0)), !Z.eqb_refl by lia. repeat split.
  eexists. split; [reflexivity|]. cbn [scrashed streams]. rewrite get_set_same. auto.
Qed.

(* hand-over: a detaching stream whose last taken event is committed can be detached (tryDetach succeeds) *)
Lemma detach_when_committed ls t i :
  srun sinit ls = Some t ->
  let st := sti t i in
  det st = true -> away st = scommit st ->
  exists t', sstep t (SDetach (Z.of_nat i) (negb (match q st with [] => true | _ => false end))) = Some t'.
Proof.
  intros Hr. cbv zeta. sstep_sti (stream_never_crashes _ _ Hr) t i.
  destruct (reach_view _ _ i Hr); sfields; try discriminate. intros _ ->.
  rewrite Z.eqb_refl. destruct (range (co + 1) cu); eexists; reflexivity.
Qed.

(* a stream is attached only when nobody holds it and everything taken from it has been committed *)
Lemma stream_attach_pre ls t s t' :
  srun sinit ls = Some t -> sstep t (SAttach s) = Some t' ->
  0 <= s /\
  let st := sti t (Z.to_nat s) in
  popped st = true /\ att st = false /\ det st = false /\ own st = false /\ q st <> [] /\ away st = scommit st.
Proof.
  intros Hr H. assert (HI := Inv_reach _ _ Hr). cbv zeta. unfold sti.
  (* the guard admits the popped shape only; the Panicf branch and the attach read the same stream *)
  label_cases HI H; repeat split; trivial; apply range_nonempty; lia.
Qed.

(* C01/C02 mechanism: between a leave() of stream [s] and its next attach() there is a successful
   tryDetach, taken in a state where every event the previous owner took is committed (away = commit). *)
Lemma stream_reattach_only_after_commit ls1 ls2 t1 t1' t2 t3 s :
  srun sinit ls1 = Some t1 -> sstep t1 (SLeave s) = Some t1' ->
  srun t1' ls2 = Some t2 -> sstep t2 (SAttach s) = Some t3 ->
  exists la b lb tm, ls2 = la ++ SDetach s b :: lb /\ srun t1' la = Some tm /\
    let st := sti tm (Z.to_nat s) in
    att st = true /\ det st = true /\ away st = scommit st.
Proof.
  intros H1 HL H2 HA.
  assert (Hr2 : srun sinit (ls1 ++ SLeave s :: ls2) = Some t2).
  { apply (run_trans sstep _ _ _ _ _ H1). cbn [run]. rewrite HL. exact H2. }
  destruct (stream_attach_pre _ _ _ _ Hr2 HA) as (Hs0 & _ & Hna & _).
  assert (Hatt : att (sget t1' s) = true).
  { (* left by its owner, the stream is detaching *)
    assert (HI := Inv_reach _ _ H1). label_cases HI HL; unfold sget; cbn [streams]; rewrite get_set_same; reflexivity. }
  exact (att_lost_run ls2 t1' t2 s Hs0 H2 Hatt Hna).
Qed.

(* non-vacuity: two streams, a hand-over with events pending, a block and a time-out *)
Definition demo_run : list slabel :=
  [ SPut 0 1 0; SCharge 0; SPut 1 1 0; SCharge 1;          (* both streams charged: charged = [0; 1] *)
    SPop 1; SAttach 1; SPop 0; SAttach 0;                  (* two processors *)
    SGet 0 1 0; SLeave 0;                                  (* stream 0: taken, empty => leave, detaching *)
    SPut 0 2 0;                                            (* an event arrives while detaching: not charged *)
    SCommit 0 1; SDetach 0 true; SCharge 0;                (* commit => tryDetach => re-charged with the pending event *)
    SPop 0; SAttach 0; SGet 0 2 0;                         (* new owner takes it *)
    SGet 1 1 0; SCommit 1 1; SBlock 1;                     (* stream 1: multi-line action holds, owner waits *)
    STimeout 1 1; SGet 1 1 3;                              (* tryUnblock: time-out event, delivered *)
    SPut 1 2 0; SGet 1 2 0 ].

Example stream_demo_nonvacuous :
  exists t, srun sinit demo_run = Some t /\ scrashed t = false /\ charged t = [] /\
    rev (taken t) = [(0, 1); (0, 2); (1, 1); (1, 2)] /\ timeouts t = [(1, 1)] /\
    att (sti t 0) = true /\ away (sti t 0) = 2 /\ scommit (sti t 0) = 1 /\ away (sti t 1) = 2.
Proof. eexists. split; [vm_compute; reflexivity|]. vm_compute. repeat split; reflexivity. Qed.

(* the blocked state in the middle of that run satisfies the hypothesis of blocked_stream_gets_timeout *)
Example stream_demo_blocked :
  exists t, srun sinit (firstn 20 demo_run) = Some t /\ blk (sti t 1) = true /\ det (sti t 0) = false.
Proof. eexists. split; [vm_compute; reflexivity|]. vm_compute. split; reflexivity. Qed.

(* and the detaching state satisfies those of detach_when_committed only after the commit *)
Example stream_demo_detaching :
  exists t, srun sinit (firstn 11 demo_run) = Some t /\ det (sti t 0) = true /\ q (sti t 0) = [2] /\
    away (sti t 0) <> scommit (sti t 0) /\ sstep t (SDetach 0 true) = None /\ sstep t (SAttach 0) = None.
Proof. eexists. split; [vm_compute; reflexivity|]. vm_compute. repeat split; try reflexivity. discriminate. Qed.

(* The two guards of the model that the theorems need.
   [label_stream l >= 0]: a negative stream id would alias table index 0 through [Z.to_nat] while
   [charged] / [taken] record the id itself (witness against no_unattended_stream / charged_wf without it:
   [SPut 0 1 0; SCharge (-1)] leaves stream 0 non-empty, unattached and 0 not in charged = [-1]).
   [0 <= seq] in SGet: otherwise a "regular" get of seq -(c)-1 takes the time-out marker and a
   "time-out" get of seq -(x)-1 takes the regular event x, both setting away < 0 (witnesses against
   stream_seq_bounds: [SPut 0 1 0; SCharge 0; SPop 0; SAttach 0; SGet 0 (-2) 3], and
   [...; SGet 0 1 0; SCommit 0 1; SBlock 0; STimeout 0 1; SGet 0 (-2) 0]).
   Real traces never contain such labels (ids are table indices, SeqID is a uint64). *)
Example guard_negative_stream_id :
  exists t, srun sinit [SPut 0 1 0] = Some t /\ sstep t (SCharge (-1)) = None.
Proof. eexists. split; [vm_compute; reflexivity|vm_compute; reflexivity]. Qed.

Example guard_negative_seq :
  (exists t, srun sinit [SPut 0 1 0; SCharge 0; SPop 0; SAttach 0] = Some t /\ sstep t (SGet 0 (-2) 3) = None) /\
  (exists t, srun sinit [SPut 0 1 0; SCharge 0; SPop 0; SAttach 0; SGet 0 1 0; SCommit 0 1; SBlock 0; STimeout 0 1] = Some t /\
             sstep t (SGet 0 (-2) 0) = None /\ exists t', sstep t (SGet 0 1 3) = Some t').
Proof.
  split; eexists; (split; [vm_compute; reflexivity|]); [vm_compute; reflexivity|].
  split; [vm_compute; reflexivity|eexists; vm_compute; reflexivity].
Qed.
