(* Facts about Base/Json.v: the induction principle that reaches the members of arrays and objects, key
   comparison, lookup by key ([field_get], [field_index]), the edits of a list by position ([set_at],
   [remove_at], [swap_remove]) and structural equality. *)
From Verif Require Import Base.Sx Base.GoSem Base.Json Proofs.GoSemFacts Proofs.ListFacts.
From Coq Require Import Lia Permutation.

(* [json] recurs through lists, so the generated principle says nothing of the members *)
Section JsonInd.
  Variable P : json -> Prop.
  Hypothesis Hnull : P JNull.
  Hypothesis Hbool : forall b, P (JBool b).
  Hypothesis Hnum : forall r, P (JNum r).
  Hypothesis Hstr : forall s, P (JStr s).
  Hypothesis Harr : forall l, Forall P l -> P (JArr l).
  Hypothesis Hobj : forall fs, Forall (fun kv => P (snd kv)) fs -> P (JObj fs).
  Fixpoint json_ind2 (j : json) : P j :=
    match j with
    | JNull => Hnull
    | JBool b => Hbool b
    | JNum r => Hnum r
    | JStr s => Hstr s
    | JArr l => Harr l ((fix go (l : list json) : Forall P l :=
                           match l with
                           | [] => Forall_nil _
                           | x :: r => Forall_cons x (json_ind2 x) (go r)
                           end) l)
    | JObj fs => Hobj fs ((fix go (fs : list (bytes * json)) : Forall (fun kv => P (snd kv)) fs :=
                             match fs with
                             | [] => Forall_nil _
                             | kv :: r => Forall_cons kv (json_ind2 (snd kv)) (go r)
                             end) fs)
    end.
End JsonInd.

Lemma key_eqb_eq a b : key_eqb a b = true <-> a = b.
Proof. exact (N_eqb_list_eq a b). Qed.
Lemma key_eqb_refl a : key_eqb a a = true.
Proof. apply key_eqb_eq. reflexivity. Qed.
Lemma key_eqb_neq a b : key_eqb a b = false <-> a <> b.
Proof. rewrite <- key_eqb_eq. destruct (key_eqb a b); split; congruence. Qed.
Lemma key_eqb_spec a b : reflect (a = b) (key_eqb a b).
Proof. apply iff_reflect. symmetry. apply key_eqb_eq. Qed.
Lemma key_eqb_sym a b : key_eqb a b = key_eqb b a.
Proof. destruct (key_eqb_spec a b), (key_eqb_spec b a); congruence. Qed.

Implicit Types (fs : list (bytes * json)) (k : bytes).

Lemma field_get_in fs k v : field_get fs k = Some v -> In (k, v) fs.
Proof.
  induction fs as [|[k' v'] r IH]; cbn; [discriminate|].
  destruct (key_eqb_spec k' k) as [->|_]; [intros [= ->]; left; reflexivity|right; apply IH; assumption].
Qed.
Lemma field_get_none fs k : field_get fs k = None <-> ~ In k (map fst fs).
Proof.
  induction fs as [|[k' v] r IH]; cbn; [tauto|].
  destruct (key_eqb_spec k' k) as [->|Hne]; [|rewrite IH; tauto].
  split; [discriminate|]. intro H. exfalso. apply H. left. reflexivity.
Qed.
Lemma field_get_nodup fs k v : NoDup (map fst fs) -> In (k, v) fs -> field_get fs k = Some v.
Proof.
  induction fs as [|[k' v'] r IH]; cbn; intros ND HI; [contradiction|].
  apply NoDup_cons_iff in ND as [Hn ND']. destruct HI as [[= -> ->]|HI].
  - rewrite key_eqb_refl. reflexivity.
  - destruct (key_eqb_spec k' k) as [->|_]; [|apply IH; assumption].
    destruct (Hn (in_map fst _ _ HI)).
Qed.

Theorem field_get_perm fs fs' k : NoDup (map fst fs) -> Permutation fs fs' -> field_get fs k = field_get fs' k.
Proof.
  intros Hn Hp. pose proof (Permutation_map fst Hp) as Hk.
  destruct (field_get fs k) as [v|] eqn:E; symmetry.
  - apply field_get_nodup; [exact (Permutation_NoDup Hk Hn)|]. exact (Permutation_in _ Hp (field_get_in _ _ _ E)).
  - apply field_get_none. apply field_get_none in E. intros Hi. exact (E (Permutation_in _ (Permutation_sym Hk) Hi)).
Qed.

Lemma field_get_app_notin a k v b : ~ In k (map fst a) -> field_get (a ++ (k, v) :: b) k = Some v.
Proof.
  induction a as [|[k' v'] a IH]; cbn; intro H.
  - rewrite key_eqb_refl. reflexivity.
  - destruct (key_eqb_spec k' k) as [->|_]; [tauto|]. apply IH. tauto.
Qed.

Lemma field_index_shift k : forall fs i, field_index fs k (S i) = option_map S (field_index fs k i).
Proof.
  induction fs as [|[k' v'] r IH]; intros i; cbn [field_index]; [reflexivity|].
  destruct (key_eqb k' k); [reflexivity|apply IH].
Qed.

(* the index found is that of the first field of that name *)
Lemma field_index_spec fs k : forall n,
  match field_index fs k n with
  | Some i => exists a v b, fs = a ++ (k, v) :: b /\ i = (n + length a)%nat /\ ~ In k (map fst a)
  | None => ~ In k (map fst fs)
  end.
Proof.
  induction fs as [|[k' v] r IH]; intro n; cbn; [tauto|].
  destruct (key_eqb_spec k' k) as [->|Hne].
  - exists [], v, r. cbn. repeat split; [lia|tauto].
  - specialize (IH (S n)). destruct (field_index r k (S n)).
    + destruct IH as (a & v0 & b & -> & -> & Hn). exists ((k', v) :: a), v0, b. cbn.
      repeat split; [lia|tauto].
    + tauto.
Qed.

Lemma field_index_nth k fs i : field_index fs k 0 = Some i ->
  exists v, nth_error fs i = Some (k, v) /\ field_get fs k = Some v.
Proof.
  intros H. pose proof (field_index_spec fs k 0) as S. rewrite H in S.
  destruct S as (a & v & b & -> & -> & Hn). exists v. split; [|apply field_get_app_notin, Hn].
  cbn [Nat.add]. rewrite nth_error_app2, Nat.sub_diag by reflexivity. reflexivity.
Qed.
Lemma field_index_none k : forall fs i0, field_index fs k i0 = None <-> field_get fs k = None.
Proof.
  induction fs as [|[k' v'] r IH]; intros i0; cbn [field_index field_get]; [tauto|].
  destruct (key_eqb k' k); [split; discriminate|apply IH].
Qed.
Lemma field_index_of_get fs k v : field_get fs k = Some v ->
  exists i, field_index fs k 0 = Some i /\ nth_error fs i = Some (k, v).
Proof.
  intros H. destruct (field_index fs k 0) as [i|] eqn:E; [|apply field_index_none in E; congruence].
  destruct (field_index_nth k fs i E) as (v' & Hn & Hg). exists i. split; congruence.
Qed.

Section Lists.
Context {A : Type}.
Implicit Types (l : list A) (f : A -> bool).

Lemma length_set_at l : forall i y, length (set_at l i y) = length l.
Proof. induction l as [|x l IH]; intros [|i] y; cbn [set_at length]; auto. Qed.

Lemma nth_error_set_at l : forall i x y, nth_error l i = Some x -> nth_error (set_at l i y) i = Some y.
Proof. induction l as [|z l IH]; intros [|i] x y H; try discriminate; [reflexivity|exact (IH i x y H)]. Qed.

Lemma set_at_same l : forall i x, nth_error l i = Some x -> set_at l i x = l.
Proof.
  induction l as [|z l IH]; intros [|i] x H; try discriminate; cbn [set_at].
  - injection H as ->. reflexivity.
  - rewrite (IH i x H). reflexivity.
Qed.

Lemma set_at_app (a : list A) x b y : set_at (a ++ x :: b) (length a) y = a ++ y :: b.
Proof. induction a as [|z a IH]; [reflexivity|]. cbn. rewrite IH. reflexivity. Qed.

Lemma set_at_Forall2 (R : A -> A -> Prop) : (forall x, R x x) ->
  forall l i x y, nth_error l i = Some x -> R x y -> Forall2 R l (set_at l i y).
Proof.
  intros Hrefl. assert (Hl : forall l, Forall2 R l l) by (induction l; constructor; auto).
  induction l as [|z l IH]; intros [|i] x y H Hxy; try discriminate; cbn [set_at]; constructor; auto.
  - injection H as ->. exact Hxy.
  - exact (IH i x y H Hxy).
Qed.

Lemma forallb_set_at f l : forall i y, forallb f l = true -> f y = true -> forallb f (set_at l i y) = true.
Proof.
  induction l as [|x l IH]; intros [|i] y H Hy; cbn [set_at forallb] in *; try reflexivity.
  - apply andb_prop in H. rewrite Hy. tauto.
  - apply andb_prop in H. destruct H as [-> H]. apply IH; assumption.
Qed.

Lemma forallb_remove_at f l : forall i, forallb f l = true -> forallb f (remove_at l i) = true.
Proof.
  induction l as [|x l IH]; intros [|i] H; cbn [remove_at forallb] in *; try reflexivity.
  - apply andb_prop in H. tauto.
  - apply andb_prop in H. destruct H as [-> H]. apply IH, H.
Qed.

Lemma nth_error_perm l : forall i x, nth_error l i = Some x -> Permutation l (x :: firstn i l ++ skipn (S i) l).
Proof. intros i x H. rewrite (nth_error_firstn_skipn l i x H) at 1. symmetry. apply Permutation_middle. Qed.

(* Suicide of a field (swap_remove) only reorders the others: with l = m ++ [z], the result is m when
   the last element goes, and m with z in the place of the i-th otherwise *)
Theorem swap_remove_perm l i x : nth_error l i = Some x -> Permutation l (x :: swap_remove l i).
Proof.
  intros H. unfold swap_remove. rewrite H.
  destruct (@exists_last _ l) as (m & z & ->); [intros ->; destruct i; discriminate|].
  rewrite removelast_last, app_length, Nat.add_sub, nth_error_app2, Nat.sub_diag by reflexivity. cbn [nth_error length].
  destruct (Nat.eqb_spec i (length m)) as [->|Hi].
  - rewrite nth_error_app2, Nat.sub_diag in H by reflexivity. injection H as <-.
    symmetry. apply Permutation_cons_append.
  - assert (Hm : (i < length m)%nat).
    { assert (i < length (m ++ [z]))%nat by (apply nth_error_Some; congruence).
      rewrite app_length in *. cbn [length] in *. lia. }
    rewrite nth_error_app1 in H by exact Hm.
    rewrite firstn_app, (proj2 (Nat.sub_0_le i (length m))), app_nil_r by lia.
    rewrite <- Permutation_cons_append, <- Permutation_middle, perm_swap.
    apply perm_skip, nth_error_perm, H.
Qed.

Lemma swap_remove_app (a : list A) x b : Permutation (swap_remove (a ++ x :: b) (length a)) (a ++ b).
Proof.
  apply (Permutation_cons_inv (a := x)). rewrite <- swap_remove_perm, Permutation_middle; [reflexivity|].
  rewrite nth_error_app2, Nat.sub_diag by reflexivity. reflexivity.
Qed.

Lemma forallb_swap_remove f l i : forallb f l = true -> forallb f (swap_remove l i) = true.
Proof.
  intros H. destruct (nth_error l i) as [x|] eqn:E; [|unfold swap_remove; rewrite E; exact H].
  rewrite (forallb_perm f _ _ (swap_remove_perm l i x E)) in H. apply andb_prop in H. tauto.
Qed.
End Lists.

Lemma json_eqb_refl : forall a, json_eqb a a = true.
Proof.
  induction a as [|x|x|x|l IH|fs IH] using json_ind2; cbn [json_eqb];
    try reflexivity; try (apply N_eqb_list_eq; reflexivity).
  - destruct x; reflexivity.
  - induction IH as [|x l Hx _ IHl]; [reflexivity|]. rewrite Hx. exact IHl.
  - induction IH as [|[k v] fs Hx _ IHl]; [reflexivity|]. cbn [snd] in Hx. rewrite key_eqb_refl, Hx. exact IHl.
Qed.
Lemma json_eqb_eq : forall a y, json_eqb a y = true <-> a = y.
Proof.
  split; [|intros <-; apply json_eqb_refl]. revert y.
  induction a as [|x|x|x|l IH|fs IH] using json_ind2; intros y H; destruct y; try discriminate H;
    cbn [json_eqb] in H.
  - reflexivity.
  - apply eqb_prop in H. congruence.
  - apply N_eqb_list_eq in H. congruence.
  - apply N_eqb_list_eq in H. congruence.
  - revert l0 H. induction IH as [|x l Hx _ IHl]; intros [|y l0] H; try discriminate H; [reflexivity|].
    apply andb_true_iff in H as [H1 H2]. apply Hx in H1 as <-. apply IHl in H2. injection H2 as <-. reflexivity.
  - revert fs0 H. induction IH as [|[k v] fs Hx _ IHl]; intros [|[k' v'] fs0] H; try discriminate H;
      [reflexivity|].
    apply andb_true_iff in H as [H1 H3]. apply andb_true_iff in H1 as [H1 H2].
    apply key_eqb_eq in H1 as <-. apply Hx in H2 as <-. apply IHl in H3. injection H3 as <-. reflexivity.
Qed.
