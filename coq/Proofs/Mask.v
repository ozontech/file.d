(* Proofs about Model/Mask.v (C17): maskValue (a stretch of the value is a [run] of
   kept and hidden segments), match rules, processMask and the tree walk, the frame of the root object under
   Do, what the field lists mean, do_if gates and metric labels.
   A function that can fail whatever it is given is stated as [sat A r Q]: what a returned value looks like,
   and that there is no panic under [A].  These are the checks of the configuration, which answer a bad
   one with an error (verify_groups, compile_mask(s), gather_fields: [A] is True), and whatever asks the regexp
   oracle, which may panic or hand back an ill-formed match list (pm_loop, process_mask, leaf,
   traverse, root_loop, fast_loop, do_event, do_events_ext, run_plugin_ext: [A] is [safe_run], or its half about
   the oracle).  The functions below them never see the oracle and always return on what the former pass down,
   so each is stated as an equation or as [exists .., f .. = Ok ..] under those conditions: sweep, collect,
   matches_loop and mask_value on a well-formed match list and verified groups, affix_loop, rule_match on a
   prepared rule, rs_loop and check_match_rules on prepared rule sets.
   Properties/C17.v states the theorems. *)
From Verif Require Import Base.Sx Base.GoSem Base.Json Model.Mask Proofs.GoSemFacts Proofs.ListFacts
  Proofs.JsonFacts.
From Coq Require Import Lia ZifyBool Sorted Permutation.

Local Open Scope Z_scope.

Lemma slice_not_panic_inv {A} (l : list A) lo hi :
  is_panic (slice l lo hi) = false -> 0 <= lo /\ lo <= hi /\ hi <= len l.
Proof.
  unfold slice. destruct ((0 <=? lo) && (lo <=? hi) && (hi <=? len l)) eqn:E; cbn; intros H; [lia|discriminate].
Qed.

Lemma slice_app {A} (l : list A) a b c x y :
  slice l a b = Ok x -> slice l b c = Ok y -> slice l a c = Ok (x ++ y).
Proof.
  intros Hx Hy. apply slice_inv in Hx as (H1 & H2 & _ & ->). apply slice_inv in Hy as (H3 & H4 & _ & ->).
  rewrite slice_ok by lia. f_equal.
  replace (Z.to_nat (c - a)) with (Z.to_nat (b - a) + Z.to_nat (c - b))%nat by lia.
  rewrite firstn_plus, skipn_plus. do 3 f_equal. lia.
Qed.

Lemma slice_nil {A} (l : list A) a : 0 <= a <= len l -> slice l a a = Ok [].
Proof. intros H. rewrite slice_ok by lia. now rewrite Z.sub_diag. Qed.

Lemma slice_all {A} (l : list A) : slice l 0 (len l) = Ok l.
Proof. pose proof (slice_to_app l []) as H. now rewrite app_nil_r in H. Qed.

Lemma bind_ext {A B} (r : res A) (f g : A -> res B) : (forall a, r = Ok a -> f a = g a) -> bind r f = bind r g.
Proof. destruct r; cbn; auto. Qed.

(* [r] is a value that meets [Q], or an error; a panic only where the assumption [A] fails.  One such statement
   about a function of the model says what its results look like (whatever [A]) and that it never panics
   (under [A]).  It is [post] with "the assumption fails" as what a panic means, so [post_bind] carries it through
   the model's code. *)
Definition sat {T} (A : Prop) : res T -> (T -> Prop) -> Prop := post True (~ A).

Lemma sat_total {T} (A : Prop) (r : res T) : (A -> is_panic r = false) -> sat A r (fun _ => True).
Proof. destruct r; cbn; [trivial | trivial | intros H HA; now specialize (H HA)]. Qed.

Lemma sat_not_panic {T} (A : Prop) (r : res T) Q : sat A r Q -> A -> is_panic r = false.
Proof. destruct r; cbn; [reflexivity | reflexivity | intros H HA; now destruct H]. Qed.

Lemma sat_assume {T} (A A' : Prop) (r : res T) Q : sat A r Q -> (A' -> A) -> sat A' r Q.
Proof. destruct r; cbn; auto. Qed.

Lemma rune_count_skip_bounds : forall l skip, 0 <= rune_count_skip skip l <= len l.
Proof.
  induction l as [|c r IH]; intros skip; cbn [rune_count_skip]; [change (len (@nil byte)) with 0; lia|].
  rewrite len_cons. destruct skip as [|k]; [specialize (IH (rune_size c r - 1)%nat) | specialize (IH k)]; lia.
Qed.

Lemma rune_count_bounds l : 0 <= rune_count l <= len l.
Proof. apply rune_count_skip_bounds. Qed.

Lemma rune_count_pos l : l <> [] -> 1 <= rune_count l.
Proof.
  destruct l as [|c r]; [congruence|]. intros _. unfold rune_count. cbn [rune_count_skip].
  pose proof (rune_count_skip_bounds r (rune_size c r - 1)). lia.
Qed.

(* a byte below 128 lies in no lead-byte range of the table *)
Lemma lead_info_ascii c : (c < 128)%N -> lead_info c = (1%nat, 0%N, 0%N).
Proof.
  intros H. unfold lead_info.
  assert (R : forall lo hi, (128 <= lo)%N -> in_rng c lo hi = false) by (intros; unfold in_rng; lia).
  assert (Q : forall v, (128 <= v)%N -> N.eqb c v = false) by (intros; lia).
  rewrite !R, !Q by lia. reflexivity.
Qed.

Lemma rune_count_ascii l : Forall (fun c => (c < 128)%N) l -> rune_count l = len l.
Proof.
  unfold rune_count. induction 1 as [|c r Hc Hr IH]; [reflexivity|].
  cbn [rune_count_skip]. unfold rune_size. rewrite (lead_info_ascii c Hc). cbn [Nat.sub].
  rewrite IH, len_cons. lia.
Qed.

Lemma repl_mask_stars mc secret :
  exists n, repl (MMask mc) secret = repeat STAR n /\
            (secret <> [] -> (1 <= n)%nat) /\ Z.of_nat n <= rune_count secret /\
            (mc <= 0 -> Z.of_nat n = rune_count secret) /\ (0 < mc -> Z.of_nat n = Z.min (rune_count secret) mc).
Proof.
  eexists. split; [reflexivity|].
  pose proof (rune_count_bounds secret). split.
  - intros Hne. apply rune_count_pos in Hne. destruct (0 <? mc) eqn:E; lia.
  - destruct (0 <? mc) eqn:E; lia.
Qed.

Lemma repl_ignores_secret mode a b :
  match mode with MMask _ => False | _ => True end -> repl mode a = repl mode b.
Proof. destruct mode; cbn; [intros [] | reflexivity | reflexivity]. Qed.

Lemma vg_scan_cases : forall gs total all,
  vg_scan gs total all = Err 1 \/ vg_scan gs total all = Ok [0] \/
  (vg_scan gs total all = Ok all /\ forall g, In g gs -> 0 < g <= total).
Proof.
  induction gs as [|g r IH]; intros total all; cbn [vg_scan].
  - right. right. split; [reflexivity | intros g []].
  - destruct ((total <? g) || (g <? 0)) eqn:E; [now left|].
    destruct (g =? 0) eqn:E0; [now (right; left)|].
    destruct (IH total all) as [H | [H | [H Hr]]]; [now left | now (right; left) |].
    right. right. split; [exact H|]. intros x [<- | Hx]; [lia | now apply Hr].
Qed.

Lemma vg_scan_ok : forall gs total all out,
  vg_scan gs total all = Ok out ->
  (forall g, In g all -> In g gs -> 0 <= g <= total) ->
  0 <= total -> (out = [0] \/ (out = all /\ forall g, In g gs -> 0 < g <= total)).
Proof.
  intros gs total all out H _ _.
  destruct (vg_scan_cases gs total all) as [E | [E | [E Hr]]]; rewrite E in H; inversion H; auto.
Qed.

Lemma verify_groups_sat gs total : sat True (verify_groups gs total) (groups_ok total).
Proof.
  unfold verify_groups. destruct (has_dup gs); [exact I|]. destruct (total <? len gs) eqn:E; [exact I|].
  pose proof (len_nonneg gs).
  destruct (vg_scan_cases gs total gs) as [-> | [-> | [-> Hr]]]; [exact I | intros g [<- | []]; lia |].
  intros g Hg. specialize (Hr g Hg). lia.
Qed.

Lemma verify_groups_range gs total out :
  verify_groups gs total = Ok out -> groups_ok total out.
Proof. exact (post_ok _ _ out (verify_groups_sat gs total)). Qed.

Definition sec_le (a b : sec) : Prop := sec_before a b = true.

Lemma sort_secs_perm : forall l, Permutation (sort_secs l) l.
Proof.
  induction l as [|a r IH]; cbn [sort_secs]; [reflexivity|].
  change (insert_sec a) with (insert sec_before a). now rewrite insert_perm, IH.
Qed.

Lemma sort_secs_in x l : In x (sort_secs l) <-> In x l.
Proof. split; apply Permutation_in; [|symmetry]; apply sort_secs_perm. Qed.

Lemma sort_secs_sorted l : StronglySorted sec_le (sort_secs l).
Proof.
  induction l as [|a r IH]; cbn [sort_secs]; [constructor|].
  (* what insertion needs of the order: it is the one [sec_before] decides, total and transitive *)
  apply (insert_sorted sec_before sec_le); [| | | exact IH]; unfold sec_le, sec_before; lia.
Qed.

Lemma masked_app mode a b : masked mode (a ++ b) = masked mode a ++ masked mode b.
Proof. unfold masked. now rewrite map_app, concat_app. Qed.

Lemma orig_app a b : orig (a ++ b) = orig a ++ orig b.
Proof. unfold orig. now rewrite map_app, concat_app. Qed.

Lemma hidden_ranges_app : forall a b pos,
  hidden_ranges pos (a ++ b) = hidden_ranges pos a ++ hidden_ranges (pos + len (orig a)) b.
Proof.
  induction a as [|[x|x] a IH]; intros b pos; cbn [app hidden_ranges]; [now rewrite Z.add_0_r|..];
    rewrite IH; change (orig (_ :: a)) with (x ++ orig a); rewrite len_app, Z.add_assoc; reflexivity.
Qed.

Section Run.
  Variable value : bytes.
  Variable mode : mmode.

  (* the loops have turned value[a:b] into [out], hiding exactly the ranges [hs] *)
  Definition run (a b : Z) (out : bytes) (hs : list sec) : Prop :=
    exists segs, slice value a b = Ok (orig segs) /\ out = masked mode segs /\ hs = hidden_ranges a segs.

  Lemma run_nil a : 0 <= a <= len value -> run a a [] [].
  Proof. intros H. exists []. now rewrite slice_nil. Qed.

  Lemma run_keep a b gap : slice value a b = Ok gap -> run a b gap [].
  Proof.
    intros H. exists [Keep gap]. unfold orig, masked. cbn [map concat seg_bytes hidden_ranges].
    now rewrite app_nil_r.
  Qed.

  Lemma run_hide a b secret : slice value a b = Ok secret -> run a b (repl mode secret) [(a, b)].
  Proof.
    intros H. exists [Hide secret]. unfold orig, masked. cbn [map concat seg_bytes hidden_ranges].
    rewrite !app_nil_r. apply slice_inv in H as Hl. replace (a + len secret) with b by lia. auto.
  Qed.

  Lemma run_app a b c o1 o2 h1 h2 : run a b o1 h1 -> run b c o2 h2 -> run a c (o1 ++ o2) (h1 ++ h2).
  Proof.
    intros (s1 & H1 & -> & ->) (s2 & H2 & -> & ->). exists (s1 ++ s2).
    rewrite orig_app, masked_app, hidden_ranges_app. apply slice_inv in H1 as Hl.
    replace (a + len (orig s1)) with b by lia. split; [now apply (slice_app _ _ b)|auto].
  Qed.

  Lemma mask_section_ok s f secret : slice value s f = Ok secret -> mask_section value mode s f = Ok (repl mode secret).
  Proof.
    intros H. unfold mask_section. destruct mode; [now rewrite H | reflexivity | reflexivity].
  Qed.

  (* the sections: sorted (an enclosing one first), pairwise nested or disjoint, inside [0, B].  The sweep hides
     some of them, and a section is skipped only inside the one hidden before it.  B is the end of the current match
     ([hi] of match_facts): p <= B keeps the cursor at or before the start bound of the next match in matches_loop_spec *)
  Lemma sweep_spec B : forall secs prev,
    0 <= prev <= B -> B <= len value -> StronglySorted sec_le secs ->
    (forall r, In r secs -> 0 <= fst r <= snd r /\ snd r <= B) ->
    (forall a b, In a secs -> In b secs -> laminar a b = true) ->
    exists out p hs,
      sweep value mode secs prev = Ok (out, p) /\ run prev p out hs /\ p <= B /\ incl hs secs /\
      forall r, In r secs -> fst r < prev \/ exists c, In c hs /\ covers c r.
  Proof.
    induction secs as [|[s f] rest IH]; intros prev Hp HB Hs Hin Hlam.
    { exists [], prev, []. split; [reflexivity|]. split; [apply run_nil; lia|]. split; [lia|].
      split; [apply incl_refl | intros r []]. }
    inversion Hs as [|x l Hs' Hfa]; subst. rewrite Forall_forall in Hfa.
    pose proof (Hin (s, f) (or_introl eq_refl)) as Hsf. cbn [fst snd] in Hsf.
    assert (IH' := fun p Hp => IH p Hp HB Hs' (fun r Hr => Hin r (or_intror Hr))
                             (fun a b Ha Hb => Hlam a b (or_intror Ha) (or_intror Hb))).
    cbn [sweep]. destruct (s <? prev) eqn:E.
    - destruct (IH' prev Hp) as (out & p & hs & Hsw & Hrun & HpB & Hincl & Hcov). exists out, p, hs.
      split; [exact Hsw|]. split; [exact Hrun|]. split; [exact HpB|]. split; [now apply incl_tl|].
      intros r [<- | Hr]; [left; cbn [fst]; lia | now apply Hcov].
    - destruct (IH' f) as (out & p & hs & Hsw & Hrun & HpB & Hincl & Hcov); [lia|].
      destruct (slice_ok_ex value prev s) as (gap & Egap & _); [lia | lia |].
      destruct (slice_ok_ex value s f) as (secret & Esecret & _); [lia | lia |].
      exists (gap ++ repl mode secret ++ out), p, ((s, f) :: hs).
      rewrite Egap, (mask_section_ok _ _ _ Esecret), Hsw. split; [reflexivity|].
      split; [exact (run_app _ _ _ _ _ _ _ (run_keep _ _ _ Egap) (run_app _ _ _ _ _ _ _ (run_hide _ _ _ Esecret) Hrun))|].
      split; [exact HpB|]. split; [apply incl_cons; [now left | now apply incl_tl]|].
      intros r [<- | Hr]; right; [exists (s, f); split; [now left | unfold covers; lia]|].
      destruct (Hcov r Hr) as [Hlt | (c & Hc & Hcv)]; [|exists c; split; [now right | exact Hcv]].
      (* r starts inside (s, f) and sorts after it: nested in it *)
      exists (s, f). split; [now left|].
      pose proof (Hfa r Hr) as Hle. pose proof (Hlam (s, f) r (or_introl eq_refl) (or_intror Hr)) as Hl.
      pose proof (Hin r (or_intror Hr)). unfold covers, sec_le, sec_before, laminar in *. cbn [fst snd] in *. lia.
  Qed.
End Run.

(* r is the range of a selected group that took part in the match [index] *)
Definition sel_in (index groups : list Z) (r : sec) : Prop :=
  exists g, In g groups /\ idx index (g * 2) = Ok (fst r) /\ idx index (g * 2 + 1) = Ok (snd r) /\
            0 <= fst r /\ 0 <= snd r.

Lemma selected_cons index idxs groups r :
  selected (index :: idxs) groups r <-> sel_in index groups r \/ selected idxs groups r.
Proof.
  split.
  - intros (ix & g & [<- | Hix] & H); [left; now exists g | right; now exists ix, g].
  - intros [(g & H) | (ix & g & Hix & H)]; [exists index, g | exists ix, g]; (split; [cbn [In]; auto | exact H]).
Qed.

Lemma pairs_of_nth : forall n l a b,
  nth_error l (2 * n) = Some a -> nth_error l (2 * n + 1) = Some b -> In (a, b) (pairs_of l).
Proof.
  induction n as [|n IH]; intros l a b Ha Hb.
  - destruct l as [|x [|y r]]; try discriminate. cbn in Ha, Hb. injection Ha as ->. injection Hb as ->. now left.
  - replace (2 * S n)%nat with (S (S (2 * n))) in Ha, Hb by lia.
    destruct l as [|x [|y r]]; try discriminate. right. exact (IH r a b Ha Hb).
Qed.

Lemma sel_in_pairs index groups r :
  (forall g, In g groups -> 0 <= g) -> sel_in index groups r -> In r (pairs_of index) /\ 0 <= fst r.
Proof.
  intros Hg (g & Hgi & Ha & Hb & H0 & _). split; [|exact H0]. apply Hg in Hgi.
  apply idx_inv in Ha as [_ Ha]. apply idx_inv in Hb as [_ Hb]. destruct r as [a b].
  apply (pairs_of_nth (Z.to_nat g)).
  - now replace (2 * Z.to_nat g)%nat with (Z.to_nat (g * 2)) by lia.
  - now replace (2 * Z.to_nat g + 1)%nat with (Z.to_nat (g * 2 + 1)) by lia.
Qed.

Lemma index_wf_facts vlen nsub prev index :
  index_wf vlen nsub prev index = true ->
  len index = 2 * (nsub + 1) /\
  exists m rest, pairs_of index = m :: rest /\ prev <= fst m /\ fst m <= snd m /\ snd m <= vlen /\
    (forall p, In p (pairs_of index) -> 0 <= fst p -> inside m p = true) /\
    (forall a b, In a (pairs_of index) -> In b (pairs_of index) -> 0 <= fst a -> 0 <= fst b -> laminar a b = true).
Proof.
  unfold index_wf. destruct (pairs_of index) as [|m rest]; [now rewrite andb_false_r|].
  intros H. apply andb_prop in H as [Hl H]. repeat (apply andb_prop in H as [H ?]). rewrite forallb_forall in *.
  split; [lia|]. exists m, rest. repeat split; try lia.
  - intros p Hp Hpos. specialize (H1 p Hp). unfold unmatched in H1. lia.
  - intros a b Ha Hb Ha0 Hb0. specialize (H0 a Ha). unfold unmatched in H0.
    apply orb_prop in H0 as [H0|H0]; [lia|]. rewrite forallb_forall in H0. specialize (H0 b Hb). lia.
Qed.

Lemma collect_spec index nsub : forall groups,
  len index = 2 * (nsub + 1) -> groups_ok nsub groups ->
  exists secs, collect index groups = Ok secs /\ forall r, In r secs <-> sel_in index groups r.
Proof.
  induction groups as [|g gs IH]; intros Hl Hg.
  - exists []. split; [reflexivity|]. intros r; split; [intros [] | intros (g & [] & _)].
  - destruct IH as (secs & Hc & Hin); [assumption | intros x Hx; apply Hg; now right |].
    assert (Hg0 : 0 <= g <= nsub) by (apply Hg; now left).
    destruct (idx_ok_ex index (g * 2)) as (s & Hs); [lia|].
    destruct (idx_ok_ex index (g * 2 + 1)) as (f & Hf); [lia|].
    cbn [collect]. rewrite Hs, Hf, Hc. cbn [bind]. eexists; split; [reflexivity|].
    intros [a b]. unfold sel_in in *. cbn [fst snd] in *. split.
    + destruct ((s <? 0) || (f <? 0)) eqn:E; [|intros [Hr | Hr]].
      * intros Hr. apply Hin in Hr as (g' & Hg' & H). exists g'. split; [now right | exact H].
      * injection Hr as <- <-. exists g. repeat split; try assumption; try lia. now left.
      * apply Hin in Hr as (g' & Hg' & H). exists g'. split; [now right | exact H].
    + intros (g' & [<- | Hg'] & H1 & H2 & H3 & H4).
      * rewrite Hs in H1. rewrite Hf in H2. injection H1 as <-. injection H2 as <-.
        replace ((s <? 0) || (f <? 0)) with false by lia. now left.
      * assert (In (a, b) secs) by (apply Hin; exists g'; auto). destruct (_ || _); [assumption | now right].
Qed.

Lemma match_facts vlen nsub lo index rest groups :
  re_wf_from vlen nsub lo (index :: rest) = true -> groups_ok nsub groups ->
  exists secs hi,
    collect index groups = Ok secs /\ (forall r, In r secs <-> sel_in index groups r) /\
    lo <= hi <= vlen /\ re_wf_from vlen nsub hi rest = true /\
    (forall r, In r secs -> lo <= fst r /\ fst r <= snd r /\ snd r <= hi) /\
    (forall a b, In a secs -> In b secs -> laminar a b = true).
Proof.
  intros Hwf Hg. cbn [re_wf_from] in Hwf. apply andb_prop in Hwf as [Hwi Hwr].
  destruct (index_wf_facts _ _ _ _ Hwi) as (Hl & m & ms & Hp & H1 & H2 & H3 & Hin & Hlam). rewrite Hp in Hwr.
  destruct (collect_spec index nsub groups Hl Hg) as (secs & Hc & Hchar).
  assert (Hpair : forall r, In r secs -> In r (pairs_of index) /\ 0 <= fst r).
  { intros r Hr. apply Hchar in Hr. revert Hr. apply sel_in_pairs. intros g Hgi. now apply Hg in Hgi. }
  exists secs, (snd m). split; [exact Hc|]. split; [exact Hchar|]. split; [lia|]. split; [exact Hwr|]. split.
  - intros r Hr. destruct (Hpair r Hr) as [Hpi H0]. specialize (Hin r Hpi H0). unfold inside in Hin. lia.
  - intros a b Ha Hb. destruct (Hpair a Ha), (Hpair b Hb). now apply Hlam.
Qed.

(* two positions: the remaining matches lie from [lo] on (the end of the previous match, re_wf_from); [prev] is prevFinish, the end
   of the last hidden section, and stays behind when the previous match ends after its last selected group *)
Lemma matches_loop_spec value mode groups nsub : forall idxs lo prev,
  groups_ok nsub groups -> re_wf_from (len value) nsub lo idxs = true -> 0 <= prev <= lo -> lo <= len value ->
  exists out p hs,
    matches_loop value mode groups idxs prev = Ok (out, p) /\ run value mode prev p out hs /\
    (forall c, In c hs -> selected idxs groups c) /\
    (forall r, selected idxs groups r -> exists c, In c hs /\ covers c r).
Proof.
  induction idxs as [|index rest IH]; intros lo prev Hg Hwf Hp Hlo.
  - exists [], prev, []. split; [reflexivity|]. split; [apply run_nil; lia|].
    split; [intros c [] | intros r (ix & g & [] & _)].
  - destruct (match_facts _ _ _ _ _ _ Hwf Hg) as (secs & hi & Hc & Hsel & Hhi & Hwf' & Hin & Hlam).
    pose proof (fun r Hr => Hin r (proj1 (sort_secs_in r secs) Hr)) as HinS.
    destruct (sweep_spec value mode hi (sort_secs secs) prev) as (o1 & p1 & h1 & Hs1 & Hr1 & Hp1 & Hincl & Hcov1);
      [lia | lia | apply sort_secs_sorted | intros r Hr; specialize (HinS r Hr); lia
       | intros a b Ha Hb; apply Hlam; now apply sort_secs_in |].
    assert (prev <= p1) by (destruct Hr1 as (? & Hsl & _); apply slice_inv in Hsl; lia).
    destruct (IH hi p1 Hg Hwf') as (o2 & p2 & h2 & Hs2 & Hr2 & Hsel2 & Hcov2); [lia | lia |].
    exists (o1 ++ o2), p2, (h1 ++ h2).
    split; [cbn [matches_loop]; rewrite Hc; cbn [bind]; rewrite Hs1; cbn [bind]; now rewrite Hs2|].
    split; [exact (run_app _ _ _ _ _ _ _ _ _ Hr1 Hr2)|]. split.
    + intros c Hc'. apply selected_cons. apply in_app_or in Hc' as [Hc' | Hc']; [left | right; now apply Hsel2].
      apply Hsel, sort_secs_in, Hincl, Hc'.
    + intros r Hr. apply selected_cons in Hr as [Hr | Hr].
      * apply Hsel, sort_secs_in in Hr. destruct (Hcov1 r Hr) as [Hlt | (c & Hc' & Hcov)]; [apply HinS in Hr; lia|].
        exists c. split; [apply in_or_app; now left | exact Hcov].
      * destruct (Hcov2 r Hr) as (c & Hc' & Hcov). exists c. split; [apply in_or_app; now right | exact Hcov].
Qed.

Definition re_wf (vlen nsub : Z) (idxs : list (list Z)) : Prop := re_wf_b vlen nsub idxs = true.

Lemma mask_value_nomatch value groups mode : mask_value value [] groups mode = Ok None.
Proof. reflexivity. Qed.

Theorem mask_value_spec : forall value nsub idxs groups mode,
  re_wf (len value) nsub idxs -> groups_ok nsub groups -> idxs <> [] ->
  exists segs,
    mask_value value idxs groups mode = Ok (Some (masked mode segs)) /\
    orig segs = value /\
    (forall r, In r (hidden_ranges 0 segs) -> selected idxs groups r) /\
    (forall r, selected idxs groups r -> exists c, In c (hidden_ranges 0 segs) /\ covers c r).
Proof.
  intros value nsub idxs groups mode Hwf Hg Hne.
  unfold re_wf, re_wf_b in Hwf. apply andb_prop in Hwf as [_ Hwf]. pose proof (len_nonneg value) as Hlen.
  destruct (matches_loop_spec value mode groups nsub idxs 0 0 Hg Hwf) as (body & p & hs & Hs & Hrun & Hsel & Hcov);
    [lia | lia |].
  assert (Hp : 0 <= p <= len value) by (destruct Hrun as (? & Hsl & _); apply slice_inv in Hsl; lia).
  destruct (slice_ok_ex value p (len value)) as (tail & Et & _); [lia | lia |].
  (* the tail value[prevFinish:] is kept *)
  destruct (run_app _ _ _ _ _ _ _ _ _ Hrun (run_keep _ mode _ _ _ Et)) as (segs & Hsl & Hout & Hhs).
  rewrite app_nil_r in Hhs. subst hs. rewrite slice_all in Hsl. injection Hsl as Ho.
  exists segs. split; [|split; [now symmetry | split; assumption]].
  unfold mask_value. destruct idxs; [congruence|]. rewrite Hs. cbn [bind]. unfold slice_from.
  now rewrite Et, <- Hout.
Qed.

Theorem mask_value_total : forall value nsub idxs groups mode,
  re_wf (len value) nsub idxs -> groups_ok nsub groups ->
  is_panic (mask_value value idxs groups mode) = false.
Proof.
  intros value nsub idxs groups mode Hwf Hg. destruct idxs as [|i0 ir] eqn:E; [reflexivity|].
  destruct (mask_value_spec value nsub idxs groups mode) as (segs & H & _); subst; try assumption; [discriminate|].
  now rewrite H.
Qed.

(* r <> None is the boolean maskValue returns, locApplied in processMask (mask.go) *)
Lemma mask_value_applied_iff value nsub idxs groups mode r :
  re_wf (len value) nsub idxs -> groups_ok nsub groups ->
  mask_value value idxs groups mode = Ok r -> (r <> None <-> idxs <> []).
Proof.
  (* the shape of mask_value decides this: without a match it answers None at once, with one it can only answer
     Some.  The two hypotheses are what makes it answer at all ([mask_value_total]) *)
  intros _ _ H. destruct idxs as [|i0 ir]; cbn [mask_value] in H; [injection H as <-; split; congruence|].
  destruct (matches_loop _ _ _ _ _) as [[body prev]| |]; try discriminate. cbn [bind] in H.
  destruct (slice_from value prev); try discriminate. injection H as <-. split; discriminate.
Qed.

(* the part of the data a prefix / suffix rule compares with a value of length n *)
Definition affix (md : rmode) (n : nat) (l : bytes) : bytes :=
  match md with RSuffix => skipn (length l - n) l | _ => firstn n l end.

Lemma affix_slice md (l : bytes) n :
  0 <= n <= len l ->
  match md with RSuffix => slice_from l (len l - n) | _ => slice_to l n end = Ok (affix md (Z.to_nat n) l).
Proof.
  intros H. unfold affix. destruct md; [apply slice_to_ok; lia | apply slice_to_ok; lia |].
  rewrite slice_from_ok by lia. do 2 f_equal. unfold len. lia.
Qed.

Lemma affix_length md n l : (n <= length l)%nat -> length (affix md n l) = n.
Proof. intros H. unfold affix. destruct md; rewrite ?firstn_length, ?skipn_length; lia. Qed.

Lemma affix_affix md a n l : (a <= n <= length l)%nat -> affix md a (affix md n l) = affix md a l.
Proof.
  intros H. unfold affix. destruct md; [rewrite firstn_firstn; f_equal; lia | rewrite firstn_firstn; f_equal; lia |].
  rewrite skipn_plus, skipn_length. f_equal. lia.
Qed.

Lemma affix_to_lower md n l : affix md n (to_lower l) = to_lower (affix md n l).
Proof. unfold affix, to_lower. rewrite map_length. destruct md; [apply firstn_map | apply firstn_map | apply skipn_map]. Qed.

Lemma affix_test_affix md data v : md <> RContains ->
  affix_test md data v = (len v <=? len data) && bytes_eqb (affix md (length v) data) v.
Proof. destruct md; [reflexivity | congruence | reflexivity]. Qed.

Lemma affix_loop_spec md cut : md <> RContains -> forall vs,
  affix_loop md cut vs = Ok (existsb (affix_test md cut) vs).
Proof.
  intros Hmd. induction vs as [|v r IH]; cbn [affix_loop existsb]; [reflexivity|]. pose proof (len_nonneg v).
  rewrite affix_test_affix, IH by exact Hmd. destruct (len cut <? len v) eqn:E.
  - now replace (len v <=? len cut) with false by lia.
  - replace (len v <=? len cut) with true by lia. rewrite affix_slice by lia. cbn [bind andb].
    unfold len at 1. rewrite Nat2Z.id. now destruct (bytes_eqb _ v).
Qed.

(* only the first / last n bytes matter to a value of at most n bytes *)
Lemma affix_test_cut md n data v : md <> RContains -> (length v <= n <= length data)%nat ->
  affix_test md (affix md n data) v = affix_test md data v.
Proof.
  intros Hmd Hn. rewrite !affix_test_affix, affix_affix by (exact Hmd || lia).
  unfold len. rewrite affix_length by lia. f_equal. lia.
Qed.

(* Rule.Prepare: every value's length lies between the two bounds *)
Lemma prepare_bounds r :
  0 <= p_max (prepare r) /\ forall v, In v (p_values (prepare r)) -> p_min (prepare r) <= len v <= p_max (prepare r).
Proof.
  cbn [prepare p_min p_max p_values]. set (vs := if r_ci r then _ else _).
  set (l0 := match vs with v :: _ => len v | [] => 0 end).
  destruct (fold_pick_below len Z.min Z.le Z.le_refl Z.le_trans Z.le_min_l Z.le_min_r vs l0) as [_ Hmin].
  destruct (fold_pick_below len Z.max (fun a b => b <= a) Z.le_refl (fun a b c H1 H2 => Z.le_trans c b a H2 H1)
              Z.le_max_l Z.le_max_r vs l0) as [Hm0 Hmax]. cbv beta in Hm0, Hmax.
  assert (0 <= l0) by (unfold l0; destruct vs; [lia | apply len_nonneg]).
  split; [lia|]. intros v Hv. specialize (Hmin v Hv). specialize (Hmax v Hv). lia.
Qed.

Lemma rule_match_prepare r raw : rule_match (prepare r) raw = Ok (rule_spec r raw).
Proof.
  unfold rule_match, rule_spec. destruct (prepare_bounds r) as [H0 Hb].
  change (if r_ci r then map to_lower (r_values r) else r_values r) with (p_values (prepare r)).
  set (data := if r_ci r then to_lower raw else raw).
  enough (Hraw : rule_match_raw (prepare r) raw = Ok (existsb (affix_test (r_mode r) data) (p_values (prepare r)))).
  { rewrite Hraw. cbn [bind p_invert prepare]. now destruct (r_invert r), (existsb _ _). }
  assert (Hdl : length data = length raw).
  { unfold data, to_lower. destruct (r_ci r); [apply map_length | reflexivity]. }
  unfold rule_match_raw. change (p_mode (prepare r)) with (r_mode r). change (p_ci (prepare r)) with (r_ci r).
  set (p := prepare r) in *. pose proof (len_nonneg raw).
  destruct (len raw <? p_min p) eqn:Emin.
  { (* shorter than every value *)
    f_equal. symmetry. apply not_true_iff_false. intros Hex. apply existsb_exists in Hex as (v & Hv & Ht).
    unfold affix_test in Ht. specialize (Hb v Hv). unfold len in *. lia. }
  assert (Haffix : r_mode r <> RContains ->
            (cut <- (if len raw <? p_max p then Ok raw
                     else match r_mode r with RSuffix => slice_from raw (len raw - p_max p) | _ => slice_to raw (p_max p) end) ;;
             affix_loop (r_mode r) (if r_ci r then to_lower cut else cut) (p_values p))
            = Ok (existsb (affix_test (r_mode r) data) (p_values p))).
  { intros Hmd. destruct (len raw <? p_max p) eqn:Emax; cbn [bind]; [now apply affix_loop_spec|].
    rewrite affix_slice by lia. cbn [bind]. rewrite affix_loop_spec by exact Hmd. f_equal. set (n := Z.to_nat (p_max p)).
    replace (if r_ci r then to_lower (affix (r_mode r) n raw) else affix (r_mode r) n raw)
      with (affix (r_mode r) n data) by (unfold data; destruct (r_ci r); [apply affix_to_lower | reflexivity]).
    apply existsb_ext_in. intros v Hv. specialize (Hb v Hv). apply affix_test_cut; [exact Hmd | unfold len in *; lia]. }
  destruct (r_mode r); [apply Haffix; discriminate | | apply Haffix; discriminate].
  fold data. f_equal. apply existsb_ext_in. intros v _. unfold affix_test, len. rewrite Hdl. f_equal. lia.
Qed.

Definition rules_ok (rss : list pruleset) : Prop :=
  forall rs p, In rs rss -> In p (snd rs) -> exists r, p = prepare r.

Lemma rs_loop_ok is_or data : forall rules,
  (forall p, In p rules -> exists r, p = prepare r) -> exists b, rs_loop is_or rules data = Ok b.
Proof.
  induction rules as [|p rest IH]; intros H; cbn [rs_loop]; [eauto|].
  destruct (H p (or_introl eq_refl)) as [r ->]. rewrite rule_match_prepare. cbn [bind].
  destruct (_ && is_or); [eauto|]. destruct (_ && negb is_or); [eauto|].
  apply IH. intros q Hq. apply H. now right.
Qed.

Lemma check_match_rules_ok rss data : rules_ok rss -> exists b, check_match_rules rss data = Ok b.
Proof.
  intros H. unfold check_match_rules. destruct rss as [|rs0 rest0]; [eauto|].
  remember (rs0 :: rest0) as rss eqn:E. clear E.
  induction rss as [|rs rest IH]; cbn [any_ruleset]; [eauto|].
  assert (Hrs : exists b, ruleset_match rs data = Ok b).
  { unfold ruleset_match. destruct (snd rs) as [|r0 rr] eqn:E; [eauto|].
    rewrite <- E. apply rs_loop_ok. intros p Hp. apply (H rs p); [now left | assumption]. }
  destruct Hrs as [m ->]. cbn [bind]. destruct m; [eauto|].
  apply IH. intros rs' p Hrs' Hp. apply (H rs' p); [now right | assumption].
Qed.

Definition cmask_ok (k : cmask) : Prop :=
  (k_apply k = true -> groups_ok (k_nsub k) (k_groups k)) /\ rules_ok (k_rules k).

Lemma compile_mask_sat m : sat True (compile_mask m) cmask_ok.
Proof.
  unfold compile_mask. destruct (negb (m_re m) && is_nil (m_rules m)); [exact I|].
  apply post_bind with (P := fun gs => m_re m = true -> groups_ok (m_nsub m) gs).
  { destruct (m_re m); [|discriminate]. eapply post_weaken; [apply verify_groups_sat | auto]. }
  intros gs Hgs. destruct (existsb _ (m_rules m)); [exact I|].
  destruct (negb (is_nil (m_ign m)) && negb (is_nil (m_proc m))); [exact I|].
  destruct (existsb is_nil (m_ign m) || existsb is_nil (m_proc m)); [exact I|].
  split; cbn [k_apply k_nsub k_groups k_rules].
  - intros Ha. apply Hgs. now destruct (m_re m).
  - intros rs p Hrs Hp. apply in_map_iff in Hrs as (rs0 & <- & _). cbn [snd] in Hp.
    apply in_map_iff in Hp as (r & <- & _). now exists r.
Qed.

Lemma compile_masks_sat : forall ms, sat True (compile_masks ms) (Forall cmask_ok).
Proof.
  induction ms as [|m r IH]; cbn [compile_masks]; [constructor|].
  eapply post_bind; [apply compile_mask_sat|]. intros k Hk.
  eapply post_bind; [apply IH|]. intros ks Hks. now constructor.
Qed.

(* all that is kept of the answer: the test for an empty path (cfg.ParseNestedFields: empty path parsed) leaves none among the
   global process paths, which fast_loop_sat needs (a step of the fast path puts the value back at a non-empty path) *)
Lemma gather_fields_sat cfg : sat True (gather_fields cfg) (fun _ => ~ In [] (c_proc cfg)).
Proof.
  unfold gather_fields. destruct (negb (is_nil (c_ign cfg)) && negb (is_nil (c_proc cfg))); [exact I|].
  destruct (existsb is_nil (c_ign cfg) || existsb is_nil (c_proc cfg)) eqn:E; [exact I|]. intros Hin.
  apply orb_false_elim in E as [_ E]. rewrite <- not_true_iff_false in E. apply E.
  apply existsb_exists. exists []. split; [assumption | reflexivity].
Qed.

(* the inner loops of traverse, named.  They must stay textually the anonymous fixes of Model.traverse: traverse_arr and
   traverse_obj below hold by reflexivity only *)
Section Loops.
  Variable inh : bool.
  Variable fl : fields.
  Variable trav : option fmnode -> json -> res tres.
  Variable fm : option fmnode.

  Fixpoint arr_go (i : nat) (l : list json) : res (list json * list nat) :=
    match l with
    | [] => Ok ([], [])
    | x :: r =>
        '(x', _, f1) <- trav (next_fm inh fm (itoa i)) x ;;
        '(r', f2) <- arr_go (S i) r ;;
        Ok (x' :: r', f1 ++ f2)
    end.

  Fixpoint obj_go (fs : list (bytes * json)) : res (list (bytes * json) * list nat) :=
    match fs with
    | [] => Ok ([], [])
    | (k, x) :: r =>
        '(x', f1) <- (match field_next inh fl fm k with
                      | None => Ok (x, [])
                      | Some nx => '(x', _, f1) <- trav nx x ;; Ok (x', f1)
                      end) ;;
        '(r', f2) <- obj_go r ;;
        Ok ((k, x') :: r', f1 ++ f2)
    end.
End Loops.

Definition fields_shape (fs fs' : list (bytes * json)) : Prop :=
  Forall2 (fun a b => fst a = fst b /\ same_shape (snd a) (snd b)) fs fs'.

Section Tree.
  Variable inh : bool.
  Variable masks : list cmask.
  Variable fl : fields.
  Variable oracle : nat -> bytes -> res (list (list Z)).

  Notation trav := (traverse inh masks fl oracle).

  Lemma traverse_arr fm l :
    trav fm (JArr l) = ('(l', fired) <- arr_go inh trav fm 0 l ;; Ok (JArr l', false, fired)).
  Proof. reflexivity. Qed.

  Lemma traverse_obj fm fs :
    trav fm (JObj fs) = ('(fs', fired) <- obj_go inh fl trav fm fs ;; Ok (JObj fs', false, fired)).
  Proof. reflexivity. Qed.

  (* what holds of a mask j that is reported (necessary conditions; pm_report has In j fired -> fire_cond, no converse): it is in
     force at the node, its match rules accept the node's value, and - when it has a regexp with groups - the oracle of mask j
     returned a non-empty match list on SOME bytes src: src is not tied to the value (in pm_loop it is the value as left by the
     masks before j) *)
  Definition fire_cond (fm : option fmnode) (orig : bytes) (j : nat) : Prop :=
    exists k, nth_error masks j = Some k /\ applicable fl k j fm = true /\
              check_match_rules (k_rules k) orig = Ok true /\
              (k_apply k = true -> exists src idxs, oracle j src = Ok idxs /\ idxs <> []).

  (* has one of the reported masks a regexp with groups: then the value has been rewritten *)
  Definition rewrites (fired : list nat) : bool :=
    existsb (fun j => match nth_error masks j with Some k => k_apply k | None => false end) fired.

  (* the state of the loop: every mask reported so far met [fire_cond]; [upd] is [rewrites] of them; while none
     is reported the value is the node's own *)
  Definition pm_inv (fm : option fmnode) (orig src : bytes) (upd : bool) (fired : list nat) : Prop :=
    Forall (fire_cond fm orig) fired /\ upd = rewrites fired /\ (fired = [] -> src = orig).

  (* what processMask reports for a node with value [s] *)
  Definition pm_report (fm : option fmnode) (s : bytes) (r : bytes * bool * list nat) : Prop :=
    let '(out, upd, fired) := r in
    (forall j, In j fired -> fire_cond fm s j) /\
    (upd = true <-> exists j k, In j fired /\ nth_error masks j = Some k /\ k_apply k = true) /\
    (fired = [] -> out = s /\ upd = false).

  Lemma pm_inv_out fm s out upd f : pm_inv fm s out upd f -> pm_report fm s (out, upd, rev f).
  Proof.
    intros (H1 & -> & H3). split; [apply Forall_forall, Forall_rev, H1|]. split.
    - unfold rewrites. rewrite existsb_exists. split.
      + intros (j & Hj & H). destruct (nth_error masks j) as [k|] eqn:E; [|discriminate]. exists j, k. now rewrite <- in_rev.
      + intros (j & k & Hj & Hk & Ha). exists j. rewrite Hk. split; [now apply in_rev | exact Ha].
    - intros Hn. apply (f_equal (@rev _)) in Hn. rewrite rev_involutive in Hn. subst f. split; [now apply H3 | reflexivity].
  Qed.

  (* nothing panics when the masks are as compile_masks leaves them and the regexp engine returns *)
  Definition safe_run : Prop := Forall cmask_ok masks /\ forall i b, is_panic (oracle i b) = false.

  (* [ms] is what is left of [masks]: its entries are those of [masks] from position i on (first hypothesis) *)
  Lemma pm_loop_sat : forall ms i fm orig src upd fired,
    (forall n k, nth_error ms n = Some k -> nth_error masks (i + n) = Some k) ->
    pm_inv fm orig src upd fired ->
    sat safe_run (pm_loop fl oracle i ms fm orig src upd fired) (fun '(out, upd', fired') => pm_inv fm orig out upd' fired').
  Proof.
    induction ms as [|k r IH]; intros i fm orig src upd fired Hm Hinv; [exact Hinv|].
    assert (Hm' : forall n k0, nth_error r n = Some k0 -> nth_error masks (S i + n) = Some k0).
    { intros n k0 Hn. replace (S i + n)%nat with (i + S n)%nat by lia. now apply Hm. }
    assert (Hk : nth_error masks i = Some k) by (rewrite <- (Nat.add_0_r i); now apply Hm).
    assert (Hok : safe_run -> cmask_ok k).
    { intros [Hs _]. rewrite Forall_forall in Hs. eapply Hs, nth_error_In, Hk. }
    (* mask i is skipped, or it fires and the loop goes on with i reported *)
    cbn [pm_loop]. destruct (applicable fl k i fm) eqn:Ea; cbn [negb]; [|now apply IH].
    eapply post_bind.
    { apply post_self, sat_total. intros Hs. now destruct (check_match_rules_ok _ orig (proj2 (Hok Hs))) as [b ->]. }
    intros rm [Hrm _]. destruct rm; cbn [negb]; [|now apply IH].
    assert (Hfire : forall src', (k_apply k = true -> exists s idxs, oracle i s = Ok idxs /\ idxs <> []) ->
              pm_inv fm orig src' (k_apply k || upd) (i :: fired)).
    { intros src' Hre. destruct Hinv as (Hi1 & -> & _). split; [constructor; [now exists k | exact Hi1]|].
      split; [|discriminate]. unfold rewrites. cbn [existsb]. now rewrite Hk. }
    destruct (k_apply k) eqn:Eap; [|apply IH; [exact Hm' | apply Hfire; discriminate]].
    eapply post_bind; [apply post_self, sat_total; intros [_ Ho]; apply Ho|].
    intros idxs [Ho _]. destruct (re_wf_b (len src) (k_nsub k) idxs) eqn:Ewf; cbn [negb]; [|exact I].
    eapply post_bind.
    { apply post_self, sat_total. intros Hs. eapply mask_value_total; [exact Ewf | now apply (Hok Hs)]. }
    intros [out|] [Hmv _]; [|now apply IH]. apply IH; [exact Hm'|]. apply Hfire. intros _. exists src, idxs.
    (* mask_value returned a value, so the regexp matched *)
    split; [exact Ho | intros ->; discriminate].
  Qed.

  Lemma process_mask_sat fm s : sat safe_run (process_mask masks fl oracle fm s) (pm_report fm s).
  Proof.
    assert (Hinv0 : pm_inv fm s s false []) by (split; [constructor | auto]).
    unfold process_mask. destruct s as [|c s]; [exact (pm_inv_out _ _ _ _ [] Hinv0)|].
    eapply post_bind; [exact (pm_loop_sat masks 0 _ _ _ _ _ (fun n k H => H) Hinv0)|].
    intros [[o u] f]. apply pm_inv_out.
  Qed.

  Theorem process_mask_fired fm s out upd fired :
    process_mask masks fl oracle fm s = Ok (out, upd, fired) ->
    (forall j, In j fired -> fire_cond fm s j) /\
    (upd = true <-> exists j k, In j fired /\ nth_error masks j = Some k /\ k_apply k = true) /\
    (fired = [] -> out = s /\ upd = false).
  Proof. exact (post_ok _ _ (out, upd, fired) (process_mask_sat fm s)). Qed.

  (* what a walk returns: the skeleton is kept; nothing fired = nothing changed *)
  Definition trav_facts (v : json) (r : tres) : Prop :=
    let '(v', _, fired) := r in same_shape v v' /\ (fired = [] -> v' = v).

  Lemma leaf_sat fm v s : leaf_like v -> sat safe_run (leaf masks fl oracle fm v s) (trav_facts v).
  Proof.
    intros Hl. unfold leaf. eapply post_bind; [apply process_mask_sat|]. intros [[out upd] fired] (_ & _ & He). split.
    - destruct upd; [now apply SS_leaf | apply SS_refl].
    - intros Hnil. now destruct (He Hnil) as [_ ->].
  Qed.

  Lemma traverse_sat : forall v fm, sat safe_run (trav fm v) (trav_facts v).
  Proof.
    induction v as [| b | r | s | l IH | fs IH] using json_ind2; intros fm.
    1,2: split; [apply SS_refl | reflexivity].
    1,2: now apply leaf_sat.
    - rewrite traverse_arr.
      apply post_bind with (P := fun '(l', fired) => Forall2 same_shape l l' /\ (fired = [] -> l' = l)).
      2: { intros [l' fired] [Hs He]. split; [now apply SS_arr | intros Hnil; now rewrite He]. }
      generalize 0%nat. induction IH as [|x r Hx _ IH]; intros i; cbn [arr_go].
      + split; [constructor | reflexivity].
      + eapply post_bind; [apply Hx|]. intros [[x' u] f1] [Hs He].
        eapply post_bind; [apply IH|]. intros [r' f2] [Hs2 He2].
        split; [now constructor|]. intros Hnil. apply app_eq_nil in Hnil as [-> ->]. now rewrite He, He2.
    - rewrite traverse_obj.
      apply post_bind with (P := fun '(fs', fired) => fields_shape fs fs' /\ (fired = [] -> fs' = fs)).
      2: { intros [fs' fired] [Hs He]. split; [now apply SS_obj | intros Hnil; now rewrite He]. }
      induction IH as [|[k x] r Hx _ IH]; cbn [obj_go].
      + split; [constructor | reflexivity].
      + apply post_bind with (P := fun '(x', f1) => same_shape x x' /\ (f1 = [] -> x' = x)).
        { destruct (field_next inh fl fm k); [|split; [apply SS_refl | reflexivity]].
          eapply post_bind; [apply Hx|]. now intros [[x' u] f1] H. }
        intros [x' f1] [Hs He]. eapply post_bind; [apply IH|]. intros [r' f2] [Hs2 He2].
        split; [constructor; [cbn; auto | assumption]|].
        intros Hnil. apply app_eq_nil in Hnil as [-> ->]. now rewrite He, He2.
  Qed.
End Tree.

Lemma same_shape_leaf_inv v s : same_shape (JStr s) v -> exists s', v = JStr s'.
Proof. intros H. inversion H; subst; eauto. Qed.

Lemma same_shape_obj_inv a fs : same_shape a (JObj fs) -> exists fs0, a = JObj fs0.
Proof. intros H. inversion H; subst; eauto. Qed.

Lemma Forall2_trans_in {A} (R : A -> A -> Prop) : forall l,
  Forall (fun x => forall y z, R x y -> R y z -> R x z) l ->
  forall l' l'', Forall2 R l l' -> Forall2 R l' l'' -> Forall2 R l l''.
Proof.
  induction 1 as [|x l Hx Hl IH]; intros l' l'' H1 H2; inversion H1; subst; inversion H2; subst; constructor;
    [eapply Hx; eauto | eapply IH; eauto].
Qed.

Lemma same_shape_trans : forall a y z, same_shape a y -> same_shape y z -> same_shape a z.
Proof.
  (* a step a -> y that is not SS_refl fixes the shape of y: a string, an array, an object *)
  induction a as [| b | r | s | l IH | fs IH] using json_ind2; intros y z Hab Hbc; inversion Hab; subst; try exact Hbc;
    try (destruct (same_shape_leaf_inv _ _ Hbc) as [s' ->]; now apply SS_leaf);
    inversion Hbc; subst; try exact Hab; try contradiction.
  - apply SS_arr. eapply Forall2_trans_in; eauto.
  - apply SS_obj. eapply (Forall2_trans_in (fun a b => fst a = fst b /\ same_shape (snd a) (snd b))); eauto.
    eapply Forall_impl; [|exact IH]. intros [k v] Hv y z [E1 S1] [E2 S2].
    split; [congruence | eapply Hv; eauto].
Qed.

(* position of the first key equal to k *)
Fixpoint key_index (ks : list bytes) (k : bytes) (i : nat) : option nat :=
  match ks with
  | [] => None
  | k' :: r => if key_eqb k' k then Some i else key_index r k (S i)
  end.

Lemma field_index_keys : forall fs k i, field_index fs k i = key_index (map fst fs) k i.
Proof.
  induction fs as [|[k' v] r IH]; intros k i; cbn [field_index map fst key_index]; [reflexivity|].
  destruct (key_eqb k' k); [reflexivity | apply IH].
Qed.

Lemma key_index_app : forall ks ex k i j, key_index ks k i = Some j -> key_index (ks ++ ex) k i = Some j.
Proof.
  induction ks as [|k' r IH]; intros ex k i j H; cbn [key_index app] in *; [discriminate|].
  destruct (key_eqb k' k); [assumption | now apply IH].
Qed.

Lemma key_index_none : forall ks k i, key_index ks k i = None -> ~ In k ks.
Proof.
  induction ks as [|k' r IH]; intros k i H; cbn [key_index] in H; [intros []|].
  destruct (key_eqb k' k) eqn:E; [discriminate|].
  intros [-> | Hin]; [rewrite key_eqb_refl in E; discriminate | eapply IH; eauto].
Qed.

Lemma set_val_app a k v b v' : set_val (a ++ (k, v) :: b) (length a) v' = a ++ (k, v') :: b.
Proof. induction a as [|[k0 v0] a IH]; [reflexivity|]. cbn. rewrite IH. reflexivity. Qed.

(* the field overwritten is the first of that name, which is the one a lookup reads *)
Lemma write_field_get fs name value :
  field_get (fst (write_field fs name value)) name = Some (JStr value).
Proof.
  unfold write_field. pose proof (field_index_spec fs name 0) as S.
  destruct (field_index fs name 0) as [j|]; cbn [fst]; [|apply field_get_app_notin, S].
  destruct S as (a & v & b & -> & -> & Hn). rewrite set_val_app. apply field_get_app_notin, Hn.
Qed.

Lemma set_val_keys : forall fs i v, map fst (set_val fs i v) = map fst fs.
Proof.
  induction fs as [|[k x] r IH]; intros [|i] v; cbn [set_val map fst]; try reflexivity. now rewrite IH.
Qed.

Lemma set_val_nth : forall fs i v j,
  nth_error (set_val fs i v) j =
  if Nat.eqb i j then option_map (fun kv => (fst kv, v)) (nth_error fs i) else nth_error fs j.
Proof.
  induction fs as [|[k x] r IH]; intros [|i] v [|j]; cbn [set_val nth_error Nat.eqb option_map fst]; try reflexivity.
  - now destruct (Nat.eqb _ _).
  - apply IH.
Qed.

Lemma set_val_same : forall fs i k x, nth_error fs i = Some (k, x) -> set_val fs i x = fs.
Proof.
  induction fs as [|[k' x'] r IH]; intros [|i] k x H; cbn [set_val nth_error] in *; try discriminate.
  - now injection H as -> ->.
  - f_equal. eapply IH; eauto.
Qed.

Lemma fields_shape_refl fs : fields_shape fs fs.
Proof. induction fs; constructor; [split; [reflexivity | apply SS_refl] | assumption]. Qed.

Lemma set_val_shape : forall fs n k v v',
  nth_error fs n = Some (k, v) -> same_shape v v' -> fields_shape fs (set_val fs n v').
Proof.
  induction fs as [|[k' x'] r IH]; intros [|n] k v v' H Hs; cbn [set_val nth_error] in *; try discriminate.
  - injection H as -> ->. constructor; [cbn; auto | apply fields_shape_refl].
  - constructor; [split; [reflexivity | apply SS_refl] | eapply IH; eauto].
Qed.

(* what fast_loop does with a listed path: the value dug out at p is put back at p, rewritten within its shape *)
Lemma put_path_spec : forall p j x x', dig_path j p = Some x -> same_shape x x' ->
  same_shape j (put_path j p x') /\ (x' = x -> put_path j p x' = j).
Proof.
  induction p as [|k rest IH]; intros j x x' H Hs; cbn [put_path dig_path] in *.
  { injection H as ->. split; [exact Hs | auto]. }
  destruct j as [| | | |l|fs]; try discriminate.
  - destruct (atoi_pos k) as [n|]; [|discriminate]. destruct (nth_error l n) as [v|] eqn:E; [|discriminate].
    destruct (IH _ _ _ H Hs) as [IHs IHe]. split.
    + apply SS_arr. eapply (set_at_Forall2 same_shape SS_refl); eauto.
    + intros Hx. now rewrite (IHe Hx), (set_at_same _ _ _ E).
  - destruct (field_get fs k) as [v|] eqn:Hg; [|discriminate].
    destruct (field_index_of_get _ _ _ Hg) as (n & -> & Hn).
    destruct (IH _ _ _ H Hs) as [IHs IHe]. split.
    + apply SS_obj. eapply set_val_shape; eauto.
    + intros Hx. now rewrite (IHe Hx), (set_val_same _ _ _ _ Hn).
Qed.

Definition val_ok (names : list bytes) (k : bytes) (v0 v : json) : Prop :=
  same_shape v0 v \/ (In k names /\ exists s, v = JStr s).

Lemma val_ok_step names k v0 x x' : val_ok names k v0 x -> same_shape x x' -> val_ok names k v0 x'.
Proof.
  intros [Hs | (Hin & s & ->)] Hx.
  - left. eapply same_shape_trans; eauto.
  - right. split; [assumption|]. now apply same_shape_leaf_inv in Hx.
Qed.

Lemma root_frame_refl names fs : root_frame names fs fs.
Proof.
  exists []. rewrite app_nil_r. split; [reflexivity|]. split; [intros k []|].
  intros i k v v' H1 H2. rewrite H1 in H2. injection H2 as <-. left. apply SS_refl.
Qed.

Lemma root_frame_nth names fs0 fs i k v0 :
  root_frame names fs0 fs -> nth_error fs0 i = Some (k, v0) ->
  exists v, nth_error fs i = Some (k, v) /\ val_ok names k v0 v.
Proof.
  intros (extra & Hk & Hex & Hv) H0.
  assert (Hki : nth_error (map fst fs) i = Some k).
  { rewrite Hk. rewrite nth_error_app1; [|rewrite map_length; apply nth_error_Some; congruence].
    now rewrite nth_error_map, H0. }
  rewrite nth_error_map in Hki. destruct (nth_error fs i) as [[k' v]|] eqn:E; [|discriminate].
  injection Hki as ->. exists v. split; [reflexivity|]. eapply Hv; eauto.
Qed.

Lemma root_frame_length names fs0 fs : root_frame names fs0 fs -> (length fs0 <= length fs)%nat.
Proof.
  intros (extra & Hk & _). apply (f_equal (@length _)) in Hk. rewrite app_length, !map_length in Hk. lia.
Qed.

Lemma root_frame_set names fs0 fs i x' :
  root_frame names fs0 fs ->
  (forall k v0, nth_error fs0 i = Some (k, v0) -> val_ok names k v0 x') ->
  root_frame names fs0 (set_val fs i x').
Proof.
  intros (extra & Hk & Hex & Hv) Hx. exists extra. rewrite set_val_keys. split; [assumption|]. split; [assumption|].
  intros j k v v' H0 H1. rewrite set_val_nth in H1. destruct (Nat.eqb_spec i j) as [<- | Hne]; [|eapply Hv; eauto].
  destruct (nth_error fs i) as [[k' x]|]; [|discriminate]. injection H1 as <- <-. eapply Hx; eauto.
Qed.

Lemma root_frame_write names fs0 fs name value :
  root_frame names fs0 fs -> In name names ->
  root_frame names fs0 (fst (write_field fs name value)).
Proof.
  intros Hf Hn. unfold write_field. destruct (field_index fs name 0) as [j|] eqn:E; cbn [fst].
  - apply root_frame_set; [assumption|]. intros k v0 H0. right.
    destruct (root_frame_nth _ _ _ _ _ _ Hf H0) as (v & Hv & _).
    destruct (field_index_nth _ _ _ E) as (v1 & Hn1 & _).
    rewrite Hn1 in Hv. injection Hv as <- <-. eauto.
  - pose proof (root_frame_length _ _ _ Hf) as Hlen. destruct Hf as (extra & Hk & Hex & Hv). exists (extra ++ [name]).
    rewrite map_app, Hk, <- app_assoc. split; [reflexivity|]. split.
    + intros k Hin. apply in_app_or in Hin as [?|[<-|[]]]; auto.
    + intros i k v v' H0 H1. eapply Hv; [exact H0|].
      rewrite nth_error_app1 in H1; [assumption|].
      assert (i < length fs0)%nat by (apply nth_error_Some; congruence). lia.
Qed.

Lemma write_field_other fs name value cur kv :
  nth_error fs cur = Some kv -> snd (write_field fs name value) <> cur ->
  nth_error (fst (write_field fs name value)) cur = Some kv.
Proof.
  unfold write_field. destruct (field_index fs name 0) as [j|]; cbn [fst snd]; intros Hn Hne.
  - rewrite set_val_nth. now destruct (Nat.eqb_spec j cur).
  - rewrite nth_error_app1; [exact Hn | apply nth_error_Some; congruence].
Qed.

Lemma apply_marks_spec masks names :
  (forall i k, nth_error masks i = Some k -> is_nil (k_afield k) = false -> In (k_afield k) names) ->
  forall fired fs0 fs cur fs' hit,
    apply_marks masks fired fs cur = (fs', hit) -> root_frame names fs0 fs ->
    root_frame names fs0 fs' /\
    (hit = false -> forall kv, nth_error fs cur = Some kv -> nth_error fs' cur = Some kv).
Proof.
  intros Hnames. induction fired as [|i r IH]; intros fs0 fs cur fs' hit H Hf; cbn [apply_marks] in H.
  - injection H as <- <-. auto.
  - destruct (nth_error masks i) as [k|] eqn:Ek; [|now apply IH].
    destruct (is_nil (k_afield k)) eqn:En; [now apply IH|].
    pose proof (root_frame_write names fs0 fs _ (k_avalue k) Hf (Hnames _ _ Ek En)) as Hf1.
    pose proof (write_field_other fs (k_afield k) (k_avalue k) cur) as Hoth.
    destruct (write_field fs (k_afield k) (k_avalue k)) as [fs1 j]. cbn [fst snd] in *.
    destruct (apply_marks masks r fs1 cur) as [fs2 hit2] eqn:Er. injection H as <- <-.
    destruct (IH _ _ _ _ _ Er Hf1) as (Hf2 & Hno). split; [exact Hf2|].
    intros Hh kv Hn. apply orb_false_elim in Hh as [Hh1 Hh2]. apply Nat.eqb_neq in Hh1. auto.
Qed.

Section Root.
  Variable inh : bool.
  Variable masks : list cmask.
  Variable fl : fields.
  Variable oracle : nat -> bytes -> res (list (list Z)).
  Variable cfg : config.

  Notation trav := (traverse inh masks fl oracle).
  Notation names := (mark_names masks cfg).
  Notation safe := (safe_run masks oracle).

  Lemma afield_in_names : forall i k, nth_error masks i = Some k -> is_nil (k_afield k) = false -> In (k_afield k) names.
  Proof.
    intros i k Hk Hn. unfold mark_names. apply filter_In. split; [|now rewrite Hn].
    right. apply in_map. eapply nth_error_In; eauto.
  Qed.

  Lemma event_frame_refl root : event_frame names root root.
  Proof. destruct root; try apply SS_refl. eexists. split; [reflexivity | apply root_frame_refl]. Qed.

  Lemma root_loop_sat : forall todo i fm fs0 fs,
    root_frame names fs0 fs ->
    sat safe (root_loop inh masks fl oracle todo i fm fs)
        (fun '(fs', fired) => root_frame names fs0 fs' /\ (fired = [] -> fs' = fs)).
  Proof.
    induction todo as [|t IH]; intros i fm fs0 fs Hf; cbn [root_loop]; [now split|].
    destruct (nth_error fs i) as [[k x]|] eqn:En; [|now split].
    destruct (field_next inh fl fm k); [|now apply IH].
    eapply post_bind; [apply traverse_sat|]. intros [[x' upd] f1] [Hs Hq]. cbv beta iota.
    destruct (apply_marks masks f1 fs i) as [fs1 hit] eqn:Em.
    destruct (apply_marks_spec masks names afield_in_names _ _ _ _ _ _ Em Hf) as (Hf1 & _).
    assert (Hf2 : root_frame names fs0 (if negb hit || upd then set_val fs1 i x' else fs1)).
    { destruct (negb hit || upd); [|assumption]. apply root_frame_set; [assumption|].
      intros k0 v0 H0. destruct (root_frame_nth _ _ _ _ _ _ Hf H0) as (v & Hv & Hok).
      rewrite En in Hv. injection Hv as <- <-. eapply val_ok_step; eauto. }
    eapply post_bind; [exact (IH _ _ _ _ Hf2)|]. intros [fs3 f2] [Hf3 Hq3]. split; [exact Hf3|].
    intros Hnil. apply app_eq_nil in Hnil as [-> ->]. rewrite (Hq3 eq_refl), (Hq eq_refl).
    injection Em as <- <-. exact (set_val_same _ _ _ _ En).
  Qed.

  (* one listed path of the fast path: the marks, then the value dug out is put back.  The [match] is
     [fast_loop]'s own, so the lemma meets what [cbn [fast_loop]] leaves of a step. *)
  Lemma fast_step_frame root0 root p x x' upd fired :
    p <> [] -> event_frame names root0 root -> dig_path root p = Some x -> same_shape x x' ->
    let '(root1, hit) :=
      match root, p with
      | JObj fs, k :: _ =>
          match field_index fs k 0 with
          | Some cur => let '(fs1, hit) := apply_marks masks fired fs cur in (JObj fs1, hit)
          | None => (root, false)
          end
      | _, _ => (root, false)
      end in
    event_frame names root0 (if negb hit || (upd && Nat.eqb (length p) 1) then put_path root1 p x' else root1) /\
    (fired = [] -> root1 = root /\ hit = false).
  Proof.
    intros Hp Hinv Hdig Hs. destruct p as [|k rest]; [congruence|]. clear Hp.
    assert (Hput := fun j Hj => proj1 (put_path_spec (k :: rest) j x x' Hj Hs)).
    destruct root as [| | | |l|fs].
    1-5: split; [|auto]; cbn [negb orb]; destruct root0;
         try exact (same_shape_trans _ _ _ Hinv (Hput _ Hdig)); destruct Hinv as (? & ? & _); discriminate.
    (* the first field named k: [n] is its position, [v] its value before the marks *)
    cbn [dig_path] in Hdig. destruct (field_get fs k) as [v|] eqn:Hg; [|discriminate].
    destruct (field_index_of_get _ _ _ Hg) as (n & Ecur & Hn).
    rewrite Ecur. destruct (apply_marks masks fired fs n) as [fs1 hit'] eqn:Ea.
    split; [|intros ->; cbn in Ea; now injection Ea as <- <-].
    destruct root0 as [| | | |l0|fs0]; try (apply same_shape_obj_inv in Hinv as (? & ?); discriminate).
    destruct Hinv as (fs_ & Efs & Hf). injection Efs as <-.
    destruct (apply_marks_spec masks names afield_in_names _ _ _ _ _ _ Ea Hf) as (Hf1 & Hno).
    destruct (apply_marks_spec masks names afield_in_names _ fs _ _ _ _ Ea (root_frame_refl names fs)) as ((ex & Hkeys & _) & _).
    cbn [event_frame]. destruct (negb hit' || _) eqn:Eset; [|eauto].
    assert (Ecur1 : field_index fs1 k 0 = Some n).
    { rewrite field_index_keys, Hkeys. apply key_index_app. now rewrite <- field_index_keys. }
    destruct (field_index_nth _ _ _ Ecur1) as (v1 & Hn1 & Hg1).
    cbn [put_path]. rewrite Ecur1, Hg1. eexists; split; [reflexivity|]. apply root_frame_set; [exact Hf1|].
    intros k0 v0 H0. destruct (root_frame_nth _ _ _ _ _ _ Hf H0) as (v2 & Hv2 & Hok).
    rewrite Hn in Hv2. injection Hv2 as <- <-. eapply val_ok_step; [exact Hok|]. destruct hit'.
    - (* a mark took the field: only a leaf that processMask rewrote is put back, over the mark *)
      cbn [negb orb] in Eset. apply andb_prop in Eset as [_ El]. destruct rest; [|discriminate].
      cbn [put_path dig_path] in *. now injection Hdig as <-.
    - rewrite (Hno eq_refl _ Hn) in Hn1. injection Hn1 as <-.
      exact (proj1 (put_path_spec _ _ _ _ Hdig Hs)).
  Qed.

  Lemma fast_loop_sat : forall paths root0 root,
    ~ In [] paths -> event_frame names root0 root ->
    sat safe (fast_loop inh masks fl oracle paths root)
        (fun '(root', fired) => event_frame names root0 root' /\ (fired = [] -> root' = root)).
  Proof.
    induction paths as [|p rest IH]; intros root0 root Hne Hinv; [now split|].
    cbn [fast_loop].
    assert (Hne' : ~ In [] rest) by (intros Hc; apply Hne; now right).
    destruct (dig_path root p) as [x|] eqn:Hdig; [|now apply IH].
    eapply post_bind; [apply traverse_sat|]. intros [[x' upd] f1] [Hs Hq]. cbv beta iota.
    assert (Hp : p <> []) by (intros ->; apply Hne; now left).
    pose proof (fast_step_frame root0 root p x x' upd f1 Hp Hinv Hdig Hs) as Hstep.
    destruct (match root with JObj _ => _ | _ => _ end) as [root1 hit]. destruct Hstep as [Hstep Hno].
    eapply post_bind; [exact (IH _ _ Hne' Hstep)|]. intros [root3 f2] [Hf3 Hq3]. split; [exact Hf3|].
    (* nothing fired: no mark, and what was dug out is put back *)
    intros Hnil. apply app_eq_nil in Hnil as [-> ->]. rewrite (Hq3 eq_refl), (Hq eq_refl).
    destruct (Hno eq_refl) as [-> ->]. exact (proj2 (put_path_spec _ _ _ _ Hdig (SS_refl x)) eq_refl).
  Qed.

  Lemma do_event_sat root :
    ~ In [] (c_proc cfg) ->
    sat safe (do_event inh masks fl oracle cfg root)
        (fun '(root', fired) =>
           event_frame names root root' /\ (fired = [] -> root' = root) /\
           (fired <> [] -> c_afield cfg <> [] -> forall fs, root = JObj fs ->
              exists fs', root' = JObj fs' /\ field_get fs' (c_afield cfg) = Some (JStr (c_avalue cfg)))).
  Proof.
    intros Hne. unfold do_event.
    apply post_bind with (P := fun '(root1, f1) => event_frame names root root1 /\ (f1 = [] -> root1 = root)).
    { destruct (f_gproc fl && negb (f_specific fl)); [apply fast_loop_sat; auto using event_frame_refl|].
      destruct root as [| | | |l|fs].
      1-5: eapply post_bind; [apply traverse_sat|]; intros [[v u] f] H; exact H.
      eapply post_bind; [apply root_loop_sat, root_frame_refl|]. intros [fs' f] [Hf Hq].
      split; [cbn; eauto | intros Hnil; now rewrite Hq]. }
    intros [root1 fired] [Hinv Hq]. unfold event_frame in *. destruct root as [| | | |l|fs].
    1-5: destruct root1; try (split; [exact Hinv | split; [exact Hq | discriminate]]);
         apply same_shape_obj_inv in Hinv as (? & ?); discriminate.
    destruct Hinv as (fs1 & -> & Hf).
    destruct (negb (is_nil fired) && negb (is_nil (c_afield cfg))) eqn:E.
    - split; [|split].
      + eexists; split; [reflexivity|]. apply root_frame_write; [assumption|].
        unfold mark_names. apply filter_In. split; [now left|]. apply andb_prop in E as [_ E]. exact E.
      + intros ->. discriminate.
      + intros _ _ fs0 _. eexists; split; [reflexivity|]. apply write_field_get.
    - split; [eauto|]. split; [exact Hq|]. intros Hf0 Ha. destruct fired; [congruence|]. now destruct (c_afield cfg).
  Qed.

  Theorem do_event_mark root root' fired :
    ~ In [] (c_proc cfg) ->
    do_event inh masks fl oracle cfg root = Ok (root', fired) ->
    (fired = [] -> root' = root) /\
    (fired <> [] -> c_afield cfg <> [] -> forall fs, root = JObj fs ->
       exists fs', root' = JObj fs' /\ field_get fs' (c_afield cfg) = Some (JStr (c_avalue cfg))).
  Proof. intros Hne H. exact (proj2 (post_ok _ _ _ (do_event_sat root Hne) H)). Qed.
End Root.

Lemma event_frame_no_marks root root' : event_frame [] root root' -> same_shape root root'.
Proof.
  unfold event_frame. destruct root as [| | | |l|fs]; try (intros H; exact H).
  intros (fs' & -> & extra & Hk & Hex & Hv). apply SS_obj.
  assert (extra = []) by (destruct extra as [|k ?]; [reflexivity | destruct (Hex k); now left]). subst extra.
  rewrite app_nil_r in Hk.
  revert fs' Hk Hv. induction fs as [|[k v] r IH]; intros [|[k' v'] r'] Hk Hv; cbn [map fst] in Hk; try discriminate; constructor.
  - injection Hk as -> _. split; [reflexivity|]. now destruct (Hv 0%nat _ v v' eq_refl eq_refl) as [?|([] & _)].
  - injection Hk as _ Hk. apply IH; [assumption|]. intros i. apply (Hv (S i)).
Qed.

Section Dead.
  Variable inh : bool.
  Variable masks : list cmask.
  Variable fl : fields.
  Variable oracle : nat -> bytes -> res (list (list Z)).

  Lemma pm_loop_dead fm orig : forall ms i src upd fired,
    (forall j k, nth_error ms j = Some k -> applicable fl k (i + j) fm = false) ->
    pm_loop fl oracle i ms fm orig src upd fired = Ok (src, upd, fired).
  Proof.
    induction ms as [|k r IH]; intros i src upd fired H; cbn [pm_loop]; [reflexivity|].
    assert (E : applicable fl k i fm = false) by (specialize (H 0%nat k eq_refl); now rewrite Nat.add_0_r in H).
    rewrite E. cbn [negb]. apply IH. intros j k' Hj. replace (S i + j)%nat with (i + S j)%nat by lia. now apply H.
  Qed.

  (* a node without children is carried unchanged to every descendant *)
  Lemma next_fm_dead fm k : should_check fm = false -> next_fm inh fm k = fm.
  Proof. destruct fm as [n|]; cbn; [intros -> |]; reflexivity. Qed.

  Lemma field_next_dead fm k : should_check fm = false -> field_next inh fl fm k = Some fm.
  Proof. intros H. unfold field_next. rewrite H. cbn [andb]. now rewrite next_fm_dead. Qed.

  Theorem traverse_dead : forall v fm,
    should_check fm = false -> (forall i k, nth_error masks i = Some k -> applicable fl k i fm = false) ->
    traverse inh masks fl oracle fm v = Ok (v, false, []).
  Proof.
    assert (Hleaf : forall fm v s, (forall i k, nth_error masks i = Some k -> applicable fl k i fm = false) ->
              leaf masks fl oracle fm v s = Ok (v, false, [])).
    { intros fm v s Hd. unfold leaf, process_mask. destruct s as [|c s]; [reflexivity|]. now rewrite pm_loop_dead. }
    induction v as [| b | r | s | l IH | fs IH] using json_ind2; intros fm Hc Hd; try reflexivity; try now apply Hleaf.
    - rewrite traverse_arr.
      enough (Hgo : forall i, arr_go inh (traverse inh masks fl oracle) fm i l = Ok (l, [])) by now rewrite Hgo.
      induction IH as [|x r Hx _ IH]; intros i; cbn [arr_go]; [reflexivity|].
      now rewrite next_fm_dead, (Hx fm Hc Hd), IH.
    - rewrite traverse_obj.
      enough (Hgo : obj_go inh fl (traverse inh masks fl oracle) fm fs = Ok (fs, [])) by now rewrite Hgo.
      induction IH as [|[k x] r Hx _ IH]; cbn [obj_go]; [reflexivity|].
      cbn [snd] in Hx. now rewrite field_next_dead, (Hx fm Hc Hd), IH.
  Qed.
End Dead.

Lemma is_prefix_nil_r q : is_prefix q [] -> q = [].
Proof. destruct q; [reflexivity | intros []]. Qed.

Lemma fm_has_tag_iff n t : fm_has_tag n t = true <-> In ([], t) n.
Proof.
  unfold fm_has_tag. rewrite existsb_exists. split.
  - intros ([q t'] & Hin & H). cbn [fst snd] in H. apply andb_prop in H as [Hq Ht].
    destruct q; [|discriminate]. assert (t' = t); [|subst; assumption].
    destruct t', t; cbn in Ht; try discriminate; try reflexivity; apply Nat.eqb_eq in Ht; now subst.
  - intros Hin. exists ([], t). split; [assumption|]. cbn. destruct t; cbn; try reflexivity; apply Nat.eqb_refl.
Qed.

Lemma fm_has_children_iff n : fm_has_children n = true <-> exists e, In e n /\ fst e <> [].
Proof.
  unfold fm_has_children. rewrite existsb_exists.
  split; intros ([q t] & Hin & H); exists (q, t); (split; [assumption|]); destruct q; cbn in *; congruence.
Qed.

Lemma fm_child_in inh n k q t :
  In (q, t) (fm_child inh n k) <-> In (k :: q, t) n \/ (inh = true /\ q = [] /\ In ([], t) n).
Proof.
  unfold fm_child. rewrite in_flat_map. split.
  - intros ([q0 t0] & Hin & H). cbn [fst snd] in H. destruct q0 as [|k' rest].
    + destruct inh; [|destruct H]. destruct H as [E|[]]. injection E as <- <-. right. auto.
    + destruct (key_eqb k' k) eqn:E; [|destruct H]. destruct H as [E'|[]]. injection E' as <- <-.
      apply key_eqb_eq in E as ->. now left.
  - intros [Hin | (-> & -> & Hin)].
    + exists (k :: q, t). split; [assumption|]. cbn [fst snd]. rewrite key_eqb_refl. now left.
    + exists ([], t). split; [assumption|]. cbn. now left.
Qed.

(* a list entry q is in force at p iff q is a prefix of p and - in the code, inh = false - q is p itself or no
   entry of any list lies strictly below q *)
Theorem fm_at_spec inh : forall p n t,
  In ([], t) (fm_at inh n p) <->
  exists q, In (q, t) n /\ is_prefix q p /\
            if inh then True else q = p \/ ~ exists e, In e n /\ strict_prefix q (fst e).
Proof.
  induction p as [|k r IH]; intros n t; cbn [fm_at].
  { split.
    - intros H. exists []. split; [assumption|]. split; [exact I | destruct inh; auto].
    - intros (q & Hin & Hp & _). apply is_prefix_nil_r in Hp. now subst. }
  destruct (fm_has_children n) eqn:Ec.
  - rewrite IH. split.
    + intros (q & Hin & Hp & Hx). apply fm_child_in in Hin as [Hin | (-> & -> & Hin)].
      2: { exists []. split; [assumption|]. split; exact I. }
      exists (k :: q). split; [assumption|]. split; [cbn; auto|].
      destruct inh; [exact I|]. destruct Hx as [-> | Hx]; [auto | right].
      intros ([q1 t1] & Hin1 & Hpre & Hlen). apply Hx. cbn [fst] in *.
      destruct q1 as [|k1 q1']; [destruct Hpre|]. destruct Hpre as [<- Hpre].
      exists (q1', t1). split; [apply fm_child_in; now left|]. split; [assumption | cbn [length fst] in *; lia].
    + intros (q & Hin & Hp & Hx). destruct q as [|k' q'].
      * (* an entry that ended above survives only by inheritance *)
        destruct inh.
        -- exists []. split; [apply fm_child_in; auto|]. split; exact I.
        -- exfalso. destruct Hx as [Hx | Hx]; [discriminate|].
           apply Hx. apply fm_has_children_iff in Ec as (e & Hine & Hne). exists e. split; [assumption|].
           split; [exact I|]. destruct (fst e); [congruence | cbn; lia].
      * destruct Hp as [-> Hp]. exists q'. split; [apply fm_child_in; now left|]. split; [assumption|].
        destruct inh; [exact I|]. destruct Hx as [Hx | Hx]; [left; congruence | right].
        intros ([q1 t1] & Hin1 & Hpre & Hlen). cbn [fst] in *.
        apply fm_child_in in Hin1 as [Hin1 | (? & _)]; [|discriminate].
        apply Hx. exists (k :: q1, t1). split; [assumption|]. split; [cbn; auto | cbn [length fst]; lia].
  - (* a node without children is the node of every path below it *)
    split.
    + intros H. exists []. split; [assumption|]. split; [exact I|]. destruct inh; [exact I | right].
      intros (e & Hine & _ & Hlen). cbn [length] in Hlen.
      assert (fm_has_children n = true); [|congruence].
      apply fm_has_children_iff. exists e. split; [assumption|]. destruct (fst e); [cbn in Hlen; lia | discriminate].
    + intros (q & Hin & Hp & _). destruct q as [|k' q']; [assumption|]. exfalso.
      assert (fm_has_children n = true) by (apply fm_has_children_iff; exists (k' :: q', t); split; [assumption | discriminate]).
      congruence.
Qed.

(* README semantics (inh = true): a mark is in force at p iff some listed path is a prefix of p *)
Theorem fm_at_inherit : forall p n t,
  In ([], t) (fm_at true n p) <-> exists q, In (q, t) n /\ is_prefix q p.
Proof.
  intros p n t. rewrite (fm_at_spec true). split; [intros (q & H1 & H2 & _) | intros (q & H1 & H2)]; exists q; auto.
Qed.

(* the code (inh = false): the listed path must be the field itself, or have no longer entry of any
   list below it *)
Theorem fm_at_code : forall p n t,
  In ([], t) (fm_at false n p) <->
  exists q, In (q, t) n /\ is_prefix q p /\ (q = p \/ ~ exists e, In e n /\ strict_prefix q (fst e)).
Proof. exact (fm_at_spec false). Qed.

(* when no entry lies strictly above another, the code implements the README semantics: below a node that has
   children no entry has ended, so there is nothing to inherit *)
Lemma prefix_free_child n k : prefix_free n -> fm_has_children n = true ->
  (forall b, fm_child b n k = fm_child false n k) /\ prefix_free (fm_child false n k).
Proof.
  intros Hpf Hc.
  assert (Hno : forall t, ~ In ([], t) n).
  { intros t Hin. apply fm_has_children_iff in Hc as ([qe te] & Hine & Hne).
    apply (Hpf ([], t) _ Hin Hine). split; [exact I|]. destruct qe; [now destruct Hne | cbn; lia]. }
  split.
  - intros b. clear Hpf Hc. unfold fm_child.
    induction n as [|[[|k' q'] t] n' IH]; [reflexivity | destruct (Hno t); now left |]. cbn [flat_map fst snd].
    f_equal. apply IH. intros t' Hin. apply (Hno t'). now right.
  - intros [q1 t1] [q2 t2] H1 H2 [Hp Hl]. cbn [fst] in *.
    apply fm_child_in in H1 as [H1 | (? & _)]; [|discriminate].
    apply fm_child_in in H2 as [H2 | (? & _)]; [|discriminate].
    apply (Hpf _ _ H1 H2). split; [cbn; auto | cbn [fst length]; lia].
Qed.

Theorem fm_at_partial : forall p n, prefix_free n -> fm_at false n p = fm_at true n p.
Proof.
  induction p as [|k r IH]; intros n Hpf; cbn [fm_at]; [reflexivity|].
  destruct (fm_has_children n) eqn:Ec; [|reflexivity].
  destruct (prefix_free_child n k Hpf Ec) as [Heq Hpf']. rewrite (Heq true). now apply IH.
Qed.

Lemma next_fm_is_fm_at inh n k : next_fm inh (Some n) k = Some (fm_at inh n [k]).
Proof. cbn [next_fm fm_at]. now destruct (fm_has_children n). Qed.

Lemma fm_at_app inh : forall p q n, fm_at inh n (p ++ q) = fm_at inh (fm_at inh n p) q.
Proof.
  induction p as [|k r IH]; intros q n; cbn [app fm_at]; [reflexivity|].
  destruct (fm_has_children n) eqn:E; [apply IH|].
  destruct q as [|k' q']; cbn [fm_at]; [reflexivity | now rewrite E].
Qed.

Definition fm_pf (fm : option fmnode) : Prop := match fm with Some n => prefix_free n | None => True end.

Lemma next_fm_pf fm k : fm_pf fm -> next_fm false fm k = next_fm true fm k /\ fm_pf (next_fm true fm k).
Proof.
  destruct fm as [n|]; cbn [next_fm fm_pf]; [|auto]. intros Hpf.
  destruct (fm_has_children n) eqn:Ec; [|auto].
  destruct (prefix_free_child n k Hpf Ec) as [Heq Hpf']. now rewrite (Heq true).
Qed.

Lemma field_next_pf fl fm k : fm_pf fm ->
  field_next false fl fm k = field_next true fl fm k /\
  match field_next true fl fm k with Some nx => fm_pf nx | None => True end.
Proof.
  intros Hpf. unfold field_next. destruct (next_fm_pf fm k Hpf) as [-> Hpf']. split; [reflexivity|].
  destruct (should_check fm && negb (f_specific fl) && _); [exact I | exact Hpf'].
Qed.

Section Partial.
  Variable masks : list cmask.
  Variable fl : fields.
  Variable oracle : nat -> bytes -> res (list (list Z)).

  Lemma traverse_pf : forall v fm, fm_pf fm ->
    traverse false masks fl oracle fm v = traverse true masks fl oracle fm v.
  Proof.
    induction v as [| b | r | s | l IH | fs IH] using json_ind2; intros fm Hpf; try reflexivity.
    - rewrite !traverse_arr. f_equal. generalize 0%nat.
      induction IH as [|x r Hx _ IH]; intros i; cbn [arr_go]; [reflexivity|].
      destruct (next_fm_pf fm (itoa i) Hpf) as [-> Hpf']. now rewrite (Hx _ Hpf'), IH.
    - rewrite !traverse_obj. f_equal.
      induction IH as [|[k x] r Hx _ IH]; cbn [obj_go]; [reflexivity|].
      destruct (field_next_pf fl fm k Hpf) as [-> Hpf']. rewrite IH.
      destruct (field_next true fl fm k) as [nx|]; [|reflexivity]. cbn [snd] in Hx. now rewrite (Hx _ Hpf').
  Qed.

  Lemma root_loop_pf : forall todo i fm fs, fm_pf fm ->
    root_loop false masks fl oracle todo i fm fs = root_loop true masks fl oracle todo i fm fs.
  Proof.
    induction todo as [|t IH]; intros i fm fs Hpf; cbn [root_loop]; [reflexivity|].
    destruct (nth_error fs i) as [[k x]|]; [|reflexivity].
    destruct (field_next_pf fl fm k Hpf) as [-> Hpf'].
    destruct (field_next true fl fm k) as [nx|]; [|now apply IH].
    rewrite (traverse_pf _ _ Hpf'). apply bind_ext. intros [[x' upd] fired] _.
    destruct (apply_marks masks fired fs i) as [fs1 hit]. now rewrite IH.
  Qed.

  Lemma fast_loop_pf : forall paths root,
    fast_loop false masks fl oracle paths root = fast_loop true masks fl oracle paths root.
  Proof.
    induction paths as [|p rest IH]; intros root; [reflexivity|]. cbn [fast_loop].
    destruct (dig_path root p) as [x|]; [|apply IH].
    rewrite (traverse_pf _ None I). apply bind_ext. intros [[x' upd] fired] _.
    destruct (match root with JObj _ => _ | _ => _ end) as [root1 hit]. cbv zeta. now rewrite IH.
  Qed.

  Lemma do_events_pf cfg : fm_pf (f_root fl) -> forall evs,
    do_events false masks fl oracle cfg evs = do_events true masks fl oracle cfg evs.
  Proof.
    intros Hpf. induction evs as [|e r IH]; cbn [do_events]; [reflexivity|]. rewrite IH. f_equal.
    unfold do_event. f_equal. destruct (f_gproc fl && negb (f_specific fl)); [apply fast_loop_pf|].
    destruct e; try now rewrite (traverse_pf _ _ Hpf). now rewrite root_loop_pf.
  Qed.
End Partial.

Lemma gather_fields_root_sub cfg fl : gather_fields cfg = Ok fl ->
  match f_root fl with Some n => forall e, In e n -> In e (all_entries cfg) | None => True end.
Proof.
  unfold gather_fields. destruct (negb (is_nil (c_ign cfg)) && negb (is_nil (c_proc cfg))); [discriminate|].
  destruct (existsb is_nil (c_ign cfg) || existsb is_nil (c_proc cfg)); [discriminate|].
  intros H. injection H as <-. cbn [f_root].
  match goal with |- match (if ?c then _ else _) with _ => _ end => destruct c end; [|exact I].
  intros e He. unfold all_entries. rewrite !in_app_iff in *.
  destruct He as [He | [He | He]]; [now left | right; left | right; right];
    match type of He with In _ (if ?c then _ else _) => destruct c end; now try destruct He.
Qed.

Theorem run_plugin_partial cfg oracle evs :
  prefix_free (all_entries cfg) -> run_plugin false cfg oracle evs = run_plugin true cfg oracle evs.
Proof.
  intros Hpf. unfold run_plugin. apply bind_ext. intros ks _. apply bind_ext. intros fl Ef.
  apply do_events_pf. pose proof (gather_fields_root_sub cfg fl Ef) as Hsub.
  unfold fm_pf. destruct (f_root fl) as [n|]; [|exact I].
  intros e1 e2 H1 H2. apply Hpf; auto.
Qed.

Lemma process_mask_single k fl oracle fm s idxs :
  s <> [] -> applicable fl k 0 fm = true -> check_match_rules (k_rules k) s = Ok true ->
  k_apply k = true -> oracle 0%nat s = Ok idxs -> re_wf (len s) (k_nsub k) idxs ->
  process_mask [k] fl oracle fm s =
    (mv <- mask_value s idxs (k_groups k) (k_mode k) ;;
     Ok (match mv with Some out => (out, true, [0%nat]) | None => (s, false, []) end)).
Proof.
  intros Hs Ha Hr Hk Ho Hwf. unfold process_mask. destruct s as [|c s']; [congruence|].
  cbn [pm_loop]. rewrite Ha, Hr, Hk, Ho. cbn [negb bind]. unfold re_wf in Hwf. rewrite Hwf. cbn [negb].
  destruct (mask_value (c :: s') idxs (k_groups k) (k_mode k)) as [[out|]| |]; reflexivity.
Qed.

Lemma gate_all_ok : forall ks bits, Forall cmask_ok ks -> Forall cmask_ok (gate_all ks bits).
Proof.
  induction ks as [|k r IH]; intros bits H; [destruct bits; constructor|].
  destruct bits as [|b br]; cbn [gate_all]; [assumption|].
  inversion H as [|? ? [Hg Hr] Hks]; subst. constructor; [|now apply IH].
  destruct b; [now split|]. split; [exact Hg|]. intros rs p [<-|[]] [].
Qed.

Lemma mark_names_gate ks cfg : forall bits, mark_names (gate_all ks bits) cfg = mark_names ks cfg.
Proof.
  intros bits. unfold mark_names. do 2 f_equal. revert bits.
  induction ks as [|k r IH]; intros [|b br]; cbn [gate_all map]; try reflexivity. rewrite IH. now destruct b.
Qed.

Lemma gate_all_used : forall ks bits, (forall b, In b bits -> b = true) -> gate_all ks bits = ks.
Proof.
  induction ks as [|k r IH]; intros bits H; [now destruct bits|].
  destruct bits as [|b br]; cbn [gate_all]; [reflexivity|].
  rewrite (H b (or_introl eq_refl)). cbn [gate]. f_equal. apply IH. intros b' Hb. apply H. now right.
Qed.

Lemma gate_all_nth_used : forall ks bits j k,
  nth_error ks j = Some k -> nth_error bits j <> Some false -> nth_error (gate_all ks bits) j = Some k.
Proof.
  induction ks as [|k0 r IH]; intros bits j k Hk Hb; [destruct j; discriminate|].
  destruct bits as [|b br]; cbn [gate_all]; [assumption|].
  destruct j as [|j]; cbn [nth_error] in *; [|now apply IH].
  injection Hk as <-. destruct b; [reflexivity | congruence].
Qed.

Lemma gate_all_nth_off : forall ks bits j k',
  nth_error (gate_all ks bits) j = Some k' -> nth_error bits j = Some false -> k_rules k' = [(false, [])].
Proof.
  induction ks as [|k r IH]; intros bits j k' Hk Hb; [destruct bits; destruct j; discriminate|].
  destruct bits as [|b br]; [destruct j; discriminate|]. cbn [gate_all] in Hk.
  destruct j as [|j]; cbn [nth_error] in *; [|eapply IH; eauto].
  injection Hb as ->. now injection Hk as <-.
Qed.

Theorem gated_off_never_fires masks bits fl oracle fm s out upd fired j :
  nth_error bits j = Some false ->
  process_mask (gate_all masks bits) fl oracle fm s = Ok (out, upd, fired) -> ~ In j fired.
Proof.
  intros Hb H Hin. apply process_mask_fired in H as (Hf & _ & _).
  destruct (Hf j Hin) as (k & Hk & _ & Hr & _).
  rewrite (gate_all_nth_off _ _ _ _ Hk Hb) in Hr. discriminate.
Qed.

Definition res_map {A B} (f : A -> B) (r : res A) : res B :=
  match r with Ok a => Ok (f a) | Err e => Err e | Panic p => Panic p end.

Lemma do_events_ext_plain inh ks fl oracle cfg pl xs : forall evs,
  res_map fst (do_events_ext inh ks fl oracle cfg pl xs (map (fun e => (e, [])) evs)) =
  res_map (fun x => fst (fst x)) (do_events inh ks fl oracle cfg evs).
Proof.
  induction evs as [|e r IH]; cbn [map do_events_ext do_events]; [reflexivity|].
  replace (gate_all ks []) with ks by now destruct ks.
  destruct (do_event inh ks fl oracle cfg e) as [[e' fired]| |]; cbn [bind]; try reflexivity.
  destruct (do_events_ext inh ks fl oracle cfg pl xs (map (fun e0 => (e0, [])) r)) as [[r1 m1]| |];
    destruct (do_events inh ks fl oracle cfg r) as [[[r2 n2] c2]| |]; cbn [bind res_map fst] in *; congruence.
Qed.

Theorem run_plugin_ext_plain inh cfg oracle evs :
  res_map fst (run_plugin_ext inh cfg oracle [] (map (fun _ => mext0) (c_masks cfg)) (map (fun e => (e, [])) evs)) =
  res_map (fun x => fst (fst x)) (run_plugin inh cfg oracle evs).
Proof.
  unfold run_plugin_ext, run_plugin.
  destruct (compile_masks (c_masks cfg)) as [ks| |] eqn:Ek; cbn [bind]; try reflexivity.
  destruct (gather_fields cfg) as [fl| |]; cbn [bind]; try reflexivity.
  (* no labels: makeMetric has nothing to refuse *)
  assert (Hl : forall (ks : list cmask) (ms : list mask), labels_refused ks (map (fun _ => mext0) ms) = false).
  { induction ks0 as [|k r IH]; intros ms; [reflexivity|]. cbn [labels_refused].
    destruct ms as [|m mr]; cbn [map x_labels mext0 bad_labels existsb has_dup_b orb]; rewrite andb_false_r; [apply (IH []) | apply IH]. }
  rewrite Hl. cbn [bad_labels existsb has_dup_b orb]. rewrite andb_false_r.
  apply do_events_ext_plain.
Qed.

Lemma do_events_ext_sat inh ks fl oracle cfg pl xs :
  ~ In [] (c_proc cfg) -> Forall cmask_ok ks -> forall evs,
  sat (forall i b, is_panic (oracle i b) = false) (do_events_ext inh ks fl oracle cfg pl xs evs)
      (fun '(evs', _) => Forall2 (event_frame (mark_names ks cfg)) (map fst evs) evs').
Proof.
  intros Hp Hk. induction evs as [|[e bits] r IH]; cbn [do_events_ext]; [constructor|].
  eapply post_bind.
  { eapply sat_assume; [now apply do_event_sat | intros Ho; split; [now apply gate_all_ok | exact Ho]]. }
  intros [e' fired] [He _]. eapply post_bind; [exact IH|]. intros [r' ms] Hr. cbn [map fst]. constructor; [|exact Hr].
  now rewrite <- (mark_names_gate ks cfg bits).
Qed.

Lemma run_plugin_ext_sat inh cfg oracle pl xs evs :
  sat (forall i b, is_panic (oracle i b) = false) (run_plugin_ext inh cfg oracle pl xs evs)
      (fun '(evs', _) => exists ks, compile_masks (c_masks cfg) = Ok ks /\
                                    Forall2 (event_frame (mark_names ks cfg)) (map fst evs) evs').
Proof.
  unfold run_plugin_ext.
  eapply post_bind; [apply post_self; eapply sat_assume; [apply compile_masks_sat | auto]|]. intros ks [Ek Hk].
  eapply post_bind; [eapply sat_assume; [apply gather_fields_sat | auto]|]. intros fl Hp.
  destruct (_ || _); [exact I|].
  eapply post_weaken; [now apply do_events_ext_sat|]. intros [evs' ms] H. eauto.
Qed.

Theorem run_plugin_ext_total inh cfg oracle pl xs evs :
  (forall i b, is_panic (oracle i b) = false) -> is_panic (run_plugin_ext inh cfg oracle pl xs evs) = false.
Proof. exact (sat_not_panic _ _ _ (run_plugin_ext_sat inh cfg oracle pl xs evs)). Qed.

Theorem run_plugin_ext_frame inh cfg oracle pl xs evs evs' ms :
  run_plugin_ext inh cfg oracle pl xs evs = Ok (evs', ms) ->
  exists ks, compile_masks (c_masks cfg) = Ok ks /\ Forall2 (event_frame (mark_names ks cfg)) (map fst evs) evs'.
Proof. exact (post_ok _ _ (evs', ms) (run_plugin_ext_sat inh cfg oracle pl xs evs)). Qed.

Lemma res_map_panic {A B} (f : A -> B) r : is_panic (res_map f r) = is_panic r.
Proof. now destruct r. Qed.

(* the plain run is the ext run without gates and labels (run_plugin_ext_plain): totality and the frame are transported from it *)
Theorem run_plugin_total inh cfg oracle evs :
  (forall i b, is_panic (oracle i b) = false) -> is_panic (run_plugin inh cfg oracle evs) = false.
Proof.
  intros Ho. rewrite <- (res_map_panic (fun x => fst (fst x))), <- run_plugin_ext_plain, res_map_panic.
  now apply run_plugin_ext_total.
Qed.

Theorem run_plugin_frame inh cfg oracle evs evs' n cs :
  run_plugin inh cfg oracle evs = Ok (evs', n, cs) ->
  exists ks, compile_masks (c_masks cfg) = Ok ks /\ Forall2 (event_frame (mark_names ks cfg)) evs evs'.
Proof.
  intros H. pose proof (run_plugin_ext_plain inh cfg oracle evs) as E. rewrite H in E.
  destruct (run_plugin_ext _ _ _ _ _ _) as [[evs1 ms]| |] eqn:Ex; try discriminate. injection E as ->.
  apply run_plugin_ext_frame in Ex. now rewrite map_map, map_id in Ex.
Qed.

Lemma count_fired_pos fired i : 0 <? count_fired fired i = true <-> In i fired.
Proof. unfold count_fired. rewrite (count_occ_In Nat.eq_dec fired i). lia. Qed.

Lemma mask_mobs_nth root fired : forall ks xs i0 n,
  nth_error (mask_mobs i0 ks xs fired root) n =
  option_map (fun k => let x := nth n xs mext0 in
                if k_metric k && negb (x_clash x) && (0 <? count_fired fired (i0 + n))
                then Some (count_fired fired (i0 + n), map (label_val root) (x_labels x)) else None)
             (nth_error ks n).
Proof.
  induction ks as [|k r IH]; intros xs i0 n; [now destruct n|].
  destruct n as [|n]; [destruct xs; cbn; now rewrite Nat.add_0_r|].
  replace (i0 + S n)%nat with (S i0 + n)%nat by lia.
  destruct xs as [|x xr]; cbn [mask_mobs nth_error]; rewrite IH; [now destruct n | reflexivity].
Qed.

Theorem event_metrics_spec ks cfg pl xs root fired :
  exists pm rest, event_metrics ks cfg pl xs root fired = pm :: rest /\
    (pm = None <-> fired = [] \/ c_metric cfg = false) /\
    (pm <> None -> pm = Some (1, map (label_val root) pl)) /\
    forall n m, nth_error rest n = Some m ->
      exists k, nth_error ks n = Some k /\
        (m = None <-> ~ (k_metric k = true /\ x_clash (nth n xs mext0) = false /\ In n fired)) /\
        (m <> None -> m = Some (count_fired fired n, map (label_val root) (x_labels (nth n xs mext0)))).
Proof.
  unfold event_metrics. eexists. eexists. split; [reflexivity|]. split; [|split].
  - destruct fired; cbn [is_nil negb andb]; [split; auto|].
    destruct (c_metric cfg); split; auto; try discriminate. intros [?|?]; discriminate.
  - destruct (negb (is_nil fired) && c_metric cfg); congruence.
  - intros n m H. rewrite mask_mobs_nth in H. destruct (nth_error ks n) as [k|]; [|discriminate].
    injection H as <-. exists k. split; [reflexivity|]. cbn [Nat.add]. cbv zeta.
    assert (Hb : k_metric k && negb (x_clash (nth n xs mext0)) && (0 <? count_fired fired n) = true <->
                 k_metric k = true /\ x_clash (nth n xs mext0) = false /\ In n fired)
      by (rewrite !andb_true_iff, negb_true_iff, count_fired_pos; tauto).
    destruct (k_metric k && _ && _).
    + split; [|reflexivity]. split; [discriminate | intros Hn; destruct Hn; now apply Hb].
    + split; [|congruence]. split; [intros _ Hc; apply Hb in Hc; discriminate | reflexivity].
Qed.
