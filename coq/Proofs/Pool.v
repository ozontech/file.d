(* What the two event pools of Model/Pool.v share: the association lists (fget, fset, fcnt) and Z lists of the model,
   their run functions as [run] of Proofs/Lts.v, and the heartbeat goroutine as a transition system of its own, with the
   wake-up theorem of both pools proved over it ([tick_wakes]).
   The pool files use lia without ZifyBool: with it every call zifies all boolean hypotheses of a step's context
   and costs several times as much; [bnorm] turns the guards that matter into propositions first. *)
From Verif Require Import Base.Sx Model.Pool Proofs.ListFacts.
From Verif Require Export Proofs.Lts.
From Coq Require Import Lia Bool List ZArith.
Import ListNotations.
Local Open Scope Z_scope.

Section FMapFacts.
  Context {V : Type}.
  Implicit Types (m : list (Z * V)) (k : Z) (v d : V).

  Definition keys m : list Z := map fst m.

  Lemma fget_frem_same d k m : fget d k (frem k m) = d.
  Proof.
    induction m as [|[k' v] r IH]; cbn [frem fget]; [reflexivity|].
    destruct (k =? k') eqn:E; [exact IH|]. cbn [fget]. rewrite E. exact IH.
  Qed.

  Lemma fget_frem_other d k k' m : k' <> k -> fget d k' (frem k m) = fget d k' m.
  Proof.
    intros Hne. induction m as [|[k0 v] r IH]; cbn [frem fget]; [reflexivity|].
    destruct (Z.eqb_spec k k0) as [<-|_].
    - rewrite (proj2 (Z.eqb_neq k' k) Hne). exact IH.
    - cbn [fget]. destruct (k' =? k0); [reflexivity|exact IH].
  Qed.

  Lemma fget_fset d k v k' m : fget d k' (fset k v m) = if k' =? k then v else fget d k' m.
  Proof.
    unfold fset. cbn [fget]. destruct (k' =? k) eqn:E; [reflexivity|].
    apply fget_frem_other. intros ->. rewrite Z.eqb_refl in E. discriminate.
  Qed.

  Lemma fget_fmapv d (f : V -> V) k m : f d = d -> fget d k (fmapv f m) = f (fget d k m).
  Proof.
    intros Hd. induction m as [|[k' v] r IH]; cbn [fmapv map fget fst snd]; [symmetry; exact Hd|].
    destruct (k =? k'); [reflexivity|exact IH].
  Qed.

  Lemma In_keys_filter (P : Z * V -> bool) m k : In k (keys (filter P m)) -> exists v, In (k, v) m /\ P (k, v) = true.
  Proof. intros [[k' v] [<- [H1 H2]%filter_In]]%in_map_iff. exists v. auto. Qed.

  Lemma NoDup_keys_filter (P : Z * V -> bool) m : NoDup (keys m) -> NoDup (keys (filter P m)).
  Proof.
    induction m as [|[k v] r IH]; cbn [filter keys map fst]; [trivial|]. intros H. inversion H as [|a b Hni Hr]; subst.
    destruct (P (k, v)); [|exact (IH Hr)]. cbn [keys map fst]. constructor; [|exact (IH Hr)].
    intros [v' [Hin _]]%In_keys_filter. apply Hni. exact (in_map fst _ _ Hin).
  Qed.

  Lemma frem_filter k m : frem k m = filter (fun kv => negb (k =? fst kv)) m.
  Proof. induction m as [|[k' v] r IH]; cbn [frem filter fst]; [reflexivity|]. destruct (k =? k'); cbn [negb]; rewrite IH; reflexivity. Qed.

  Lemma NoDup_fset k v m : NoDup (keys m) -> NoDup (keys (fset k v m)).
  Proof.
    intros H. unfold fset. cbn [keys map fst]. rewrite frem_filter. constructor; [|apply NoDup_keys_filter; exact H].
    intros [v' [_ E]]%In_keys_filter. cbn [fst] in E. rewrite Z.eqb_refl in E. discriminate.
  Qed.

  Lemma keys_fmapv (f : V -> V) m : keys (fmapv f m) = keys m.
  Proof. unfold keys, fmapv. rewrite map_map. reflexivity. Qed.

  Lemma frem_notin k m : ~ In k (keys m) -> frem k m = m.
  Proof.
    induction m as [|[k' v] r IH]; cbn [frem keys map fst In]; [reflexivity|]. intros H.
    destruct (Z.eqb_spec k k') as [->|_]; [tauto|]. f_equal. apply IH. tauto.
  Qed.

  Lemma fget_In d k v m : NoDup (keys m) -> In (k, v) m -> fget d k m = v.
  Proof.
    induction m as [|[k' v'] r IH]; cbn [fget keys map fst In]; [tauto|]. intros Hnd [H|H].
    - inversion H; subst. rewrite Z.eqb_refl. reflexivity.
    - inversion Hnd as [|a l Hni Hr]; subst.
      destruct (Z.eqb_spec k k') as [->|_]; [destruct Hni; exact (in_map fst _ _ H)|exact (IH Hr H)].
  Qed.

  Definition b2z (b : bool) : Z := if b then 1 else 0.

  Lemma fcnt_nonneg (P : V -> bool) m : 0 <= fcnt P m.
  Proof. unfold fcnt. lia. Qed.

  Lemma fcnt_cons (P : V -> bool) k v m : fcnt P ((k, v) :: m) = b2z (P v) + fcnt P m.
  Proof. unfold fcnt. cbn [filter snd]. destruct (P v); cbn [length b2z]; rewrite ?Nat2Z.inj_succ; lia. Qed.

  Lemma fcnt_frem d (P : V -> bool) k m :
    NoDup (keys m) -> P d = false -> fcnt P (frem k m) = fcnt P m - b2z (P (fget d k m)).
  Proof.
    intros Hnd Hd. induction m as [|[k' v] r IH]; cbn [frem fget].
    - rewrite Hd. cbn. reflexivity.
    - inversion Hnd as [|a l Hni Hr]; subst. destruct (Z.eqb_spec k k') as [<-|_].
      + rewrite (frem_notin _ _ Hni), fcnt_cons. lia.
      + rewrite !fcnt_cons. rewrite (IH Hr). lia.
  Qed.

  Lemma fcnt_fset d (P : V -> bool) k v m :
    NoDup (keys m) -> P d = false -> fcnt P (fset k v m) = fcnt P m - b2z (P (fget d k m)) + b2z (P v).
  Proof. intros Hnd Hd. unfold fset. rewrite fcnt_cons, (fcnt_frem d P k m Hnd Hd). lia. Qed.

  Lemma fcnt_fmapv (P : V -> bool) (f : V -> V) m : fcnt P (fmapv f m) = fcnt (fun v => P (f v)) m.
  Proof.
    induction m as [|[k v] r IH]; [reflexivity|]. cbn [fmapv map fst snd]. rewrite !fcnt_cons.
    fold (fmapv f r). rewrite IH. reflexivity.
  Qed.

  Lemma fcnt_ext (P Q : V -> bool) m : (forall v, P v = Q v) -> fcnt P m = fcnt Q m.
  Proof. intros H. induction m as [|[k v] r IH]; [reflexivity|]. rewrite !fcnt_cons, IH, H. reflexivity. Qed.

  Lemma fcnt_fmapv_same (P : V -> bool) (f : V -> V) m : (forall v, P (f v) = P v) -> fcnt P (fmapv f m) = fcnt P m.
  Proof. intros H. rewrite fcnt_fmapv. apply fcnt_ext. exact H. Qed.

  Lemma fcnt_le (P Q : V -> bool) m : (forall v, P v = true -> Q v = true) -> fcnt P m <= fcnt Q m.
  Proof.
    intros H. induction m as [|[k v] r IH]; [reflexivity|]. rewrite !fcnt_cons.
    specialize (H v). destruct (P v), (Q v); cbn [b2z]; lia.
  Qed.

  Lemma fcnt_pos d (P : V -> bool) k m : P d = false -> P (fget d k m) = true -> 1 <= fcnt P m.
  Proof.
    intros Hd. induction m as [|[k' v] r IH]; cbn [fget]; [congruence|]. rewrite fcnt_cons.
    destruct (k =? k'); intros H; [rewrite H; cbn [b2z]; pose proof (fcnt_nonneg P r); lia|].
    specialize (IH H). destruct (P v); cbn [b2z]; lia.
  Qed.

  (* every value bound is d, and d is not counted *)
  Lemma fcnt_zero d (P : V -> bool) m : NoDup (keys m) -> P d = false -> (forall k, fget d k m = d) -> fcnt P m = 0.
  Proof.
    intros Hnd Hd H. unfold fcnt. destruct (filter _ m) as [|[k v] r] eqn:E; [reflexivity|exfalso].
    assert (Hin : In (k, v) (filter (fun kv => P (snd kv)) m)) by (rewrite E; left; reflexivity).
    apply filter_In in Hin as [Hin HP]. cbn [snd] in HP. rewrite <- (fget_In d k v m Hnd Hin), H, Hd in HP. discriminate.
  Qed.
End FMapFacts.

Lemma mem_z_In x l : mem_z x l = true <-> In x l.
Proof.
  induction l as [|y r IH]; cbn [mem_z In]; [split; [discriminate|tauto]|].
  rewrite orb_true_iff, IH, Z.eqb_eq. split; intros [H|H]; auto.
Qed.

Lemma len_cons x l : len (x :: l) = len l + 1.
Proof. unfold len. cbn [length]. lia. Qed.

Lemma len_nonneg l : 0 <= len l.
Proof. unfold len. lia. Qed.

Lemma len_rem1 x l : In x l -> len (rem1 x l) = len l - 1.
Proof.
  induction l as [|y r IH]; cbn [rem1 In]; [tauto|]. intros H.
  destruct (Z.eqb_spec x y) as [_|N]; [rewrite len_cons; lia|]. rewrite !len_cons, IH; [lia|].
  destruct H as [H|H]; [destruct (N (eq_sym H))|exact H].
Qed.

Lemma In_rem1 x y l : In y (rem1 x l) -> In y l.
Proof.
  induction l as [|z r IH]; cbn [rem1]; [tauto|]. destruct (x =? z); cbn [In]; [tauto|].
  intros [H|H]; [left; exact H|right; exact (IH H)].
Qed.

Lemma In_rem1_other x y l : y <> x -> In y l -> In y (rem1 x l).
Proof.
  intros Hne. induction l as [|z r IH]; cbn [rem1 In]; [tauto|]. destruct (Z.eqb_spec x z) as [<-|_].
  - intros [H|H]; [congruence|exact H].
  - cbn [In]. intros [H|H]; [left; exact H|right; exact (IH H)].
Qed.

Lemma mem_z_rem1_other e e' l : e <> e' -> mem_z e (rem1 e' l) = mem_z e l.
Proof. intros Hne. apply eq_iff_eq_true. rewrite !mem_z_In. split; [apply In_rem1|apply In_rem1_other, Hne]. Qed.

Lemma NoDup_rem1 x l : NoDup l -> ~ In x (rem1 x l) /\ NoDup (rem1 x l).
Proof.
  induction 1 as [|z r Hni Hr [IH1 IH2]]; cbn [rem1]; [split; [tauto|constructor]|].
  destruct (Z.eqb_spec x z) as [<-|N]; [split; assumption|]. split; [|constructor; [|exact IH2]].
  - cbn [In]. intros [H|H]; [exact (N (eq_sym H))|exact (IH1 H)].
  - intros Hin. exact (Hni (In_rem1 _ _ _ Hin)).
Qed.

Lemma NoDup_range_len (l : list Z) (n : Z) : 0 <= n -> NoDup l -> (forall e, In e l -> 0 <= e < n) -> len l <= n.
Proof.
  intros Hn Hnd Hr. unfold len.
  assert (Hincl : incl l (map Z.of_nat (seq 0 (Z.to_nat n)))).
  { intros e He. specialize (Hr e He). replace e with (Z.of_nat (Z.to_nat e)) by lia. apply in_map. apply in_seq. lia. }
  pose proof (NoDup_incl_length Hnd Hincl) as H. rewrite map_length, seq_length in H. lia.
Qed.

Lemma lrun_run c ls s : lrun c s ls = run (lstep c) s ls.
Proof. apply run_unique; reflexivity. Qed.

Lemma srun_run c ls s : srun c s ls = run (sstep c) s ls.
Proof. apply run_unique; reflexivity. Qed.

Lemma hrun_run {St Lab} (step : St -> Lab -> option St) is_start is_tick h ls s :
  hrun step is_start is_tick h s ls = run (hstep step is_start is_tick h) s ls.
Proof. apply run_unique; reflexivity. Qed.

(* The heartbeat goroutine (wakeupWaiters) is the same in both pools: the four tick labels of [lstep] and of [sstep] read
   the waiter count and the availability, move [l_tick] / [s_tick], and broadcast or not.  [tick_step c w a t k] is that
   common part: the goroutine at t takes step k while the pool has w waiters and availability a; the result is where the
   goroutine is then and whether the step broadcasts.  PoolLm.v and PoolStd.v show that their tick labels are this
   (lstep_tick, sstep_tick); that the goroutine reaches its broadcast is proved here, of it alone. *)
Inductive tlab := KW (w : Z) | KA (a : bool) | KFire | KEnd.

Definition tick_step (c : pcfg) (w0 : Z) (a0 : bool) (t : tpc) (k : tlab) : option (tpc * bool) :=
  match k, t with
  | KW w, TIdle => if w =? w0 then Some (TW w, false) else None
  | KA a, TW w => if Bool.eqb a a0 then Some (TA w a, false) else None
  | KFire, TA w a => if tickc c (0 <? w) a then Some (TFired, true) else None
  | KEnd, TA w a => if tickc c (0 <? w) a then None else Some (TIdle, false)
  | KEnd, TFired => Some (TIdle, false)
  | _, _ => None
  end.

(* the steps that do not broadcast: they change nothing but the goroutine's own pc *)
Definition tick_quiet (c : pcfg) (w0 : Z) (a0 : bool) (t : tpc) (k : tlab) : option tpc :=
  match tick_step c w0 a0 t k with Some (t', false) => Some t' | _ => None end.

Definition is_KW (k : tlab) : bool := match k with KW _ => true | _ => false end.

(* With a waiter counted and capacity free, wherever the goroutine is, it reaches its broadcast: the iteration in flight
   fires, or it ends without firing (it loaded the waiter count too early) and the next one, the only one started, fires. *)
Lemma tick_fires c w0 t : tickc c true true = true -> 1 <= w0 ->
  exists ks t', (length (filter is_KW ks) <= 1)%nat /\ run (tick_quiet c w0 true) t ks = Some t' /\
                tick_step c w0 true t' KFire = Some (TFired, true).
Proof.
  intros Htick Hw.
  assert (Hfull : run (tick_quiet c w0 true) TIdle [KW w0; KA true] = Some (TA w0 true) /\
                  tick_step c w0 true (TA w0 true) KFire = Some (TFired, true)).
  { unfold tick_quiet. cbn [run tick_step]. rewrite Z.eqb_refl. cbn [tick_step Bool.eqb]. replace (0 <? w0) with true by lia. rewrite Htick. auto. }
  destruct Hfull as [Hrun Hfire].
  assert (Hvia : forall ks, run (tick_quiet c w0 true) t ks = Some TIdle -> filter is_KW ks = [] ->
            exists ks' t', (length (filter is_KW ks') <= 1)%nat /\ run (tick_quiet c w0 true) t ks' = Some t' /\
                           tick_step c w0 true t' KFire = Some (TFired, true)).
  { intros ks Hr Hk. exists (ks ++ [KW w0; KA true]), (TA w0 true). rewrite filter_app, Hk.
    split; [cbn; lia|]. split; [exact (run_trans _ _ _ _ _ _ Hr Hrun)|exact Hfire]. }
  destruct t as [|w|w a|]; unfold tick_quiet in *.
  - apply (Hvia []); reflexivity.
  - destruct (tickc c (0 <? w) true) eqn:Ec.
    + exists [KA true], (TA w true). cbn [run tick_step Bool.eqb]. rewrite Ec. auto.
    + apply (Hvia [KA true; KEnd]); cbn [run tick_step Bool.eqb]; rewrite ?Ec; reflexivity.
  - destruct (tickc c (0 <? w) a) eqn:Ec.
    + exists [], (TA w a). cbn [run tick_step]. rewrite Ec. auto.
    + apply (Hvia [KEnd]); cbn [run tick_step]; rewrite ?Ec; reflexivity.
  - apply (Hvia [KEnd]); reflexivity.
Qed.

(* The wake-up theorem of both pools.  A waking run visits only the start state with the goroutine's pc replaced ([e t]) and
   ends in the state after the broadcast with the goroutine at TFired ([fired TFired]).  All that is asked of the pool is
   what [step] does from [e t] along a tick label (Hstep; at the instances it is lstep_tick / sstep_tick, w0 being the
   waiter count of every [e t] and [true] its availability) and what its two classifiers say of tick labels. *)
Section TickWakes.
  Context {St Lab : Type} (step : St -> Lab -> option St) (of_tick : tlab -> Lab) (env tickw : Lab -> bool).
  Variables (c : pcfg) (w0 : Z) (e fired : tpc -> St).
  Hypothesis Hstep : forall t k, step (e t) (of_tick k) =
    match tick_step c w0 true t k with Some (t', bc) => Some ((if bc then fired else e) t') | None => None end.
  Hypothesis Henv : forall k, env (of_tick k) = false.
  Hypothesis Htickw : forall k, tickw (of_tick k) = is_KW k.

  Lemma run_quiet ks : forall t t', run (tick_quiet c w0 true) t ks = Some t' -> run step (e t) (map of_tick ks) = Some (e t').
  Proof.
    induction ks as [|k r IH]; intros t t' H; cbn [run map] in *; [injection H as <-; reflexivity|].
    rewrite Hstep. unfold tick_quiet in H. destruct (tick_step _ _ _ t k) as [[t1 [|]]|]; try discriminate H. exact (IH t1 t' H).
  Qed.

  Lemma ticks_of_tick ks : length (filter tickw (map of_tick ks)) = length (filter is_KW ks).
  Proof. induction ks as [|k r IH]; [reflexivity|]. cbn [map filter]. rewrite Htickw. destruct (is_KW k); cbn [length]; congruence. Qed.

  Lemma tick_wakes t : tickc c true true = true -> 1 <= w0 ->
    exists ls, forallb (fun l => negb (env l)) ls = true /\ (length (filter tickw ls) <= 1)%nat /\
               run step (e t) ls = Some (fired TFired).
  Proof.
    intros Htick Hw. destruct (tick_fires c w0 t Htick Hw) as (ks & t' & Hk & Hq & Hf).
    exists (map of_tick (ks ++ [KFire])). split; [|split].
    - apply forallb_forall. intros l [k [<- _]]%in_map_iff. rewrite Henv. reflexivity.
    - rewrite ticks_of_tick, filter_app, app_nil_r. exact Hk.
    - rewrite map_app. apply (run_trans _ _ _ _ _ _ (run_quiet ks t t' Hq)). cbn [map run]. rewrite Hstep, Hf. reflexivity.
  Qed.
End TickWakes.
