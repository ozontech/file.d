(* Proofs about Model/FileResume.v, in two layers.
   The resume logic on what the harness observes (content, delivered set, saved entry): [direct_cover],
   [direct_skipped_unsaved], [direct_single_stream], under the interface hypothesis [snap_sound_b] (a saved
   entry covers only delivered lines).
   The job as a transition system: [Step] is [step] as a relation, one rule per label; the invariant [Inv] speaks of
   the lines behind the reader (each delivered, skipped by a restart, or in flight: [i_behind]), of the lines in
   flight ([lif]: behind the reader, in read order, accepted by PassEvent) and of the offsets (they cover only
   delivered or skipped lines: [entries]); it is preserved by every admissible step ([step_inv], by cases of the
   relation), gives the safety statement ([inv_cover]) and the interface hypothesis at every kill instant
   ([reachable_snap_sound]); [Single] adds what holds with one stream per file, where a restart skips nothing
   and a truncation needs no side condition.  The refutation witnesses are closed histories, evaluated. *)
From Verif Require Import Base.Sx Model.FileResume Proofs.ListFacts.
From Verif Require Proofs.GoSemFacts.
From Coq Require Import Lia ZifyBool Sorted.

Lemma stream_eqb_spec (a b : stream) : reflect (a = b) (stream_eqb a b).
Proof. apply iff_reflect. symmetry. apply GoSemFacts.N_eqb_list_eq. Qed.
Lemma stream_eqb_refl a : stream_eqb a a = true.
Proof. now destruct (stream_eqb_spec a a). Qed.

Lemma line_eqb_eq a b : line_eqb a b = true <-> a = b.
Proof.
  unfold line_eqb. destruct a as [i e s], b as [i' e' s']; cbn.
  destruct (stream_eqb_spec s s') as [->|Hs]; [|rewrite andb_false_r; split; congruence].
  rewrite andb_true_r, andb_true_iff, !Z.eqb_eq. split; [intros [-> ->]; reflexivity | intros [= -> ->]; auto].
Qed.
Lemma mem_In l ls : mem l ls = true <-> In l ls.
Proof.
  unfold mem. rewrite existsb_exists. split.
  - intros [x [Hx He]]. apply line_eqb_eq in He. now subst.
  - intro H. exists l. split; [assumption | now apply line_eqb_eq].
Qed.
Lemma mem_false l ls : mem l ls = false <-> ~ In l ls.
Proof. rewrite <- mem_In. destruct (mem l ls); split; congruence. Qed.

Lemma lookup_In s o v : lookup s o = Some v -> In (s, v) o.
Proof.
  induction o as [|[k x] r IH]; cbn; [discriminate|].
  destruct (stream_eqb_spec k s) as [->|_]; [intros [= ->]; now left | right; now apply IH].
Qed.
Lemma In_lookup s o v : In (s, v) o -> exists v', lookup s o = Some v'.
Proof.
  induction o as [|[k x] r IH]; cbn; [contradiction|].
  intros [[= -> ->]|H]; [rewrite stream_eqb_refl; eauto | destruct (stream_eqb k s); eauto].
Qed.
Lemma lookup_None_notin s o : lookup s o = None -> forall v, ~ In (s, v) o.
Proof. intros H v Hi. apply In_lookup in Hi as [v' Hv]. congruence. Qed.

Lemma in_set_off s v o s' v' :
  In (s', v') (set_off s v o) -> (s' = s /\ v' = v) \/ In (s', v') o.
Proof.
  induction o as [|[k x] r IH]; cbn.
  - intros [[= <- <-]|[]]. now left.
  - destruct (stream_eqb_spec k s) as [->|_]; cbn.
    + intros [[= <- <-]|H]; [now left | right; now right].
    + intros [H|H]; [right; now left|]. apply IH in H as [H|H]; [now left | right; now right].
Qed.
Lemma lookup_set_off s v o s' :
  lookup s' (set_off s v o) = if stream_eqb s s' then Some v else lookup s' o.
Proof.
  induction o as [|[k x] r IH]; cbn; [reflexivity|].
  destruct (stream_eqb_spec k s) as [->|Hk]; cbn; [now destruct (stream_eqb s s')|].
  rewrite IH. destruct (stream_eqb_spec k s'), (stream_eqb_spec s s'); congruence.
Qed.
Lemma set_off_nonempty s v o : set_off s v o <> [].
Proof. destruct o as [|[k x] r]; cbn; [discriminate|]. destruct (stream_eqb k s); discriminate. Qed.

Lemma min_off_le o s v : In (s, v) o -> min_off o <= v.
Proof.
  induction o as [|[k x] r IH]; cbn [min_off In]; [contradiction|].
  intros [H|H]; [inversion H; subst; lia | apply IH in H; lia].
Qed.
Lemma in_zeroed s v o : In (s, v) (map (fun kv : stream * Z => (fst kv, 0)) o) -> v = 0.
Proof. intro H. apply in_map_iff in H as [[k x] [[= _ <-] _]]. reflexivity. Qed.

(* PassEvent rejects a line only below a stored offset of its stream *)
Lemma pass_false o l : pass_event o l = false -> exists v, In (l_stream l, v) o /\ l_end l <= v.
Proof.
  unfold pass_event. destruct (lookup (l_stream l) o) as [v|] eqn:E; [|discriminate].
  intro H. exists v. split; [now apply lookup_In | lia].
Qed.
Lemma pass_true o l : (forall v, In (l_stream l, v) o -> v < l_end l) -> pass_event o l = true.
Proof.
  intro H. unfold pass_event. destruct (lookup (l_stream l) o) as [v|] eqn:E; [|reflexivity].
  apply lookup_In, H in E. lia.
Qed.
Lemma pass_set_off cur s v l :
  pass_event cur l = true -> (l_stream l = s -> v < l_end l) -> pass_event (set_off s v cur) l = true.
Proof.
  intros Hp Hv. unfold pass_event in *. rewrite lookup_set_off.
  destruct (stream_eqb_spec s (l_stream l)) as [E|]; [apply Z.ltb_lt; auto | exact Hp].
Qed.

Lemma sorted_from_weaken lo lo' ls : lo' <= lo -> sorted_from lo ls = true -> sorted_from lo' ls = true.
Proof.
  destruct ls as [|l r]; cbn; [reflexivity|]. intros Hle H.
  apply andb_true_iff in H as [H1 H2]. apply andb_true_iff. split; [lia | assumption].
Qed.
Lemma sorted_from_bounds lo ls : sorted_from lo ls = true ->
  lo <= top lo ls /\ forall l, In l ls -> lo < l_end l <= top lo ls.
Proof.
  revert lo. induction ls as [|x r IH]; intros lo H; cbn in *; [split; [lia | intros ? []]|].
  apply andb_true_iff in H as [H1 H2]. destruct (IH _ H2) as [Ht Hr]. split; [lia|].
  intros l [->|Hin]; [lia | specialize (Hr _ Hin); lia].
Qed.
Lemma sorted_from_app lo a b :
  sorted_from lo a = true -> sorted_from (top lo a) b = true -> sorted_from lo (a ++ b) = true.
Proof.
  revert lo. induction a as [|x r IH]; intros lo Ha Hb; cbn in *; [assumption|].
  apply andb_true_iff in Ha as [H1 H2]. apply andb_true_iff. split; [assumption | now apply IH].
Qed.
Lemma top_app lo a b : top lo (a ++ b) = top (top lo a) b.
Proof. revert lo. induction a as [|x r IH]; intros lo; cbn; [reflexivity | apply IH]. Qed.

(* the next line after [p]: the lines that end at or before its end are itself and those that end at or before [p] *)
Lemma find_next lo c p l :
  sorted_from lo c = true -> find (fun l => p <? l_end l) c = Some l ->
  In l c /\ p < l_end l /\ forall l', In l' c -> l_end l' <= l_end l -> l' = l \/ l_end l' <= p.
Proof.
  revert lo. induction c as [|x r IH]; intros lo Hs Hf; [discriminate|].
  cbn in Hs, Hf. apply andb_true_iff in Hs as [H1 H2]. destruct (p <? l_end x) eqn:E.
  - injection Hf as <-. split; [now left|]. split; [lia|].
    intros l' [->|Hin] Hle; [now left|]. pose proof (proj2 (sorted_from_bounds _ _ H2) _ Hin). lia.
  - destruct (IH _ H2 Hf) as [Hi [Hp Hu]]. split; [now right|]. split; [assumption|].
    intros l' [->|Hin] Hl'; [right; lia | now apply Hu].
Qed.
Lemma find_none p c : find (fun l => p <? l_end l) c = None -> forall l, In l c -> l_end l <= p.
Proof.
  intros H l Hin. pose proof (find_none _ _ H _ Hin) as Hx. cbn in Hx. lia.
Qed.

(* the resume logic on (content, delivered set, saved entry): the form the harness evaluates. [sound]: an entry
   (s, v) covers only lines that are in [acc]. *)
Definition sound (content acc : list line) (o : offsets) : Prop :=
  forall s v, In (s, v) o -> forall l, In l content -> l_stream l = s -> l_end l <= v -> In l acc.

Lemma snap_sound_b_spec content acc o : snap_sound_b content acc o = true <-> sound content acc o.
Proof.
  unfold snap_sound_b, sound. rewrite forallb_forall. split.
  - intros H s v Hsv l Hin Hs Hle. specialize (H _ Hsv). rewrite forallb_forall in H. specialize (H _ Hin).
    cbn [fst snd] in H. rewrite Hs, stream_eqb_refl in H. apply mem_In. destruct (mem l acc); [reflexivity | lia].
  - intros H [s v] Hsv. rewrite forallb_forall. intros l Hin. cbn [fst snd].
    destruct (stream_eqb_spec (l_stream l) s) as [Es|]; [|reflexivity]. destruct (l_end l <=? v) eqn:Ev; [|reflexivity].
    cbn. apply mem_In. apply (H s v); [assumption | assumption | assumption | lia].
Qed.
Lemma no_loss_b_spec content a b :
  no_loss_b content a b = true <-> forall l, In l content -> In l a \/ In l b.
Proof.
  unfold no_loss_b. rewrite forallb_forall. split; intros H l Hl; specialize (H l Hl).
  - apply orb_true_iff in H. now rewrite !mem_In in H.
  - apply orb_true_iff. now rewrite !mem_In.
Qed.
Lemma skipped_In content acc d l :
  In l (skipped content acc d) <-> In l content /\ l_end l <= seek_of d /\ ~ In l acc.
Proof.
  unfold skipped. rewrite filter_In, andb_true_iff, negb_true_iff, mem_false, Z.leb_le. reflexivity.
Qed.
Lemma resume_In content d l :
  In l (resume_delivered content d) <-> In l content /\ seek_of d < l_end l /\ pass_event (loaded d) l = true.
Proof. unfold resume_delivered. rewrite filter_In, andb_true_iff, Z.ltb_lt. reflexivity. Qed.

Theorem direct_cover content acc d :
  snap_sound_b content acc (loaded d) = true ->
  forall l, In l content ->
    In l acc \/ In l (skipped content acc d) \/ In l (resume_delivered content d).
Proof.
  intros Hs l Hin. rewrite snap_sound_b_spec in Hs.
  destruct (mem l acc) eqn:Em; [left; now apply mem_In|]. apply mem_false in Em.
  destruct (Z_le_gt_dec (l_end l) (seek_of d)) as [Hle|Hgt]; [right; left; apply skipped_In; auto|].
  destruct (pass_event (loaded d) l) eqn:Ep; [right; right; apply resume_In; auto with zarith|].
  apply pass_false in Ep as (z & Hz & Hle). left. exact (Hs _ _ Hz _ Hin eq_refl Hle).
Qed.

Theorem direct_skipped_unsaved content acc d :
  sorted_from 0 content = true -> snap_sound_b content acc (loaded d) = true ->
  forall l, In l (skipped content acc d) ->
    lookup (l_stream l) (loaded d) = None /\ d <> None /\ l_end l <= seek_of d /\ ~ In l (resume_delivered content d).
Proof.
  intros Hso Hs l Hsk. rewrite snap_sound_b_spec in Hs. apply skipped_In in Hsk as [Hin [Hle Hne]].
  split; [|split; [|split; [assumption|]]].
  - destruct (lookup (l_stream l) (loaded d)) as [z|] eqn:El; [|reflexivity].
    apply lookup_In in El. pose proof (min_off_le _ _ _ El) as Hm.
    assert (Hz : l_end l <= z) by (destruct d as [o|]; cbn [seek_of loaded] in *; [lia | contradiction]).
    exfalso. apply Hne. exact (Hs _ _ El _ Hin eq_refl Hz).
  - intros ->. cbn in Hle. pose proof (proj2 (sorted_from_bounds _ _ Hso) _ Hin). lia.
  - intro Hr. apply resume_In in Hr as [_ [Hr _]]. lia.
Qed.

(* one stream: a saved entry has an offset for the stream of every line, so a restart skips nothing *)
Lemma single_stream_skips_nothing content acc d s0 :
  sorted_from 0 content = true -> (forall l, In l content -> l_stream l = s0) ->
  (forall s v, In (s, v) (loaded d) -> s = s0) -> d <> Some [] ->
  snap_sound_b content acc (loaded d) = true ->
  forall l, ~ In l (skipped content acc d).
Proof.
  intros Hso Hone Hkeys Hne Hs l C. destruct (direct_skipped_unsaved _ _ _ Hso Hs _ C) as [Hn [Hd _]].
  apply skipped_In in C as [Hin _].
  destruct d as [[|[k x] r]|]; [now apply Hne | | now apply Hd]. cbn [loaded] in *.
  assert (Hk : k = s0) by (apply (Hkeys k x); now left). subst k.
  rewrite (Hone _ Hin) in Hn. cbn in Hn. now rewrite stream_eqb_refl in Hn.
Qed.

Theorem direct_single_stream content acc d s0 :
  sorted_from 0 content = true -> (forall l, In l content -> l_stream l = s0) ->
  (forall s v, In (s, v) (loaded d) -> s = s0) -> d <> Some [] ->
  snap_sound_b content acc (loaded d) = true ->
  no_loss_b content acc (resume_delivered content d) = true.
Proof.
  intros Hso Hone Hkeys Hne Hs. apply no_loss_b_spec. intros l Hin.
  destruct (direct_cover _ _ _ Hs _ Hin) as [C|[C|C]]; [now left | | now right].
  now apply (single_stream_skips_nothing _ _ _ _ Hso Hone Hkeys Hne Hs) in C.
Qed.

Lemma in_mid {A} (a b : list A) (e e' x : A) : In x (a ++ e' :: b) -> x = e' \/ In x (a ++ e :: b).
Proof. rewrite !in_app_iff. cbn. intuition. Qed.
Lemma in_drop {A} (a b : list A) (e x : A) : In x (a ++ b) -> In x (a ++ e :: b).
Proof. rewrite !in_app_iff. cbn. intuition. Qed.

(* the events read after the last truncation *)
Definition live (fl : list ev) : list ev := filter (fun e => negb (e_old e)) fl.
Lemma live_app a b : live (a ++ b) = live a ++ live b.
Proof. apply filter_app. Qed.
Lemma live_In e fl : In e (live fl) <-> In e fl /\ e_old e = false.
Proof. unfold live. rewrite filter_In. now rewrite negb_true_iff. Qed.
Lemma live_cons_new e fl : e_old e = false -> live (e :: fl) = e :: live fl.
Proof. intro H. unfold live. cbn. now rewrite H. Qed.
Lemma live_cons_old e fl : e_old e = true -> live (e :: fl) = live fl.
Proof. intro H. unfold live. cbn. now rewrite H. Qed.
Lemma live_all_old fl : live (map (fun e => mkE (e_seq e) (e_line e) (e_done e) true) fl) = [].
Proof. induction fl as [|x r IH]; [reflexivity|]. cbn [map]. now rewrite live_cons_old. Qed.

Lemma some_inj {A} (x y : A) : Some x = Some y -> x = y.
Proof. now inversion 1. Qed.

(* the state after a commit: the event leaves the flight list, the offsets may change, Commit may panic *)
Definition st_commit (st : state) (fl : list ev) (cur' : offsets) (pan : bool) : state :=
  upd st (content st) (partial st) (pos st) (tail st) cur' (disk st) fl (seqs st) (last_seq st) (ign st) pan
      (ever st) (gone st) (out st) (fresh st).

(* [step] as a relation, one rule per label: the guards as propositions, the event addressed by a deliver or a
   commit as a split of the flight list. A panicked process can only be restarted (the writer goes on appending).
   In [SCommit] Commit's test (a stored offset v with l_end <= v: Panicf offset corruption) is written
   [pass_event (cur st) (e_line e) = false]: it is the negation of PassEvent's test, which is how [i_lif] excludes the panic. *)
Inductive Step (st : state) : act -> state -> Prop :=
| SAppend ls part (Hs : sorted_from (fsize st) ls = true) (Hp : 0 <= part) :
    Step st (AAppend ls part)
      (upd st (content st ++ ls) (match ls with [] => partial st + part | _ => part end) (pos st) (tail st)
           (cur st) (disk st) (flight st) (seqs st) (last_seq st) (ign st) (panicked st)
           (ever st) (gone st) (out st) (fresh st))
| SRead l (Hn : panicked st = false) (Hl : next_line st = Some l) :
    Step st ARead
      (if pass_event (cur st) l then
         let q := next_seq (l_stream l) (seqs st) in
         upd st (content st) (partial st) (l_end l) 0 (cur st) (disk st)
             (flight st ++ [mkE q l false false]) (set_off (l_stream l) q (seqs st)) q (ign st) false
             (ever st) (gone st) (out st) (fresh st)
       else
         upd st (content st) (partial st) (l_end l) 0 (cur st) (disk st) (flight st) (seqs st) (last_seq st)
             (ign st) false (ever st) (gone st) (out st) (fresh st))
| SReadEOF (Hn : panicked st = false) (Hl : next_line st = None) :
    Step st AReadEOF
      (upd st (content st) (partial st) (pos st) (partial st) (cur st) (disk st) (flight st) (seqs st)
           (last_seq st) (ign st) false (ever st) (gone st) (out st) (fresh st))
| SReadJunk (Hn : panicked st = false) :
    Step st AReadJunk
      (upd st (content st) (partial st) (pos st) (tail st) (cur st) (disk st) (flight st) (seqs st)
           (last_seq st) (ign st) false (ever st) (gone st) (out st) (fresh st))
| SDeliver k a e b (Hn : panicked st = false) (Hsp : flight st = a ++ e :: b) (Hd : e_done e = false) :
    Step st (ADeliver k)
      (upd st (content st) (partial st) (pos st) (tail st) (cur st) (disk st)
           (a ++ mkE (e_seq e) (e_line e) true (e_old e) :: b) (seqs st) (last_seq st) (ign st) false
           (if e_old e then ever st else e_line e :: ever st) (gone st) (e_line e :: out st) (fresh st))
| SCommit k a e b cur' pan (Hn : panicked st = false) (Hsp : flight st = a ++ e :: b) (Hd : e_done e = true)
    (Hfirst : forallb (fun e' => negb (same_stream (l_stream (e_line e)) e')) a = true)
    (Hc : (e_seq e <= ign st /\ cur' = cur st /\ pan = false) \/
          (ign st < e_seq e /\ pass_event (cur st) (e_line e) = false /\ cur' = cur st /\ pan = true) \/
          (ign st < e_seq e /\ pass_event (cur st) (e_line e) = true /\
           cur' = set_off (l_stream (e_line e)) (l_end (e_line e)) (cur st) /\ pan = false)) :
    Step st (ACommit k) (st_commit st (a ++ b) cur' pan)
| SSave (Hn : panicked st = false) :
    Step st ASave
      (upd st (content st) (partial st) (pos st) (tail st) (cur st)
           (match cur st with [] => None | _ :: _ => Some (cur st) end)
           (flight st) (seqs st) (last_seq st) (ign st) false (ever st) (gone st) (out st) true)
| SCrash :
    Step st ACrash
      (upd st (content st) (partial st) (seek_of (disk st)) 0 (loaded (disk st)) (disk st) [] [] 0 0 false
           (ever st) (skipped (content st) (ever st) (disk st) ++ gone st) [] (fresh st))
| STruncate ls part (Hn : panicked st = false) (Hs : sorted_from 0 ls = true) (Hp : 0 <= part)
    (Hlt : top 0 ls + part < pos st + tail st) :
    Step st (ATruncate ls part)
      (upd st ls part 0 0 (map (fun kv => (fst kv, 0)) (cur st)) (disk st)
           (map (fun e => mkE (e_seq e) (e_line e) (e_done e) true) (flight st))
           (seqs st) (last_seq st) (last_seq st) false [] [] (out st) false).

Lemma step_Step st a st' : step st a = Some st' -> Step st a st'.
Proof.
  intro H. destruct a; unfold step in H; cbv beta iota in H;
    destruct (panicked st) eqn:Hp; try discriminate H; step_split H; apply some_inj in H; subst st'; bnorm.
  (* 15 goals, in the order of [act] and of the branches of [step]: append (panicked, not panicked); read (accepted,
     rejected); EOF; junk; deliver; commit (ignored, panic, stored over an entry, stored first); save; crash (panicked,
     not panicked); truncate.  An append keeps [panicked st]; the two reads are the two values of the test in [SRead];
     the four commits share the split of the flight list *)
  1-2: rewrite <- Hp; constructor; assumption.
  1-2: match goal with E : pass_event _ _ = _, F : next_line _ = _ |- _ =>
         pose proof (SRead st _ Hp F) as S; rewrite E in S; exact S end.
  1-2, 8-11: constructor; solve [assumption | reflexivity].
  1: eapply SDeliver; [assumption | eapply nth_error_firstn_skipn; eassumption | assumption].
  all: eapply SCommit; [assumption | eapply nth_error_firstn_skipn; eassumption | assumption | assumption |]; unfold pass_event;
    try match goal with E : lookup _ _ = _ |- _ => rewrite E end.
  - left. auto.
  - right; left. repeat split; [assumption | now apply Z.ltb_ge].
  - right; right. repeat split; [assumption | now apply Z.ltb_lt].
  - right; right. auto.
Qed.

(* the entries [o] cover only lines in [acc], and lie within the file *)
Definition entries (content acc : list line) (o : offsets) : Prop :=
  sound content acc o /\ forall s v, In (s, v) o -> v <= top 0 content.

Lemma entries_acc content acc acc' o : incl acc acc' -> entries content acc o -> entries content acc' o.
Proof. intros Hi [S B]. split; [|exact B]. intros s v Hsv l Hl Hs Hle. apply Hi. exact (S s v Hsv l Hl Hs Hle). Qed.
Lemma entries_app content ls acc o :
  sorted_from (top 0 content) ls = true -> entries content acc o -> entries (content ++ ls) acc o.
Proof.
  intros Hs [S B]. apply sorted_from_bounds in Hs as [Htop Hnew]. rewrite <- top_app in Htop.
  split; intros s v Hsv; specialize (B _ _ Hsv); [|lia].
  intros l Hl Hs Hle. apply in_app_or in Hl as [Hl|Hl]; [exact (S s v Hsv l Hl Hs Hle)|]. specialize (Hnew _ Hl). lia.
Qed.

Lemma entries_set_off content acc cur s v :
  entries content acc cur -> v <= top 0 content ->
  (forall l, In l content -> l_stream l = s -> l_end l <= v -> In l acc) ->
  entries content acc (set_off s v cur).
Proof. intros [S B] Hv Hs. split; intros s' v' Hsv; apply in_set_off in Hsv as [[-> ->]|Hsv]; eauto. Qed.

(* the lines in flight, in read order: of the events read before the last truncation the invariant sees only the
   SeqIDs ([i_ev]) *)
Definition lif (fl : list ev) : list line := map e_line (live fl).
Lemma lif_app a b : lif (a ++ b) = lif a ++ lif b.
Proof. unfold lif. now rewrite live_app, map_app. Qed.
Lemma lif_cons e r : lif (e :: r) = if e_old e then lif r else e_line e :: lif r.
Proof. unfold lif. destruct (e_old e) eqn:E; [now rewrite live_cons_old | now rewrite live_cons_new]. Qed.
Lemma lif_In l fl : In l (lif fl) -> exists e, In e fl /\ e_line e = l.
Proof. intro H. apply in_map_iff in H as [e [<- He]]. apply live_In in He as [? _]. eauto. Qed.
Lemma lif_all_old fl : lif (map (fun e => mkE (e_seq e) (e_line e) (e_done e) true) fl) = [].
Proof. unfold lif. now rewrite live_all_old. Qed.

Record Inv (st : state) : Prop := {
  i_sorted : sorted_from 0 (content st) = true;
  i_part : 0 <= partial st;
  i_behind : forall l, In l (content st) -> l_end l <= pos st -> In l (ever st ++ gone st) \/ In l (lif (flight st));
  i_cur : entries (content st) (ever st ++ gone st) (cur st);
  i_pos : pos st <= top 0 (content st);
  i_lif : forall l, In l (lif (flight st)) -> l_end l <= pos st /\ pass_event (cur st) l = true;
  i_fincr : StronglySorted Z.lt (map l_end (lif (flight st)));
  (* reads [if .. then .. else (.. -> ..)]: an event read before the last truncation is known by its SeqID only, which
     Commit ignores (<= ignoreEventsLE); a delivered event of the present content is in [ever] *)
  i_ev : forall e, In e (flight st) ->
      if e_old e then e_seq e <= ign st else e_done e = true -> In (e_line e) (ever st);
  i_nopanic : panicked st = false;
  (* [<> Some []]: save does not write a job without offsets (offset.go) and initJobOffset panics on an entry without
     streams (provider.go); with one stream it gives the restart an offset for every line (single_stream_skips_nothing) *)
  i_disk : fresh st = true -> entries (content st) (ever st ++ gone st) (loaded (disk st)) /\ disk st <> Some []
}.

Lemma inv_init : Inv init.
Proof.
  assert (E0 : entries [] [] []) by (split; intros ? ? []).
  constructor; cbn; try reflexivity; try lia; try (intros; contradiction); try trivial; [constructor|].
  intros _. split; [assumption | discriminate].
Qed.

(* [Inv] of a successor state, clause by clause; a clause the step leaves alone is the same clause of [I] *)
Ltac mk_inv I := constructor;
  cbn [upd st_commit content partial pos tail cur disk flight seqs last_seq ign panicked ever gone out fresh];
  [ try exact (i_sorted _ I) | try exact (i_part _ I) | try exact (i_behind _ I) | try exact (i_cur _ I)
  | try exact (i_pos _ I) | try exact (i_lif _ I) | try first [exact (i_fincr _ I) | constructor] | try exact (i_ev _ I)
  | try first [exact (i_nopanic _ I) | reflexivity] | try exact (i_disk _ I) ].

(* a delivered event of the present content leaves the flight list and the offsets become [cur']: what [cur'] has to satisfy *)
Lemma commit_inv st a e b cur' :
  Inv st -> flight st = a ++ e :: b -> e_old e = false -> e_done e = true ->
  entries (content st) (ever st ++ gone st) cur' ->
  (forall l, In l (lif a ++ lif b) -> pass_event cur' l = true) ->
  Inv (st_commit st (a ++ b) cur' false).
Proof.
  intros I Hsp Ho Hd Hcur Hpass.
  assert (HL : lif (flight st) = lif a ++ e_line e :: lif b) by (rewrite Hsp, lif_app, lif_cons, Ho; reflexivity).
  mk_inv I; rewrite ?lif_app; try assumption.
  - intros l Hin Hle. destruct (i_behind _ I _ Hin Hle) as [C|C]; [now left|].
    rewrite HL in C. apply in_elt_inv in C as [E|C]; [subst l; left | now right].
    apply in_or_app. left. pose proof (i_ev _ I e) as He. rewrite Ho, Hsp in He. apply He; [apply in_elt | exact Hd].
  - intros l Hl. split; [apply (i_lif _ I); rewrite HL; now apply in_drop | now apply Hpass].
  - pose proof (i_fincr _ I) as Hi. rewrite HL, map_app in Hi. apply sorted_mid in Hi as [_ Hi]. now rewrite map_app.
  - intros x Hx. apply (i_ev _ I). rewrite Hsp. now apply in_drop.
Qed.

(* the guard of a commit: the oldest event of its stream in flight; the later lines of that stream end after its line *)
Lemma oldest_of_stream a e b :
  StronglySorted Z.lt (map l_end (lif (a ++ e :: b))) -> e_old e = false ->
  forallb (fun e' => negb (same_stream (l_stream (e_line e)) e')) a = true ->
  forall l, In l (lif a ++ lif b) -> l_stream l = l_stream (e_line e) -> l_end (e_line e) < l_end l.
Proof.
  intros Hi Ho Hfirst l Hl Hs. rewrite lif_app, lif_cons, Ho, map_app in Hi. apply sorted_mid in Hi as [Hafter _].
  apply in_app_or in Hl as [Hl|Hl]; [|rewrite Forall_forall in Hafter; apply Hafter, in_map, Hl].
  apply lif_In in Hl as (x & Hx & <-). rewrite forallb_forall in Hfirst. specialize (Hfirst _ Hx).
  unfold same_stream in Hfirst. rewrite Hs, stream_eqb_refl in Hfirst. discriminate.
Qed.

Lemma commit_set_inv st a e b :
  Inv st -> flight st = a ++ e :: b -> e_old e = false -> e_done e = true ->
  forallb (fun e' => negb (same_stream (l_stream (e_line e)) e')) a = true ->
  Inv (st_commit st (a ++ b) (set_off (l_stream (e_line e)) (l_end (e_line e)) (cur st)) false).
Proof.
  intros I Hsp Ho Hd Hfirst.
  assert (HL : lif (flight st) = lif a ++ e_line e :: lif b) by (rewrite Hsp, lif_app, lif_cons, Ho; reflexivity).
  pose proof (i_fincr _ I) as Hrest. rewrite Hsp in Hrest. pose proof (oldest_of_stream _ _ _ Hrest Ho Hfirst) as Hold. clear Hrest.
  assert (Hev : l_end (e_line e) <= pos st) by (apply (i_lif _ I); rewrite HL; apply in_elt).
  pose proof (i_ev _ I e) as Hever. rewrite Ho, Hsp in Hever. specialize (Hever (in_elt _ _ _) Hd).
  pose proof (i_pos _ I) as Hpos.
  apply (commit_inv st a e b); try assumption.
  - apply entries_set_off; [apply I | clear - Hev Hpos; lia |].
    intros l Hin Hs Hle. destruct (i_behind _ I _ Hin ltac:(lia)) as [C|C]; [exact C|].
    rewrite HL in C. apply in_elt_inv in C as [E|C]; [subst l; apply in_or_app; now left|].
    specialize (Hold _ C Hs). clear - Hle Hold. lia.
  - intros l Hl. apply pass_set_off; [apply (i_lif _ I l); rewrite HL; now apply in_drop | intros Es; now apply Hold].
Qed.

Lemma inv_snap_sound st : Inv st -> fresh st = true ->
  snap_sound_b (content st) (ever st ++ gone st) (loaded (disk st)) = true.
Proof. intros I Hf. apply snap_sound_b_spec, (i_disk _ I Hf). Qed.

Lemma step_inv st a st' : Inv st -> adm st a = true -> Step st a st' -> Inv st'.
Proof.
  intros I Ha H. destruct H.
  - (* append: the new lines end beyond [top], hence ahead of the reader and of every entry *)
    unfold fsize in Hs. pose proof (i_part _ I) as Hp0. pose proof (i_pos _ I) as Hpos.
    assert (Es' : sorted_from (top 0 (content st)) ls = true) by (eapply sorted_from_weaken; [|exact Hs]; lia).
    destruct (sorted_from_bounds _ _ Es') as [Htop Hnew]. rewrite <- top_app in Htop.
    mk_inv I.
    + apply sorted_from_app; [apply I | exact Es'].
    + clear - Hp Hp0. destruct ls; lia.
    + intros l Hin Hle. apply in_app_or in Hin as [Hin|Hin]; [now apply (i_behind _ I)|].
      specialize (Hnew _ Hin). clear - Hnew Hpos Hle. lia.
    + apply entries_app; [exact Es' | apply I].
    + clear - Hpos Htop. lia.
    + intro Hf. destruct (i_disk _ I Hf) as [D D3]. split; [now apply entries_app | assumption].
  - (* read: the reader moves to the end of [l], the first line beyond [pos], so [l] is the one line that comes to lie
       behind it *)
    unfold next_line in Hl. destruct (find_next _ _ _ _ (i_sorted _ I) Hl) as [Hin [Hpl Huniq]].
    pose proof (proj2 (sorted_from_bounds _ _ (i_sorted _ I)) _ Hin) as [_ Hletop].
    assert (Hlif : forall l', In l' (lif (flight st)) -> l_end l' <= l_end l /\ pass_event (cur st) l' = true).
    { intros l' Hl'. destruct (i_lif _ I _ Hl') as [B D]. split; [clear - B Hpl; lia | exact D]. }
    destruct (pass_event (cur st) l) eqn:Ep; mk_inv I; rewrite ?lif_app; try exact Hletop.
    + (* accepted: the line is in flight *)
      intros l' Hin' Hle. rewrite (in_app_iff (lif _)).
      destruct (Huniq _ Hin' Hle) as [->|C]; [right; right; now left | destruct (i_behind _ I _ Hin' C); tauto].
    + intros l' Hl'. apply in_app_or in Hl' as [Hl'|[<-|[]]]; [now apply Hlif | split; [apply Z.le_refl | exact Ep]].
    + rewrite map_app. apply sorted_app. split; [apply I|]. split; [repeat constructor|]. intros x ? Hx [<-|[]].
      apply in_map_iff in Hx as [l' [<- Hl']]. destruct (i_lif _ I _ Hl') as [B _]. cbn. clear - B Hpl. lia.
    + intros e He. apply in_app_or in He as [He|[<-|[]]]; [now apply (i_ev _ I) | discriminate].
    + (* rejected: an entry of its stream covers the line, so it is delivered or was skipped *)
      intros l' Hin' Hle. destruct (Huniq _ Hin' Hle) as [->|C]; [|exact (i_behind _ I _ Hin' C)].
      apply pass_false in Ep as (z & Hz & Hz'). left. exact (proj1 (i_cur _ I) _ _ Hz _ Hin eq_refl Hz').
    + exact Hlif.
  - (* EOF moves only [tail], which the invariant does not mention; a line the pipeline rejects moves nothing *)
    mk_inv I.
  - mk_inv I.
  - (* deliver: the event keeps its place, its line and its age; [ever] grows by the line unless the event is an old one *)
    set (ever' := if e_old e then ever st else e_line e :: ever st).
    assert (Hev : incl (ever st) ever') by (subst ever'; destruct (e_old e); [apply incl_refl | apply incl_tl, incl_refl]).
    assert (Hacc : incl (ever st ++ gone st) (ever' ++ gone st)) by (apply incl_app; [apply incl_appl, Hev | apply incl_appr, incl_refl]).
    assert (HL : lif (a ++ mkE (e_seq e) (e_line e) true (e_old e) :: b) = lif (flight st)) by (rewrite Hsp, !lif_app, !lif_cons; reflexivity).
    mk_inv I; rewrite ?HL; try apply I.
    + intros l Hin Hle. destruct (i_behind _ I _ Hin Hle) as [C|C]; [left; now apply Hacc | now right].
    + exact (entries_acc _ _ _ _ Hacc (i_cur _ I)).
    + intros x Hx. apply (in_mid _ _ e) in Hx as [->|Hx]; cbn.
      * pose proof (i_ev _ I e) as He. subst ever'. destruct (e_old e); [apply He; rewrite Hsp; apply in_elt | intros _; now left].
      * rewrite <- Hsp in Hx. pose proof (i_ev _ I x Hx) as He. destruct (e_old x); [exact He | intro; now apply Hev, He].
    + intro Hf. destruct (i_disk _ I Hf) as [D D3]. split; [exact (entries_acc _ _ _ _ Hacc D) | assumption].
  - pose proof (i_ev _ I e) as He. rewrite Hsp in He. specialize (He (in_elt _ _ _)).
    destruct (e_old e) eqn:Eo.
    + (* commit of an event read before the last truncation: its SeqID is <= ignoreEventsLE ([i_ev]), so the offsets stay,
         and the invariant does not see it go *)
      destruct Hc as [(_ & -> & ->)|[(? & _)|(? & _)]]; [|clear - He H; lia|clear - He H; lia].
      assert (HL : lif (a ++ b) = lif (flight st)) by (rewrite Hsp, !lif_app, lif_cons, Eo; reflexivity).
      mk_inv I; rewrite ?HL; try apply I.
      intros x Hx. apply (i_ev _ I). rewrite Hsp. now apply in_drop.
    + (* commit of an event of the present content: PassEvent accepted the line when it was read and the offsets have
         not passed it since ([i_lif]), so Commit does not panic *)
      assert (HeL : In (e_line e) (lif (flight st))) by (rewrite Hsp, lif_app, lif_cons, Eo; apply in_elt).
      destruct Hc as [(_ & -> & ->)|[(_ & Hx & _)|(_ & _ & -> & ->)]].
      * apply (commit_inv st a e b); try assumption; [apply I|].
        intros l Hl. apply (i_lif _ I l). rewrite Hsp, lif_app, lif_cons, Eo. apply in_drop, Hl.
      * destruct (i_lif _ I _ HeL) as (_ & Hp). congruence.
      * now apply commit_set_inv.
  - (* save: the file on disk holds [cur]; an empty map is not written *)
    pose proof (i_cur _ I) as Hc. mk_inv I.
    intros _. destruct (cur st); (split; [exact Hc | discriminate]).
  - (* restart, admissible once a save has followed the last truncation, so that the saved entries are of the present
       content ([i_disk]): nothing is in flight, a line behind the seek point is delivered or counted as skipped, and
       the seek point is one of the entries, so within the file *)
    cbn in Ha. destruct (i_disk _ I Ha) as [D D3].
    assert (Hacc : incl (ever st ++ gone st) (ever st ++ skipped (content st) (ever st) (disk st) ++ gone st))
      by (apply incl_app; [apply incl_appl | apply incl_appr, incl_appr]; apply incl_refl).
    apply (entries_acc _ _ _ _ Hacc) in D.
    mk_inv I; try (intros ? []); try assumption.
    + intros l Hin Hle. left. rewrite !in_app_iff, skipped_In. destruct (mem l (ever st)) eqn:E; [apply mem_In in E | apply mem_false in E]; tauto.
    + destruct (disk st) as [[|[k x] r]|]; cbn [seek_of loaded] in *; [now destruct D3 | | apply sorted_from_bounds, I].
      assert (Hk : In (k, x) ((k, x) :: r)) by now left.
      pose proof (min_off_le _ _ _ Hk) as Hm. apply D in Hk. clear - Hm Hk. lia.
    + now intros _.
  - (* truncate: every line is ahead of the reader at 0 and of the zeroed entries, every event becomes an old one, and
       [trunc_safe] is what [i_ev] asks of them under ignoreEventsLE = lastEventSeq *)
    destruct (sorted_from_bounds _ _ Hs) as [Htop Hpos].
    mk_inv I; rewrite ?lif_all_old; try assumption; try (intros ? []); try discriminate; try exact (SSorted_nil _).
    + intros l Hin Hle. specialize (Hpos _ Hin). lia.
    + split; intros s v Hsv; apply in_zeroed in Hsv; [|lia]. intros l Hin _ Hle. specialize (Hpos _ Hin). lia.
    + intros e He. apply in_map_iff in He as [x [<- Hx]]. cbn.
      cbn [adm] in Ha. unfold trunc_safe in Ha. rewrite forallb_forall in Ha. specialize (Ha _ Hx). lia.
Qed.

(* the safety statement. Behind the reader it is [i_behind]; ahead of it, a line PassEvent would reject lies under an
   entry of its stream, and the entries cover only delivered or skipped lines ([i_cur]) *)
Lemma inv_cover st : Inv st -> forall l, In l (content st) ->
  In l (ever st) \/ In l (gone st) \/ In l (lif (flight st)) \/ (pos st < l_end l /\ pass_event (cur st) l = true).
Proof.
  intros I l Hin. rewrite <- or_assoc, <- in_app_iff.
  destruct (Z_le_gt_dec (l_end l) (pos st)) as [C|C]; [destruct (i_behind _ I _ Hin C); tauto|].
  destruct (pass_event (cur st) l) eqn:Ep; [right; right; split; [lia | reflexivity]|].
  apply pass_false in Ep as (z & Hz & Hz'). left. exact (proj1 (i_cur _ I) _ _ Hz _ Hin eq_refl Hz').
Qed.

(* what every admissible step preserves holds along [run_adm]; [ok] restricts the labels *)
Lemma run_adm_ind (P : state -> Prop) (ok : act -> bool) :
  (forall st a st', P st -> ok a = true -> adm st a = true -> step st a = Some st' -> P st') ->
  forall acts st st', forallb ok acts = true -> P st -> run_adm st acts = Some st' -> P st'.
Proof.
  intros Hstep. induction acts as [|a r IH]; intros st st' Hok HP H; cbn in H, Hok.
  - now injection H as <-.
  - apply andb_true_iff in Hok as [Ha Hr].
    destruct (adm st a) eqn:Ea; [|discriminate]. destruct (step st a) as [st1|] eqn:Es; [|discriminate].
    exact (IH _ _ Hr (Hstep _ _ _ HP Ha Ea Es) H).
Qed.
Lemma forallb_true {A} (l : list A) : forallb (fun _ => true) l = true.
Proof. now induction l. Qed.

Lemma run_adm_inv acts st st' : Inv st -> run_adm st acts = Some st' -> Inv st'.
Proof. apply (run_adm_ind Inv (fun _ => true)); [|apply forallb_true]. intros; eapply step_inv; eauto using step_Step. Qed.

Lemma run_adm_app a b : forall st, run_adm st (a ++ b) = match run_adm st a with Some st1 => run_adm st1 b | None => None end.
Proof.
  induction a as [|x r IH]; intros st; cbn; [reflexivity|].
  destruct (adm st x); [|reflexivity]. destruct (step st x); [apply IH | reflexivity].
Qed.

(* one stream per file: the lines, the events in flight and the offsets, current and saved, are all of stream s0 *)
Definition SS (s0 : stream) (st : state) : Prop :=
  (forall l, In l (content st) -> l_stream l = s0) /\
  (forall e, In e (flight st) -> l_stream (e_line e) = s0) /\
  (forall s v, In (s, v) (cur st) -> s = s0) /\
  (forall s v, In (s, v) (loaded (disk st)) -> s = s0).

Lemma ss_init s0 : SS s0 init.
Proof. repeat split; cbn; intros; contradiction. Qed.

Lemma step_ss s0 st a st' :
  SS s0 st -> forallb (fun l => stream_eqb (l_stream l) s0) (act_lines a) = true -> Step st a st' -> SS s0 st'.
Proof.
  intros S Ha H. pose proof S as (S1 & S2 & S3 & S4).
  assert (Hl' : forall l, In l (act_lines a) -> l_stream l = s0).
  { intros l Hl. rewrite forallb_forall in Ha. specialize (Ha l Hl). now destruct (stream_eqb_spec (l_stream l) s0). }
  destruct H; cbn [act_lines] in Hl'; try exact S.
  - repeat split; try assumption.
    intros l Hin. apply in_app_or in Hin as [?|?]; auto.
  - destruct (pass_event (cur st) l); [|exact S]. repeat split; try assumption.
    apply find_some in Hl as [Hin _].
    intros e He. apply in_app_or in He as [He|[<-|[]]]; [now apply S2 | now apply S1].
  - repeat split; try assumption.
    intros x Hx. apply (in_mid _ _ e) in Hx as [->|Hx]; [apply (S2 e) | apply S2]; rewrite Hsp; [apply in_elt | assumption].
  - repeat split; try assumption.
    + intros x Hx. apply S2. rewrite Hsp. now apply in_drop.
    + intros s v Hsv. cbn in Hsv. destruct Hc as [(_ & -> & _)|[(_ & _ & -> & _)|(_ & _ & -> & _)]]; try now apply (S3 s v).
      apply in_set_off in Hsv as [[-> _]|Hsv]; [apply S2; rewrite Hsp; apply in_elt | now apply (S3 s v)].
  - repeat split; try assumption. cbn. now destruct (cur st).
  - repeat split; try assumption. intros ? [].
  - repeat split; try assumption.
    + intros e He. apply in_map_iff in He as [x [<- Hx]]. exact (S2 x Hx).
    + intros s v Hsv. apply in_map_iff in Hsv as [[k x] [[= <- <-] Hx]]. now apply (S3 k x).
Qed.

Lemma nil_of_no_elem {A} (l : list A) : (forall x, ~ In x l) -> l = [].
Proof. destruct l as [|x r]; [reflexivity|]. intro H. exfalso. apply (H x). now left. Qed.

(* with one stream nothing is ever skipped *)
Lemma step_gone_single s0 st a st' :
  Inv st -> SS s0 st -> gone st = [] -> adm st a = true -> Step st a st' -> gone st' = [].
Proof.
  intros I (S1 & _ & _ & S4) Hg Ha H. destruct H; try exact Hg.
  - now destruct (pass_event (cur st) l).
  - cbn [upd gone]. rewrite Hg, app_nil_r. apply nil_of_no_elem.
    pose proof (inv_snap_sound _ I Ha) as Hs. rewrite Hg, app_nil_r in Hs.
    exact (single_stream_skips_nothing _ _ _ s0 (i_sorted _ I) S1 S4 (proj2 (i_disk _ I Ha)) Hs).
  - reflexivity.
Qed.

(* truncation while events are in flight (worker.go stores In's SeqID only when the line was accepted, so job.lastEventSeq
   = SeqID of the last ACCEPTED line):
   [Q1] (any number of streams): every event in flight carries a SeqID <= the counter of its stream.
   [QS] (one stream): only s0 has a counter, and it is <= lastEventSeq.                                     *)
Definition Q1 (st : state) : Prop :=
  forall e, In e (flight st) -> exists n, lookup (l_stream (e_line e)) (seqs st) = Some n /\ e_seq e <= n.
Definition QS (s0 : stream) (st : state) : Prop :=
  forall s n, lookup s (seqs st) = Some n -> s = s0 /\ n <= last_seq st.

Lemma q1_init : Q1 init.
Proof. intros ? []. Qed.
Lemma qs_init s0 : QS s0 init.
Proof. cbn; discriminate. Qed.

Lemma step_q1 st a st' : Q1 st -> Step st a st' -> Q1 st'.
Proof.
  intros Q H. destruct H; try exact Q.
  - destruct (pass_event (cur st) l); [|exact Q]. unfold Q1; cbn [upd flight seqs].
    set (q := next_seq (l_stream l) (seqs st)).
    assert (Hq : forall n, lookup (l_stream l) (seqs st) = Some n -> n < q)
      by (intros n E; unfold q, next_seq; rewrite E; lia).
    intros e He. rewrite lookup_set_off. apply in_app_or in He as [He|[<-|[]]].
    + destruct (Q _ He) as [n [E Hle]]. destruct (stream_eqb_spec (l_stream l) (l_stream (e_line e))) as [Es|Es]; [|eauto].
      exists q. split; [reflexivity|]. rewrite <- Es in E. specialize (Hq _ E). lia.
    + cbn. rewrite stream_eqb_refl. exists q. split; [reflexivity | lia].
  - intros x Hx. apply (in_mid _ _ e) in Hx as [->|Hx]; [apply (Q e) | apply Q]; rewrite Hsp; [apply in_elt | assumption].
  - intros x Hx. apply Q. rewrite Hsp. now apply in_drop.
  - intros ? [].
  - intros e He. apply in_map_iff in He as [x [<- Hx]]. exact (Q x Hx).
Qed.

Lemma step_qs s0 st a st' : SS s0 st -> QS s0 st -> Step st a st' -> QS s0 st'.
Proof.
  intros (S1 & _) Q H. destruct H; try exact Q.
  - destruct (pass_event (cur st) l); [|exact Q].
    apply find_some in Hl as [Hin _]. apply S1 in Hin. intros s n E. cbn [upd seqs last_seq] in *.
    rewrite lookup_set_off in E. destruct (stream_eqb_spec (l_stream l) s) as [Es|Es]; [injection E; split; [congruence | lia]|].
    destruct (Q _ _ E) as [-> _]. congruence.
  - apply qs_init.
Qed.

(* any number of streams: the side condition holds as soon as the counter of every stream that has an event in flight
   is <= lastEventSeq *)
Lemma q1_trunc_safe st :
  Q1 st ->
  (forall e n, In e (flight st) -> lookup (l_stream (e_line e)) (seqs st) = Some n -> n <= last_seq st) ->
  trunc_safe st = true.
Proof.
  intros Q Hc. unfold trunc_safe. apply forallb_forall. intros e He. destruct (Q _ He) as [n [Hn Hle]].
  pose proof (Hc _ _ He Hn). lia.
Qed.

Lemma run_adm_q1 acts st st' : Q1 st -> run_adm st acts = Some st' -> Q1 st'.
Proof. apply (run_adm_ind Q1 (fun _ => true)); [|apply forallb_true]. intros; eapply step_q1; eauto using step_Step. Qed.

(* everything the single-stream theorems need, in one invariant; under it a truncation needs no side condition *)
Record Single (s0 : stream) (st : state) : Prop := {
  s_inv : Inv st; s_ss : SS s0 st; s_gone : gone st = []; s_q1 : Q1 st; s_qs : QS s0 st }.

Lemma single_init s0 : Single s0 init.
Proof. split; [apply inv_init | apply ss_init | reflexivity | apply q1_init | apply qs_init]. Qed.

Lemma single_trunc_safe s0 st : Single s0 st -> trunc_safe st = true.
Proof. intros S. apply q1_trunc_safe; [apply S|]. intros e n _ E. apply (s_qs _ _ S _ _ E). Qed.

Lemma step_single s0 st a st' :
  Single s0 st -> forallb (fun l => stream_eqb (l_stream l) s0) (act_lines a) = true ->
  adm_kill st a = true -> step st a = Some st' -> adm st a = true /\ Single s0 st'.
Proof.
  intros S Hl Hk H.
  assert (Ha : adm st a = true) by (destruct a; try exact Hk; exact (single_trunc_safe _ _ S)).
  apply step_Step in H. destruct S as [I S G Qa Qb]. split; [exact Ha|]. split.
  - eapply step_inv; eauto.
  - eapply step_ss; eauto.
  - eapply step_gone_single; eauto.
  - eapply step_q1; eauto.
  - eapply step_qs; eauto.
Qed.

Lemma run_adm_single s0 acts st st' :
  acts_single s0 acts = true -> Single s0 st -> run_adm st acts = Some st' -> Single s0 st'.
Proof.
  apply (run_adm_ind (Single s0)). intros st1 a st2 S Hl Ha H.
  apply (step_single s0 st1 a st2 S Hl); [|exact H]. destruct a; try reflexivity. exact Ha.
Qed.

(* a history restricted by the kill window only ([run_kill]: truncations at any instant) is admissible *)
Lemma run_kill_single s0 acts : forall st st',
  acts_single s0 acts = true -> Single s0 st -> run_kill st acts = Some st' ->
  run_adm st acts = Some st' /\ Single s0 st'.
Proof.
  induction acts as [|a r IH]; intros st st' Hs S H; cbn in H, Hs |- *; [injection H as <-; auto|].
  apply andb_true_iff in Hs as [Ha Hr].
  destruct (adm_kill st a) eqn:Ek; [|discriminate]. destruct (step st a) as [st1|] eqn:Es; [|discriminate].
  destruct (step_single _ _ _ _ S Ha Ek Es) as [-> S1]. now apply IH.
Qed.

Theorem no_line_lost_invariant acts st :
  run_adm init acts = Some st ->
  forall l, In l (content st) ->
    In l (ever st) \/ In l (gone st) \/ In l (map e_line (live (flight st))) \/
    (pos st < l_end l /\ pass_event (cur st) l = true).
Proof. intros H. apply (inv_cover _ (run_adm_inv _ _ _ inv_init H)). Qed.

Theorem commit_never_panics acts st : run_adm init acts = Some st -> panicked st = false.
Proof. intros H. apply (i_nopanic _ (run_adm_inv _ _ _ inv_init H)). Qed.

Lemma single_no_loss s0 st : Single s0 st -> fresh st = true ->
  no_loss_b (content st) (ever st) (resume_delivered (content st) (disk st)) = true.
Proof.
  intros [I (S1 & _ & _ & S4) Hg _ _] Hf. pose proof (inv_snap_sound _ I Hf) as Hs. rewrite Hg, app_nil_r in Hs.
  exact (direct_single_stream _ _ _ s0 (i_sorted _ I) S1 S4 (proj2 (i_disk _ I Hf)) Hs).
Qed.

Theorem resume_no_loss_single_stream_adm s0 acts st :
  acts_single s0 acts = true -> run_adm init acts = Some st -> fresh st = true ->
  no_loss_b (content st) (ever st) (resume_delivered (content st) (disk st)) = true.
Proof. intros Hs H. exact (single_no_loss s0 st (run_adm_single s0 acts _ _ Hs (single_init s0) H)). Qed.

(* without truncation every history is admissible *)
Lemma step_fresh st a st' :
  (match a with ATruncate _ _ => false | _ => true end) = true -> Step st a st' -> fresh st = true -> fresh st' = true.
Proof. intros Ha H Hf. destruct H; try discriminate Ha; first [exact Hf | reflexivity | now destruct (pass_event (cur st) l)]. Qed.

Lemma run_no_truncate acts : forall st st', fresh st = true -> no_truncate acts = true -> run st acts = Some st' ->
  run_adm st acts = Some st' /\ fresh st' = true.
Proof.
  induction acts as [|a r IH]; intros st st' Hf Hn H; cbn in H, Hn |- *; [injection H as <-; auto|].
  apply andb_true_iff in Hn as [Ha Hr]. destruct (step st a) as [st1|] eqn:Es; [|discriminate].
  replace (adm st a) with true by (destruct a; try reflexivity; [now symmetry | discriminate]).
  apply IH; [exact (step_fresh _ _ _ Ha (step_Step _ _ _ Es) Hf) | assumption | assumption].
Qed.

Theorem resume_no_loss_single_stream s0 acts st :
  no_truncate acts = true -> acts_single s0 acts = true -> run init acts = Some st ->
  no_loss_b (content st) (ever st) (resume_delivered (content st) (disk st)) = true.
Proof.
  intros Hn Hs H. destruct (run_no_truncate acts init st eq_refl Hn H) as [Ha Hf].
  exact (resume_no_loss_single_stream_adm s0 acts st Hs Ha Hf).
Qed.

Theorem restart_reads_resume_set st st' :
  step st ACrash = Some st' ->
  content st' = content st /\ flight st' = [] /\ ever st' = ever st /\
  filter (fun l => (pos st' <? l_end l) && pass_event (cur st') l) (content st') = resume_delivered (content st) (disk st).
Proof. intro H. apply step_Step in H. inversion H; subst. cbn. auto. Qed.

(* what is neither delivered nor handed over again was skipped by a restart, and a line skipped now belongs to a stream
   without a saved entry and lies at or before the seek point *)
Theorem resume_multi_stream_lost_exactly acts st :
  run_adm init acts = Some st -> fresh st = true ->
  forall l, In l (content st) ->
    In l (ever st) \/ In l (resume_delivered (content st) (disk st)) \/ In l (gone st) \/
    (lookup (l_stream l) (loaded (disk st)) = None /\ disk st <> None /\ l_end l <= seek_of (disk st)).
Proof.
  intros H Hf l Hin. pose proof (run_adm_inv _ _ _ inv_init H) as I. pose proof (inv_snap_sound _ I Hf) as Hs.
  destruct (direct_cover _ _ _ Hs _ Hin) as [C|[C|C]]; [apply in_app_or in C; tauto | | tauto].
  destruct (direct_skipped_unsaved _ _ _ (i_sorted _ I) Hs _ C) as (A & B & D & _). tauto.
Qed.

(* the exact side condition for several streams, as long as no earlier restart skipped a line *)
Theorem resume_multi_stream_partial acts st :
  run_adm init acts = Some st -> fresh st = true -> gone st = [] ->
  ((forall l, In l (content st) -> ~ In l (ever st) ->
      lookup (l_stream l) (loaded (disk st)) <> None \/ seek_of (disk st) < l_end l)
   <-> no_loss_b (content st) (ever st) (resume_delivered (content st) (disk st)) = true).
Proof.
  intros H Hf Hg. rewrite no_loss_b_spec. split.
  - intros Hc l Hin. destruct (resume_multi_stream_lost_exactly _ _ H Hf _ Hin) as [C|[C|[C|(A & _ & D)]]];
      [now left | now right | rewrite Hg in C; contradiction|].
    destruct (mem l (ever st)) eqn:E; [left; now apply mem_In | apply mem_false in E].
    destruct (Hc _ Hin E) as [?|?]; [contradiction | lia].
  - intros Hc l Hin Hne. destruct (Hc _ Hin) as [?|Hr]; [contradiction|]. apply resume_In in Hr as [_ [Hr _]]. now right.
Qed.

Theorem truncate_restart acts st ls part st' :
  run_adm init acts = Some st -> trunc_safe st = true -> step st (ATruncate ls part) = Some st' ->
  content st' = ls /\ pos st' = 0 /\ tail st' = 0 /\ (forall s v, In (s, v) (cur st') -> v = 0) /\
  filter (fun l => (pos st' <? l_end l) && pass_event (cur st') l) ls = ls /\
  top 0 ls + part < pos st + tail st /\
  forall acts2 st2, run_adm st' acts2 = Some st2 ->
    forall l, In l (content st2) ->
      In l (ever st2) \/ In l (gone st2) \/ In l (map e_line (live (flight st2))) \/
      (pos st2 < l_end l /\ pass_event (cur st2) l = true).
Proof.
  intros H Hfl Hs. pose proof (run_adm_inv _ _ _ inv_init H) as I.
  apply step_Step in Hs. pose proof (step_inv _ (ATruncate ls part) _ I Hfl Hs) as I'.
  inversion Hs as [| | | | | | | |? ? _ E1 _ E3]; subst. cbn [upd content pos tail cur] in *.
  repeat split; try assumption.
  - intros s v. apply in_zeroed.
  - apply filter_all. intros l Hl. pose proof (proj2 (sorted_from_bounds _ _ E1) _ Hl) as Hl0.
    apply andb_true_iff. split; [lia|]. apply pass_true. intros v Hv. apply in_zeroed in Hv. lia.
  - intros acts2 st2 H2. apply (inv_cover _ (run_adm_inv _ _ _ I' H2)).
Qed.

(* the interface hypothesis of the direct theorems is what the transition system guarantees at every kill instant *)
Theorem reachable_snap_sound acts st :
  run_adm init acts = Some st -> fresh st = true ->
  snap_sound_b (content st) (ever st ++ gone st) (loaded (disk st)) = true /\ disk st <> Some [] /\
  sorted_from 0 (content st) = true.
Proof.
  intros H Hf. pose proof (run_adm_inv _ _ _ inv_init H) as I.
  split; [now apply inv_snap_sound | split; [apply (i_disk _ I Hf) | apply I]].
Qed.

Theorem truncate_inflight_counters acts st :
  run_adm init acts = Some st ->
  (forall e n, In e (flight st) -> lookup (l_stream (e_line e)) (seqs st) = Some n -> n <= last_seq st) ->
  trunc_safe st = true.
Proof. intros H. apply q1_trunc_safe. exact (run_adm_q1 acts _ _ q1_init H). Qed.

(* ONE stream per file: the side condition holds at every instant of every history, whatever is in flight and
   whatever the last line handed to the pipeline was (accepted, empty, undecodable, already committed) *)
Theorem truncate_inflight_single_stream s0 acts st :
  acts_single s0 acts = true -> run_adm init acts = Some st -> trunc_safe st = true.
Proof. intros Hs H. exact (single_trunc_safe s0 st (run_adm_single s0 acts _ _ Hs (single_init s0) H)). Qed.

(* hence, with one stream per file, truncations need no side condition at all *)
Theorem single_stream_truncations_admissible s0 acts st :
  acts_single s0 acts = true -> run_kill init acts = Some st ->
  run_adm init acts = Some st /\ panicked st = false /\
  (forall l, In l (content st) ->
     In l (ever st) \/ In l (map e_line (live (flight st))) \/ (pos st < l_end l /\ pass_event (cur st) l = true)) /\
  (fresh st = true -> no_loss_b (content st) (ever st) (resume_delivered (content st) (disk st)) = true).
Proof.
  intros Hs H. destruct (run_kill_single s0 acts _ _ Hs (single_init s0) H) as [Ha S].
  split; [exact Ha|]. split; [apply S|]. split; [|exact (single_no_loss s0 st S)].
  intros l Hin. destruct (inv_cover _ (s_inv _ _ S) _ Hin) as [C|[C|C]]; [tauto | | tauto].
  rewrite (s_gone _ _ S) in C. contradiction.
Qed.

Definition sa : stream := [97%N].
Definition sb : stream := [98%N].
Definition wb1 := mkL 0 43 sb.
Definition wa1 := mkL 1 87 sa.
Definition wa2 := mkL 2 132 sa.
Definition wa3 := mkL 3 178 sa.
(* the file: one line of stream b, three of stream a; all four are read; the b line stays in flight (held by a join,
   a slow output, ...); the a lines are delivered and committed one by one, each commit followed by a save (sync mode) *)
Definition witness_multi : list act :=
  [AAppend [wb1; wa1; wa2; wa3] 0; ARead; ARead; ARead; ARead;
   ADeliver 1; ACommit 1; ASave; ADeliver 1; ACommit 1; ASave; ADeliver 1; ACommit 1; ASave].

(* the value a closed term [t : option _] evaluates to as witness; it gets the name [x], so that the goals stay small *)
Ltac exists_some t x :=
  let r := eval vm_compute in t in lazymatch r with Some ?v => pose (x := v); exists x end.

Theorem resume_multi_stream_refuted :
  exists acts st st',
    no_truncate acts = true /\ run init acts = Some st /\
    disk st = Some [(sa, 178)] /\ ever st = [wa3; wa2; wa1] /\
    no_loss_b (content st) (ever st) (resume_delivered (content st) (disk st)) = false /\
    (* after the restart nothing is in flight, nothing is left to read, and the b line was never delivered *)
    step st ACrash = Some st' /\ flight st' = [] /\ step st' ARead = None /\
    mem wb1 (content st') = true /\ mem wb1 (ever st') = false /\ gone st' = [wb1].
Proof.
  exists witness_multi. exists_some (run init witness_multi) st. exists_some (step st ACrash) st'.
  repeat (apply conj; [reflexivity|]). reflexivity.
Qed.

(* histories for the non-vacuity statements of Properties/C03.v *)
Definition wl (i e : Z) := mkL i e sa.
Definition witness_single : list act :=
  [AAppend [wl 0 10; wl 1 20; wl 2 30] 4; ARead; ARead; ADeliver 0; ACommit 0; ASave; ADeliver 0; ARead; AReadEOF;
   ACrash; AAppend [wl 3 40] 0; ARead; ARead; ADeliver 1; ADeliver 0; ACommit 0; ACrash].
Definition witness_trunc : list act :=
  [AAppend [wl 0 10; wl 1 20] 5; ARead; ARead; AReadEOF; ADeliver 0; ADeliver 1; ACommit 0; ACommit 0; ASave].

(* truncation with events in flight, several streams: the last line read is of stream b (per-stream SeqID 1), four
   events of stream a (SeqIDs 1..4) are in flight; ignoreEventsLE = 1 covers only the first of them *)
Definition ta (i e : Z) := mkL i e sa.
Definition witness_trunc_inflight : list act :=
  [AAppend [ta 0 45; ta 1 88; ta 2 131; ta 3 174; mkL 4 217 sb] 0; ARead; ARead; ARead; ARead; ARead; AReadEOF;
   ATruncate [ta 5 43] 0; ARead;
   ADeliver 0; ACommit 0; ADeliver 0; ACommit 0; ADeliver 0; ACommit 0; ADeliver 0; ACommit 0;
   ADeliver 1; ACommit 1].
(* the other order: the old commits land first, then the new line is read — PassEvent rejects it *)
Definition witness_trunc_inflight_skip : list act :=
  [AAppend [ta 0 45; ta 1 88; ta 2 131; ta 3 174; mkL 4 217 sb] 0; ARead; ARead; ARead; ARead; ARead; AReadEOF;
   ATruncate [ta 5 43] 0;
   ADeliver 0; ACommit 0; ADeliver 0; ACommit 0; ADeliver 0; ACommit 0; ADeliver 0; ACommit 0; ADeliver 0; ACommit 0;
   ARead].
(* one stream, the file ends in an empty line, four events in flight at the truncation. The empty line is not accepted
   and leaves lastEventSeq alone (were it reset to 0, this history would end in the offset corruption panic), so
   lastEventSeq = 4 = ignoreEventsLE covers the four old events *)
Definition witness_trunc_inflight_junk : list act :=
  [AAppend [ta 0 45; ta 1 88; ta 2 131; ta 3 174] 1; ARead; ARead; ARead; ARead; AReadJunk; AReadEOF;
   ATruncate [ta 5 43] 0; ARead;
   ADeliver 0; ACommit 0; ADeliver 0; ACommit 0; ADeliver 0; ACommit 0; ADeliver 0; ACommit 0;
   ADeliver 0; ACommit 0].
(* the other order: the old commits land before the new line is read *)
Definition witness_trunc_inflight_junk_skip : list act :=
  [AAppend [ta 0 45; ta 1 88; ta 2 131; ta 3 174] 1; ARead; ARead; ARead; ARead; AReadJunk; AReadEOF;
   ATruncate [ta 5 43] 0;
   ADeliver 0; ACommit 0; ADeliver 0; ACommit 0; ADeliver 0; ACommit 0; ADeliver 0; ACommit 0;
   ARead; ADeliver 0; ACommit 0].

Theorem truncate_inflight_refuted :
  (exists st, run init witness_trunc_inflight = Some st /\ panicked st = true) /\
  (exists st, run init witness_trunc_inflight_skip = Some st /\ panicked st = false /\
              content st = [ta 5 43] /\ flight st = [] /\ ever st = [] /\ next_line st = None /\
              cur st = [(sa, 174)] /\ pass_event (cur st) (ta 5 43) = false).
Proof.
  split; [exists_some (run init witness_trunc_inflight) st | exists_some (run init witness_trunc_inflight_skip) st];
    repeat (apply conj; [reflexivity|]); reflexivity.
Qed.

(* worker.go: a line the pipeline does not accept keeps job.lastEventSeq. So the single-stream history with an
   empty last line is admissible (run_adm = run), ignoreEventsLE = 4, nothing panics, the new line (ends at byte 43)
   is read, delivered and its offset committed; nothing is left in flight or unread — in both orders *)
Theorem truncate_inflight_blank_line_repaired :
  acts_single sa witness_trunc_inflight_junk = true /\ acts_single sa witness_trunc_inflight_junk_skip = true /\
  (exists st, run init witness_trunc_inflight_junk = Some st /\ run_adm init witness_trunc_inflight_junk = Some st /\
              panicked st = false /\ ign st = 4 /\ content st = [ta 5 43] /\ ever st = [ta 5 43] /\
              out st = [ta 5 43; ta 3 174; ta 2 131; ta 1 88; ta 0 45] /\
              flight st = [] /\ next_line st = None /\ cur st = [(sa, 43)]) /\
  (exists st, run init witness_trunc_inflight_junk_skip = Some st /\ run_adm init witness_trunc_inflight_junk_skip = Some st /\
              panicked st = false /\ ign st = 4 /\ content st = [ta 5 43] /\ ever st = [ta 5 43] /\
              out st = [ta 5 43; ta 3 174; ta 2 131; ta 1 88; ta 0 45] /\
              flight st = [] /\ next_line st = None /\ cur st = [(sa, 43)]).
Proof.
  split; [reflexivity|]. split; [reflexivity|].
  split; [exists_some (run init witness_trunc_inflight_junk) st | exists_some (run init witness_trunc_inflight_junk_skip) st];
    repeat (apply conj; [reflexivity|]); reflexivity.
Qed.
