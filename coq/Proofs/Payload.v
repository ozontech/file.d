(* Proofs about Model/Payload.v (C19): what each sink's out() puts on the wire.
   build_frames (file, splunk, gelf) only appends (build_frames_spec); the builders that keep a table beside the
   buffer (http, elasticsearch, kafka) run one loop body (frame_loop).  Either way the payload of a batch is one
   frame per deliverable event, in order, and sendSplit's requests are ranges of those frames (split_done).
   The string functions read a JSON string an item at a time (str_item), and whatever skips an item skips a string
   body (str_body_skip); that gives the facts about the ES action line.
   The encoding of a well-formed tree is a JSON value on any stack of
   the automaton (jvalue, owf_jvalue), so a splunk envelope is a valid document; and the predicate's cutter takes
   any document that does not end in white space off a row whole (split_docs_whole), so the body of a batch is
   cut into the envelopes.  The last part: which answers count as success and what a retried batch sends
   (answer_kinds, retried, via_out), kafka topics and ES action lines per event (routing). *)
From Verif Require Import Base.Sx Base.GoSem Model.Payload Proofs.GoSemFacts Proofs.ListFacts.
From Coq Require Import Lia ZifyBool.

Local Open Scope Z_scope.

Lemma is_nil_true {A} (l : list A) : is_nil l = true <-> l = [].
Proof. destruct l; cbn; split; intro H; try reflexivity; discriminate. Qed.

Lemma rev_fast_rev {A} (l : list A) : rev_fast l = rev l.
Proof. unfold rev_fast. rewrite rev_append_rev. apply app_nil_r. Qed.

Lemma rev_rev_append {A} (l a : list A) : rev (rev_append l a) = rev a ++ l.
Proof. rewrite rev_append_rev, rev_app_distr, rev_involutive. reflexivity. Qed.

Lemma rev_append_app {A} (p s a : list A) : rev_append (p ++ s) a = rev_append s (rev_append p a).
Proof. revert a. induction p as [|x p IH]; intro a; cbn [app rev_append]; [reflexivity|apply IH]. Qed.

Lemma bbytes_bapp b x : bbytes (bapp b x) = bbytes b ++ x.
Proof.
  unfold bbytes, bapp. cbn [rb]. rewrite !rev_fast_rev. apply rev_rev_append.
Qed.

Lemma bpush_bapp b c : bpush b c = bapp b [c].
Proof. reflexivity. Qed.

Lemma bbytes_bpush b c : bbytes (bpush b c) = bbytes b ++ [c].
Proof. apply (bbytes_bapp b [c]). Qed.

Lemma bapp_bapp b p s : bapp (bapp b p) s = bapp b (p ++ s).
Proof.
  unfold bapp. cbn [rb blen]. f_equal.
  - symmetry. apply rev_append_app.
  - rewrite len_app. lia.
Qed.

Lemma bapp_nil_r b : bapp b [] = b.
Proof. destruct b as [r n]. unfold bapp. cbn [rb blen rev_append]. f_equal. rewrite len_nil. lia. Qed.

Lemma bapp_nil b : bbytes (bapp b []) = bbytes b.
Proof. rewrite bapp_nil_r. reflexivity. Qed.

Lemma for_each_fold {A} (b : list ev) (cb : A -> ev -> A) (acc : A) :
  for_each b cb acc = fold_left cb (deliverable b) acc.
Proof.
  revert acc. induction b as [|e r IH]; intro acc; [reflexivity|].
  cbn [for_each deliverable filter]. destruct (is_parent e); cbn [negb fold_left]; apply IH.
Qed.

Lemma deliverable_in b e : In e (deliverable b) <-> In e b /\ is_parent e = false.
Proof. unfold deliverable. rewrite filter_In, negb_true_iff. reflexivity. Qed.

Lemma deliverable_app a b : deliverable (a ++ b) = deliverable a ++ deliverable b.
Proof. apply filter_app. Qed.

Lemma deliverable_idem b : deliverable (deliverable b) = deliverable b.
Proof. apply filter_all. intros e He. apply filter_In in He. apply He. Qed.

Theorem foreach_skips_parents :
  forall (A : Type) (b : list ev) (cb : A -> ev -> A) (acc : A),
    for_each b cb acc = fold_left cb (deliverable b) acc
    /\ (forall e, In e (deliverable b) <-> In e b /\ is_parent e = false)
    /\ (forall b1 b2, b = b1 ++ b2 -> deliverable b = deliverable b1 ++ deliverable b2).
Proof.
  intros A b cb acc. split; [apply for_each_fold|]. split; [apply deliverable_in|].
  intros b1 b2 ->. apply deliverable_app.
Qed.

Lemma deliverable_mid pre e post : is_parent e = false ->
  deliverable (pre ++ e :: post) = deliverable pre ++ e :: deliverable post.
Proof. intro Hp. rewrite deliverable_app. cbn [deliverable filter]. rewrite Hp. reflexivity. Qed.

Theorem build_frames_spec (frame : ev -> bytes) batch prev :
  build_frames frame batch prev = concat (map frame (deliverable batch)).
Proof.
  unfold build_frames. rewrite for_each_fold.
  change (concat (map frame (deliverable batch))) with (bbytes (buf_reset prev) ++ concat (map frame (deliverable batch))).
  generalize (buf_reset prev) as b. induction (deliverable batch) as [|e r IH]; intro b; cbn [fold_left map concat].
  - symmetry. apply app_nil_r.
  - rewrite IH, bbytes_bapp, app_assoc. reflexivity.
Qed.

(* offsets of the frames inside their concatenation: the `begin` table *)
Fixpoint offsets (start : Z) (fs : list bytes) : list Z :=
  start :: match fs with [] => [] | f :: r => offsets (start + len f) r end.

(* http, elasticsearch and kafka keep a table beside the buffer, and their callbacks are one loop body:
   append the event's frame, note an entry made from the event and the place its frame starts at, count *)
Section FrameLoop.
  Context {T : Type} (frame : ev -> bytes) (entry : ev -> Z -> T).

  Definition frame_cb (s : buf * list T * Z) (e : ev) : buf * list T * Z :=
    let '(b, t, n) := s in (bapp b (frame e), entry e (blen b) :: t, n + 1).

  Fixpoint entries (start : Z) (evs : list ev) : list T :=
    match evs with [] => [] | e :: r => entry e start :: entries (start + len (frame e)) r end.

  Lemma frame_loop l : forall b t n,
    fold_left frame_cb l (b, t, n)
    = (bapp b (concat (map frame l)), rev_append (entries (blen b) l) t, n + len l).
  Proof.
    induction l as [|e r IH]; intros b t n; cbn [fold_left frame_cb map concat entries rev_append].
    - rewrite bapp_nil_r, len_nil, Z.add_0_r. reflexivity.
    - rewrite IH, bapp_bapp, len_cons. cbn [bapp blen]. f_equal. lia.
  Qed.
End FrameLoop.

Lemma starts_offsets (frame : ev -> bytes) : forall l start,
  entries frame (fun _ s => s) start l ++ [start + len (concat (map frame l))] = offsets start (map frame l).
Proof.
  induction l as [|e r IH]; intro start; cbn [entries map concat offsets app].
  - rewrite len_nil, Z.add_0_r. reflexivity.
  - rewrite len_app, Z.add_assoc, IH. reflexivity.
Qed.

(* the left side is written as the tail of http_build / es_build: http_build_spec applies the lemma up to conversion (http_cb is
   frame_cb at frame_http and the identity entry), es_build_spec rewrites with it from right to left *)
Lemma begin_table frame l prev :
  (let '(b, rbeg, n) := fold_left (frame_cb frame (fun _ s => s)) l (buf_reset prev, [], 0) in
   (bbytes b, rev_fast (blen b :: rbeg), n))
  = (concat (map frame l), offsets 0 (map frame l), len (map frame l)).
Proof.
  rewrite frame_loop, bbytes_bapp, rev_fast_rev. cbn [rev blen bapp buf_reset]. rewrite rev_rev_append.
  cbn [rev app]. rewrite starts_offsets, len_map. reflexivity.
Qed.

Theorem http_build_spec raw batch prev :
  let fs := map (frame_http raw) (deliverable batch) in
  http_build raw batch prev = (concat fs, offsets 0 fs, len fs).
Proof. unfold http_build. rewrite for_each_fold. apply (begin_table (frame_http raw)). Qed.

(* the frames l .. r-1 *)
Definition frames_range (fs : list bytes) (l r : Z) : bytes :=
  concat (firstn (Z.to_nat (r - l)) (skipn (Z.to_nat l) fs)).

Lemma offsets_idx fs : forall start i, 0 <= i <= len fs ->
  idx (offsets start fs) i = Ok (start + len (concat (firstn (Z.to_nat i) fs))).
Proof.
  induction fs as [|f r IH]; intros start i Hi; cbn [offsets].
  all: destruct (Z.eq_dec i 0) as [->|Hne]; [rewrite idx_cons_0, Z.add_0_r; reflexivity|].
  - rewrite (@len_nil bytes) in Hi. lia.
  - rewrite len_cons in Hi. rewrite idx_cons_S, IH by lia. replace (Z.to_nat i) with (S (Z.to_nat (i - 1))) by lia.
    cbn [firstn concat]. rewrite len_app, Z.add_assoc. reflexivity.
Qed.

Lemma frames_range_split fs l m r : 0 <= l -> l <= m -> m <= r ->
  frames_range fs l r = frames_range fs l m ++ frames_range fs m r.
Proof.
  intros H0 H1 H2. unfold frames_range. rewrite <- concat_app. f_equal.
  replace (Z.to_nat (r - l)) with (Z.to_nat (m - l) + Z.to_nat (r - m))%nat by lia.
  rewrite firstn_plus. f_equal. rewrite skipn_plus.
  replace (Z.to_nat l + Z.to_nat (m - l))%nat with (Z.to_nat m) by lia. reflexivity.
Qed.

Lemma frames_range_all fs : frames_range fs 0 (len fs) = concat fs.
Proof.
  unfold frames_range. rewrite Z.sub_0_r. cbn [Z.to_nat skipn]. rewrite firstn_len. reflexivity.
Qed.

(* concat fs = frames 0..l-1, frames l..r-1, the rest: the middle part is what the slice returns *)
Lemma slice_frames fs l r : 0 <= l -> l <= r ->
  slice (concat fs) (len (concat (firstn (Z.to_nat l) fs))) (len (concat (firstn (Z.to_nat r) fs)))
  = Ok (frames_range fs l r).
Proof.
  intros H0 Hlr. unfold frames_range.
  replace (Z.to_nat r) with (Z.to_nat l + Z.to_nat (r - l))%nat by lia.
  set (a := Z.to_nat l). set (b := Z.to_nat (r - l)). rewrite firstn_plus, concat_app, len_app.
  replace (concat fs) with (concat (firstn a fs) ++ concat (firstn b (skipn a fs)) ++ concat (skipn b (skipn a fs))).
  - apply slice_mid.
  - rewrite <- !concat_app, !firstn_skipn. reflexivity.
Qed.

Definition ok_req (q : sreq) : bool := is_ok_status (rq_status q).

Definition ok_ranges (log : list sreq) : list (Z * Z) :=
  map (fun q => (rq_l q, rq_r q)) (filter (fun q => is_ok_status (rq_status q)) log).

(* rs tiles [a, b) from left to right *)
Fixpoint chain (a b : Z) (rs : list (Z * Z)) : Prop :=
  match rs with
  | [] => a = b
  | (l, r) :: rs' => l = a /\ l <= r /\ chain r b rs'
  end.

Lemma chain_app a m b rs1 rs2 : chain a m rs1 -> chain m b rs2 -> chain a b (rs1 ++ rs2).
Proof.
  revert a. induction rs1 as [|[l r] rs1 IH]; intros a H1 H2; cbn [chain app] in *.
  - subst. exact H2.
  - destruct H1 as (-> & Hle & Hc). repeat split; auto.
Qed.

Definition req_ok (fs : list bytes) (lo hi : Z) (q : sreq) : Prop :=
  lo <= rq_l q /\ rq_l q < rq_r q /\ rq_r q <= hi /\ rq_body q = frames_range fs (rq_l q) (rq_r q).

(* a finished exchange over the frames l .. r-1: every request carried the frames of its range, and
   without error the ranges answered with success tile [l, r), their bodies adding up to those frames *)
Definition split_done (fs : list bytes) (l r : Z) (log : list sreq) (err : bool) : Prop :=
  Forall (req_ok fs 0 (len fs)) log
  /\ (err = false -> chain l r (ok_ranges log) /\ concat (map rq_body (filter ok_req log)) = frames_range fs l r).

(* the request for [l, r) was answered 413 and the two halves were sent instead *)
Lemma split_done_halves fs l m r q log1 log2 err : 0 <= l -> l <= m <= r ->
  req_ok fs 0 (len fs) q -> ok_req q = false -> split_done fs l m log1 false -> split_done fs m r log2 err ->
  split_done fs l r (q :: log1 ++ log2) err.
Proof.
  intros H0 [Hlm Hmr] Hq Hok [F1 C1] [F2 C2]. split.
  - constructor; [exact Hq|]. apply Forall_app. split; assumption.
  - intro Herr. destruct (C1 eq_refl) as [Hc1 Hb1]. destruct (C2 Herr) as [Hc2 Hb2].
    unfold ok_ranges, ok_req in *. cbn [filter]. rewrite Hok, !filter_app, !map_app, concat_app, Hb1, Hb2.
    split; [exact (chain_app _ _ _ _ _ Hc1 Hc2)|]. symmetry. exact (frames_range_split fs l m r H0 Hlm Hmr).
Qed.

(* over the begin table of any frames and for every pattern of answers sendSplit neither panics nor runs
   out of fuel, and ends as split_done says *)
Theorem send_split_spec (fs : list bytes) :
  forall (fuel : nat) (script : list Z) (l r : Z),
    0 <= l -> l <= r -> r <= len fs -> r - l <= Z.of_nat fuel ->
    returns (send_split fuel script l r (offsets 0 fs) (concat fs)) (fun '(log, _, _, err) => split_done fs l r log err).
Proof.
  assert (Hnone : forall l, split_done fs l l [] false).
  { intro l. split; [constructor|]. intros _. split; [reflexivity|].
    unfold frames_range. rewrite Z.sub_diag. reflexivity. }
  induction fuel as [|f IH]; intros script l r H0 Hlr Hr Hfuel; cbn [send_split].
  { replace r with l by lia. rewrite Z.eqb_refl. apply Hnone. }
  destruct (Z.eqb_spec l r) as [<-|Hne]; [apply Hnone|].
  assert (Hlt : l < r) by lia. assert (Hl' : 0 <= l <= len fs) by lia. assert (Hr' : 0 <= r <= len fs) by lia.
  rewrite !offsets_idx by assumption. cbn [bind]. rewrite !Z.add_0_l, slice_frames by assumption. cbn [bind].
  destruct (next_status script) as [st s'].
  set (rq := mkReq l r (frames_range fs l r) st).
  assert (Hrq : req_ok fs 0 (len fs) rq) by exact (conj H0 (conj Hlt (conj Hr eq_refl))).
  (* with this one request the exchange is over, in error unless it was answered with success *)
  assert (Hone : split_done fs l r [rq] (negb (is_ok_status st))).
  { split; [constructor; [exact Hrq|constructor]|]. unfold ok_ranges, ok_req. cbn [filter rq_status rq].
    destruct (is_ok_status st); [|discriminate]. intros _. cbn. rewrite app_nil_r. repeat split; assumption. }
  destruct (is_ok_status st) eqn:Hok; [exact Hone|].
  destruct (st =? 413); [|exact Hone]. destruct (Z.eqb_spec (r - l) 1) as [H1|H1]; [exact Hone|].
  (* r - l >= 2 here, so each half is shorter than [l, r) and the fuel left covers it *)
  set (m := (l + r) / 2).
  assert (Hm : (l <= m /\ m <= len fs /\ m - l <= Z.of_nat f) /\ (0 <= m /\ m <= r /\ r - m <= Z.of_nat f))
    by (pose proof (Z.div_mod (l + r) 2); pose proof (Z.mod_pos_bound (l + r) 2); lia).
  destruct Hm as [(Hlm & Hml & Hfl) (Hm0 & Hmr & Hfr)].
  apply (post_bind _ _ _ _ (IH s' l m H0 Hlm Hml Hfl)). intros [[[log1 sc1] st1] err1] IH1. destruct err1.
  { split; [|discriminate]. constructor; [exact Hrq|exact (proj1 IH1)]. }
  apply (post_bind _ _ _ _ (IH sc1 m r Hm0 Hmr Hr Hfr)). intros [[[log2 sc2] st2] err2] IH2.
  exact (split_done_halves fs l m r _ _ _ _ H0 (conj Hlm Hmr) Hrq Hok IH1 IH2).
Qed.

(* whenever sendSplit returns OK the successfully sent ranges partition [0,n) in order, for every
   pattern of answers; each request carries exactly the frames of its range; no slice panics *)
Theorem split_covers_once (fs : list bytes) (script : list Z) :
  let n := len fs in
  exists log script' st err,
    send_split (Z.to_nat n) script 0 n (offsets 0 fs) (concat fs) = Ok (log, script', st, err)
    /\ Forall (req_ok fs 0 n) log
    /\ (err = false ->
        chain 0 n (ok_ranges log)
        /\ Forall (fun ab => fst ab < snd ab) (ok_ranges log)
        /\ concat (map rq_body (filter (fun q => is_ok_status (rq_status q)) log)) = concat fs).
Proof.
  cbn zeta. pose proof (len_nonneg fs) as Hn.
  pose proof (send_split_spec fs (Z.to_nat (len fs)) script 0 (len fs) (Z.le_refl 0) Hn (Z.le_refl _) ltac:(lia)) as H.
  destruct (send_split _ script 0 _ _ _) as [[[[log sc] st] err]| |]; try contradiction.
  destruct H as [F C]. exists log, sc, st, err. split; [reflexivity|]. split; [exact F|].
  intro Herr. destruct (C Herr) as [Hc Hb]. split; [exact Hc|]. split.
  - unfold ok_ranges. apply Forall_map, incl_Forall with (1 := incl_filter _ log).
    apply Forall_impl with (2 := F). unfold req_ok. cbn [fst snd]. tauto.
  - rewrite <- (frames_range_all fs). exact Hb.
Qed.

(* appendIndexName's loop as a pure function of the event; k counts every placeholder met so far (ITime too): ev_raw and
   ev_esc are indexed by placeholder position *)
Fixpoint es_name_spec (fmt : bytes) (vals : list ival) (k : nat) (time : bytes) (e : ev) : res bytes :=
  match fmt with
  | [] => Ok []
  | c :: r =>
      if N.eqb c PERCENT then
        match vals with
        | [] => Panic 3
        | v :: vals' => s <- es_name_spec r vals' (S k) time e ;; Ok (es_piece v time e k ++ s)
        end
      else s <- es_name_spec r vals k time e ;; Ok (c :: s)
  end.

Lemma es_name_ok fmt : forall vals k time e acc,
  es_name fmt vals k time e acc = (s <- es_name_spec fmt vals k time e ;; Ok (bapp acc s)).
Proof.
  induction fmt as [|c r IH]; intros vals k time e acc; cbn [es_name es_name_spec bind].
  - rewrite bapp_nil_r. reflexivity.
  - destruct (N.eqb c PERCENT).
    + destruct vals as [|v vals']; [reflexivity|]. rewrite IH.
      destruct (es_name_spec r vals' (S k) time e); cbn [bind]; try reflexivity.
      rewrite bapp_bapp. reflexivity.
    + rewrite IH. destruct (es_name_spec r vals k time e); cbn [bind]; try reflexivity.
      rewrite bpush_bapp, bapp_bapp. reflexivity.
Qed.

Lemma es_name_spec_ext time e1 e2 fmt : forall vals k,
  (forall v k', In v vals -> es_piece v time e1 k' = es_piece v time e2 k') ->
  es_name_spec fmt vals k time e1 = es_name_spec fmt vals k time e2.
Proof.
  induction fmt as [|c r IH]; intros vals k H; cbn [es_name_spec]; [reflexivity|].
  destruct (N.eqb c PERCENT).
  - destruct vals as [|v vals']; [reflexivity|].
    rewrite (H v k (or_introl eq_refl)), (IH vals' (S k)); [reflexivity|].
    intros v' k' Hin. apply H. right. exact Hin.
  - rewrite (IH vals k H). reflexivity.
Qed.

Fixpoint count_pct (fmt : bytes) : nat :=
  match fmt with [] => O | c :: r => if N.eqb c PERCENT then S (count_pct r) else count_pct r end.

(* the configuration check that file.d leaves to a Fatal at run time *)
Definition es_cfg_ok (c : es_cfg) : Prop := (count_pct (es_fmt c) <= length (es_vals c))%nat.

Lemma es_name_spec_total fmt : forall vals k time e,
  (count_pct fmt <= length vals)%nat -> exists s, es_name_spec fmt vals k time e = Ok s.
Proof.
  induction fmt as [|c r IH]; intros vals k time e H; cbn [es_name_spec count_pct] in *.
  - eauto.
  - destruct (N.eqb c PERCENT).
    + destruct vals as [|v vals']; cbn [length] in H; [lia|].
      destruct (IH vals' (S k) time e ltac:(lia)) as [s ->]. cbn [bind]. eauto.
    + destruct (IH vals k time e H) as [s ->]. cbn [bind]. eauto.
Qed.

(* the index name / action line / frame of an event as total functions (under es_cfg_ok) *)
Definition es_name_of (c : es_cfg) (e : ev) : bytes :=
  match es_name_spec (es_fmt c) (es_vals c) 0 (es_time c) e with Ok s => s | _ => [] end.
Definition es_header_of (c : es_cfg) (e : ev) : bytes := es_prefix (es_op c) ++ es_name_of c e ++ es_suffix.
Definition es_frame_of (c : es_cfg) (e : ev) : bytes := es_header_of c e ++ [NL] ++ enc e ++ [NL].

Lemma es_append_index_name_eq c e acc :
  es_append_index_name c e acc
  = (s <- es_name_spec (es_fmt c) (es_vals c) 0 (es_time c) e ;;
     Ok (bapp acc (es_prefix (es_op c) ++ s ++ es_suffix))).
Proof.
  unfold es_append_index_name. rewrite es_name_ok.
  destruct (es_name_spec (es_fmt c) (es_vals c) 0 (es_time c) e); cbn [bind]; try reflexivity.
  rewrite !bapp_bapp. reflexivity.
Qed.

Lemma es_append_index_name_ok c e acc : es_cfg_ok c ->
  es_append_index_name c e acc = Ok (bapp acc (es_header_of c e)).
Proof.
  intro Hc. rewrite es_append_index_name_eq. unfold es_header_of, es_name_of.
  destruct (es_name_spec_total (es_fmt c) (es_vals c) 0 (es_time c) e Hc) as [s ->]. reflexivity.
Qed.

Lemma es_header_ok c e : es_cfg_ok c -> es_header c e = Ok (es_header_of c e).
Proof.
  intro Hc. unfold es_header. rewrite es_append_index_name_ok by exact Hc. cbn [bind].
  rewrite bbytes_bapp. reflexivity.
Qed.

Lemma es_frame_shape c e : es_cfg_ok c ->
  es_header c e = Ok (es_header_of c e)
  /\ es_frame_of c e = es_header_of c e ++ [NL] ++ enc e ++ [NL].
Proof. intro Hc. split; [exact (es_header_ok c e Hc)|reflexivity]. Qed.

Lemma es_append_event_ok c e acc : es_cfg_ok c ->
  es_append_event c e acc = Ok (bapp acc (es_frame_of c e)).
Proof.
  intro Hc. unfold es_append_event. rewrite es_append_index_name_ok by exact Hc. cbn [bind].
  rewrite !bpush_bapp, !bapp_bapp. reflexivity.
Qed.

Lemma es_fold c l : es_cfg_ok c -> forall s,
  fold_left (es_cb c) l (Ok s) = Ok (fold_left (frame_cb (es_frame_of c) (fun _ s => s)) l s).
Proof.
  intro Hc. induction l as [|e r IH]; intros [[b rbeg] n]; cbn [fold_left]; [reflexivity|].
  cbn [es_cb bind]. rewrite es_append_event_ok by exact Hc. apply IH.
Qed.

(* the payload of a batch: one frame per deliverable event, in batch order, whatever the buffer held *)
Theorem es_build_spec c batch prev : es_cfg_ok c ->
  let fs := map (es_frame_of c) (deliverable batch) in
  es_build c batch prev = Ok (concat fs, offsets 0 fs, len fs).
Proof.
  intro Hc. cbn zeta. unfold es_build. rewrite for_each_fold, es_fold by exact Hc. cbn [bind].
  rewrite <- (begin_table (es_frame_of c) (deliverable batch) prev).
  destruct (fold_left _ _ _) as [[b rbeg] n]. reflexivity.
Qed.

Definition k_rec (c : k_cfg) (e : ev) (start : Z) : krec := mkRec (k_topic c e) start (start + len (enc e)).
Definition k_recs (c : k_cfg) : Z -> list ev -> list krec := entries enc (k_rec c).

Lemma k_fold c l : forall b rrecs i, 0 <= i -> i + len l <= k_batch_size c ->
  fold_left (k_cb c) l (Ok (b, rrecs, i)) = Ok (fold_left (frame_cb enc (k_rec c)) l (b, rrecs, i)).
Proof.
  induction l as [|e r IH]; intros b rrecs i Hi Hbs; cbn [fold_left]; [reflexivity|].
  rewrite len_cons in Hbs. pose proof (len_nonneg r).
  cbn [k_cb bind]. replace ((0 <=? i) && (i <? k_batch_size c)) with true by lia.
  apply IH; lia.
Qed.

(* the hypothesis is what the plugin's batcher guarantees (BatchSizeCount = BatchSize_ = len(data.messages), kafka.go); beyond it
   data.messages[i] panics (k_cb: Panic 2) *)
Theorem kafka_build_spec c batch prev :
  len (deliverable batch) <= k_batch_size c ->
  kafka_build c batch prev = Ok (concat (map enc (deliverable batch)), k_recs c 0 (deliverable batch)).
Proof.
  intro Hbs. unfold kafka_build. rewrite for_each_fold, k_fold, frame_loop by lia. cbn [bind].
  rewrite bbytes_bapp, rev_fast_rev, rev_rev_append. reflexivity.
Qed.

Lemma k_recs_values c : forall evs pre,
  Forall2 (fun r e => k_value (pre ++ concat (map enc evs)) r = Ok (enc e) /\ kr_topic r = k_topic c e)
          (k_recs c (len pre) evs) evs.
Proof.
  induction evs as [|e r IH]; intro pre; cbn [k_recs entries map concat]; constructor.
  - split; [|reflexivity]. apply slice_mid.
  - specialize (IH (pre ++ enc e)). rewrite len_app, <- app_assoc in IH. exact IH.
Qed.

Lemma k_recs_chain c : forall evs start,
  chain start (start + len (concat (map enc evs))) (map (fun r => (kr_start r, kr_end r)) (k_recs c start evs)).
Proof.
  induction evs as [|e r IH]; intro start; cbn [k_recs entries map concat chain k_rec kr_start kr_end].
  - rewrite len_nil. lia.
  - pose proof (len_nonneg (enc e)). repeat split; [lia|]. rewrite len_app, Z.add_assoc. apply IH.
Qed.

Theorem kafka_records c batch prev :
  len (deliverable batch) <= k_batch_size c ->
  exists data recs,
    kafka_build c batch prev = Ok (data, recs)
    /\ Forall2 (fun r e => k_value data r = Ok (enc e) /\ kr_topic r = k_topic c e) recs (deliverable batch)
    /\ chain 0 (len data) (map (fun r => (kr_start r, kr_end r)) recs).
Proof.
  intro Hbs. eexists _, _. split; [apply kafka_build_spec, Hbs|]. split.
  - apply (k_recs_values c (deliverable batch) []).
  - apply (k_recs_chain c (deliverable batch) 0).
Qed.

Lemma jrun_seq a b s1 r : forall s, jrun s a = Some s1 -> jrun s1 b = r -> jrun s (a ++ b) = r.
Proof.
  induction a as [|c a IH]; intros s H1 H2; cbn [app jrun] in *.
  - injection H1 as ->. exact H2.
  - destruct (jstep s c); [eauto|discriminate].
Qed.

(* The inside of a JSON string is a row of items: a plain byte, a two-byte escape, or \u and four hex
   digits.  The string functions consume one item at a time. *)
Inductive str_item : bytes -> Prop :=
| item_plain c : is_plain c = true -> str_item [c]
| item_esc e : is_simple_esc e = true -> str_item [BSLASH; e]
| item_hex h1 h2 h3 h4 : is_hex h1 && is_hex h2 && is_hex h3 && is_hex h4 = true ->
    str_item [BSLASH; 117%N; h1; h2; h3; h4].

Lemma is_plain_inv c : is_plain c = true -> N.eqb c QUOTE = false /\ N.ltb c 32 = false /\ N.eqb c BSLASH = false.
Proof. unfold is_plain. destruct (N.eqb c QUOTE), (N.ltb c 32), (N.eqb c BSLASH); auto. Qed.

Lemma str_body_ok_hex h1 h2 h3 h4 r :
  str_body_ok (BSLASH :: 117%N :: h1 :: h2 :: h3 :: h4 :: r)
  = if is_hex h1 && is_hex h2 && is_hex h3 && is_hex h4 then str_body_ok r else false.
Proof. reflexivity. Qed.

Lemma scan_str_hex h1 h2 h3 h4 r :
  scan_str (BSLASH :: 117%N :: h1 :: h2 :: h3 :: h4 :: r)
  = if is_hex h1 && is_hex h2 && is_hex h3 && is_hex h4 then scan_str r else None.
Proof. reflexivity. Qed.

Lemma str_body_item i r : str_item i -> str_body_ok (i ++ r) = str_body_ok r.
Proof.
  intros [c H|e H|h1 h2 h3 h4 H]; cbn [app].
  - cbn [str_body_ok]. destruct (is_plain_inv c H) as (E1 & E2 & E3). rewrite E1, E2, E3. reflexivity.
  - cbn [str_body_ok]. rewrite H. reflexivity.
  - rewrite str_body_ok_hex, H. reflexivity.
Qed.

Lemma scan_str_item i r : str_item i -> scan_str (i ++ r) = scan_str r.
Proof.
  intros [c H|e H|h1 h2 h3 h4 H]; cbn [app].
  - cbn [scan_str]. destruct (is_plain_inv c H) as (E1 & E2 & E3). rewrite E1, E2, E3. reflexivity.
  - cbn [scan_str]. rewrite H. reflexivity.
  - rewrite scan_str_hex, H. reflexivity.
Qed.

Lemma jrun_hex k stk n h rest : is_hex h = true ->
  jrun (JHex k n, stk) (h :: rest) = jrun (match n with O => JStr k | S n' => JHex k n' end, stk) rest.
Proof. intro H. cbn [jrun jstep]. rewrite H. destruct n; reflexivity. Qed.

Lemma jrun_item k stk i r : str_item i -> jrun (JStr k, stk) (i ++ r) = jrun (JStr k, stk) r.
Proof.
  intros [c H|e H|h1 h2 h3 h4 H]; cbn [app].
  - cbn [jrun jstep]. destruct (is_plain_inv c H) as (E1 & E2 & E3). rewrite E1, E2, E3. reflexivity.
  - change (jrun (JStr k, stk) (BSLASH :: ?l)) with (jrun (JEsc k, stk) l). cbn [jrun jstep]. rewrite H. reflexivity.
  - rewrite !andb_true_iff in H. destruct H as [[[H1 H2] H3] H4].
    change (jrun (JStr k, stk) (BSLASH :: 117%N :: ?l)) with (jrun (JHex k 3, stk) l).
    rewrite !jrun_hex by assumption. reflexivity.
Qed.

(* every byte string starts with the closing quote, with an item, or with something that is neither: there
   str_body_ok says no and scan_str gives up *)
Lemma str_scan_ind (P : bytes -> Prop) :
  P [] -> (forall r, P (QUOTE :: r)) ->
  (forall i r, str_item i -> P r -> P (i ++ r)) ->
  (forall s, str_body_ok s = false -> scan_str s = None -> P s) ->
  forall s, P s.
Proof.
  intros Hnil Hq Hitem Hbad. induction s as [s IH] using (induction_ltof1 _ (@length byte)). unfold ltof in IH.
  assert (Hstep : forall i r, s = i ++ r -> str_item i -> P s).
  { intros i r -> Hi. apply Hitem; [exact Hi|]. apply IH. rewrite app_length. apply Nat.lt_add_pos_l. destruct Hi; apply Nat.lt_0_succ. }
  destruct s as [|c r]; [exact Hnil|].
  destruct (N.eqb c QUOTE) eqn:Eq; [apply N.eqb_eq in Eq; subst c; apply Hq|].
  destruct (N.ltb c 32) eqn:El; [apply Hbad; cbn [str_body_ok scan_str]; rewrite Eq, El; reflexivity|].
  destruct (N.eqb c BSLASH) eqn:Eb.
  2:{ apply (Hstep [c] r eq_refl). constructor. unfold is_plain. rewrite Eq, El, Eb. reflexivity. }
  apply N.eqb_eq in Eb. subst c. clear Eq El.
  destruct r as [|e r]; [apply Hbad; reflexivity|].
  destruct (is_simple_esc e) eqn:Ee; [apply (Hstep [BSLASH; e] r eq_refl); constructor; exact Ee|].
  destruct (N.eqb e 117) eqn:Eu.
  2:{ apply Hbad; cbn [str_body_ok scan_str]; rewrite Ee, Eu; reflexivity. }
  apply N.eqb_eq in Eu. subst e.
  destruct r as [|h1 [|h2 [|h3 [|h4 r]]]]; try (apply Hbad; reflexivity).
  destruct (is_hex h1 && is_hex h2 && is_hex h3 && is_hex h4) eqn:Eh.
  - apply (Hstep [BSLASH; 117%N; h1; h2; h3; h4] r eq_refl). constructor. exact Eh.
  - apply Hbad; [rewrite str_body_ok_hex|rewrite scan_str_hex]; rewrite Eh; reflexivity.
Qed.

Lemma str_body_ind (P : bytes -> Prop) :
  P [] -> (forall i r, str_item i -> P r -> P (i ++ r)) ->
  forall s, str_body_ok s = true -> P s.
Proof.
  intros Hnil Hitem. induction s as [|r|i r Hi IH|s Hs _] using str_scan_ind; intro H.
  - exact Hnil.
  - discriminate H.
  - rewrite str_body_item in H by exact Hi. auto.
  - congruence.
Qed.

Lemma str_body_skip {A} (f : bytes -> A) : (forall i r, str_item i -> f (i ++ r) = f r) ->
  forall s r, str_body_ok s = true -> f (s ++ r) = f r.
Proof.
  intros Hf s r. revert s. apply str_body_ind; [reflexivity|]. intros i s Hi IH.
  rewrite <- app_assoc, Hf by exact Hi. exact IH.
Qed.

Lemma jrun_str_body k stk s r : str_body_ok s = true -> jrun (JStr k, stk) (s ++ r) = jrun (JStr k, stk) r.
Proof. apply str_body_skip, jrun_item. Qed.

Lemma str_body_plain s : forallb is_plain s = true -> str_body_ok s = true.
Proof.
  induction s as [|c r IH]; [reflexivity|]. cbn [forallb]. intro H. apply andb_prop in H. destruct H as [Hc Hr].
  rewrite <- (IH Hr). exact (str_body_item [c] r (item_plain c Hc)).
Qed.

(* no raw control character (newline, NUL, ...) inside a string body *)
Lemma str_item_no_ctl i : str_item i -> Forall (fun c => (32 <= c)%N) i.
Proof.
  assert (Hb : (32 <= BSLASH)%N /\ (32 <= 117)%N) by (unfold BSLASH; lia).
  assert (He : forall e, is_simple_esc e = true -> (32 <= e)%N) by (unfold is_simple_esc; lia).
  assert (Hh : forall h, is_hex h = true -> (32 <= h)%N) by (unfold is_hex, is_digit; lia).
  intros [c H|e H|h1 h2 h3 h4 H].
  - apply is_plain_inv in H. constructor; [lia|constructor].
  - constructor; [apply Hb|]. constructor; [apply He, H|constructor].
  - rewrite !andb_true_iff in H. destruct H as [[[H1 H2] H3] H4].
    repeat (constructor; [first [apply Hb | apply Hh; assumption]|]). constructor.
Qed.

Lemma str_body_no_ctl : forall s, str_body_ok s = true -> Forall (fun c => (32 <= c)%N) s.
Proof.
  apply str_body_ind; [constructor|]. intros i r Hi IH. apply Forall_app. split; [apply str_item_no_ctl, Hi|exact IH].
Qed.

Lemma str_body_no_nl s : str_body_ok s = true -> has_nl s = false.
Proof.
  intro H. apply str_body_no_ctl in H. unfold has_nl. induction H as [|c r Hc _ IH]; [reflexivity|].
  cbn [existsb]. rewrite IH, orb_false_r. apply N.eqb_neq. unfold NL. lia.
Qed.

Lemma quote_not_hex : is_hex QUOTE = false.
Proof. reflexivity. Qed.

Lemma scan_str_inv t : forall rest, scan_str t = Some rest ->
  exists s, t = s ++ QUOTE :: rest /\ str_body_ok s = true.
Proof.
  induction t as [|r|i r Hi IH|t _ Ht] using str_scan_ind; intros rest H.
  - discriminate H.
  - cbn in H. injection H as <-. exists []. split; reflexivity.
  - rewrite scan_str_item in H by exact Hi. destruct (IH rest H) as (s & -> & Hs).
    exists (i ++ s). rewrite <- app_assoc, str_body_item by exact Hi. split; [reflexivity|exact Hs].
  - congruence.
Qed.

(* the string literal that starts at the index name closes exactly at the intended quote
   iff the spliced text is JSON-string-safe *)
Theorem scan_str_exact : forall s rest,
  scan_str (s ++ QUOTE :: rest) = Some rest <-> str_body_ok s = true.
Proof.
  intros s rest. split.
  - intro H. apply scan_str_inv in H. destruct H as (s' & E & Hs).
    apply app_inv_tail in E. subst s'. exact Hs.
  - exact (str_body_skip _ scan_str_item s (QUOTE :: rest)).
Qed.

(* configuration texts must themselves be plain (a quote in index_format is a configuration error); es_time is
   time.Now().Format(time_format) (maintenance, elasticsearch.go), which appendIndexName appends unescaped *)
Definition es_cfg_plain (c : es_cfg) : Prop :=
  forallb is_plain (es_op c) = true /\ forallb is_plain (es_fmt c) = true /\ str_body_ok (es_time c) = true.
(* oracle hypothesis on the escaper (checked each run with encoding/json.Valid) *)
Definition esc_safe (e : ev) : Prop := Forall (fun x => str_body_ok x = true) (ev_esc e).

Lemma es_piece_ok v time e k : str_body_ok time = true -> esc_safe e -> str_body_ok (es_piece v time e k) = true.
Proof.
  intros Ht He. destruct v; cbn [es_piece]; [exact Ht|].
  destruct (is_nil (oracle_at (ev_raw e) k)); [reflexivity|].
  unfold oracle_at. destruct (nth_in_or_default k (ev_esc e) []) as [Hin | ->]; [|reflexivity].
  unfold esc_safe in He. rewrite Forall_forall in He. apply He, Hin.
Qed.

Lemma es_name_spec_safe time e fmt : forall vals k,
  forallb is_plain fmt = true -> str_body_ok time = true -> esc_safe e ->
  str_body_ok (match es_name_spec fmt vals k time e with Ok s => s | _ => [] end) = true.
Proof.
  induction fmt as [|c r IH]; intros vals k Hp Ht He; cbn [es_name_spec forallb] in *; [reflexivity|].
  apply andb_prop in Hp. destruct Hp as [Hc Hr]. destruct (N.eqb c PERCENT).
  - destruct vals as [|v vals']; [reflexivity|]. specialize (IH vals' (S k) Hr Ht He).
    destruct (es_name_spec r vals' (S k) time e); cbn [bind]; try reflexivity.
    rewrite (str_body_skip _ str_body_item) by (apply es_piece_ok; assumption). exact IH.
  - specialize (IH vals k Hr Ht He). destruct (es_name_spec r vals k time e) as [s| |]; cbn [bind]; try reflexivity.
    rewrite <- IH. exact (str_body_item [c] s (item_plain c Hc)).
Qed.

Lemma es_name_of_safe c e : es_cfg_plain c -> esc_safe e -> str_body_ok (es_name_of c e) = true.
Proof. intros (_ & Hfmt & Ht) He. exact (es_name_spec_safe (es_time c) e (es_fmt c) (es_vals c) 0 Hfmt Ht He). Qed.

Lemma es_template_valid op s : str_body_ok op = true -> str_body_ok s = true ->
  json_valid (es_prefix op ++ s ++ es_suffix) = true.
Proof.
  intros Hop Hs. unfold json_valid, es_prefix. rewrite <- !app_assoc. cbn.
  rewrite jrun_str_body by exact Hop. cbn. rewrite jrun_str_body by exact Hs. reflexivity.
Qed.

Lemma has_nl_app a b : has_nl (a ++ b) = has_nl a || has_nl b.
Proof. apply existsb_app. Qed.

(* the action line, its values escaped (esc_safe): one valid JSON document on one line *)
Lemma es_header_line c e : es_cfg_plain c -> esc_safe e ->
  json_valid (es_header_of c e) = true /\ has_nl (es_header_of c e) = false.
Proof.
  intros Hp He. pose proof (es_name_of_safe c e Hp He) as Hn. destruct Hp as (Hop & _ & _).
  apply str_body_plain in Hop. unfold es_header_of. split.
  - apply es_template_valid; assumption.
  - unfold es_prefix. rewrite !has_nl_app, (str_body_no_nl _ Hop), (str_body_no_nl _ Hn). reflexivity.
Qed.

(* [125; 125] is what es_suffix leaves after its quote: the string opened at the index name closes at that quote, not before *)
Theorem es_header_valid c e hdr :
  es_cfg_ok c -> es_cfg_plain c -> esc_safe e ->
  es_header c e = Ok hdr ->
  json_valid hdr = true /\ has_nl hdr = false
  /\ exists name, hdr = es_prefix (es_op c) ++ name ++ es_suffix /\ str_body_ok name = true
                  /\ scan_str (name ++ es_suffix) = Some [125; 125]%N.
Proof.
  intros Hc Hp He H. rewrite (es_header_ok c e Hc) in H. injection H as <-.
  destruct (es_header_line c e Hp He) as [Hv Hl]. pose proof (es_name_of_safe c e Hp He) as Hn.
  split; [exact Hv|]. split; [exact Hl|]. exists (es_name_of c e). split; [reflexivity|]. split; [exact Hn|].
  apply (scan_str_exact _ [125; 125]%N), Hn.
Qed.

(* why the values must be escaped: the template with a raw quote or newline is not a JSON line *)
Lemma es_header_needs_escape :
  json_valid (es_prefix [105]%N ++ [97; 34; 98]%N ++ es_suffix) = false
  /\ has_nl (es_prefix [105]%N ++ [97; 10; 98]%N ++ es_suffix) = true
  /\ json_valid (es_prefix [105]%N ++ [97; 10; 98]%N ++ es_suffix) = false.
Proof. repeat split; vm_compute; reflexivity. Qed.

Lemma split_tail_frames sep : forall xs,
  Forall (fun x => existsb (N.eqb sep) x = false) xs ->
  split_tail sep (concat (map (fun x => x ++ [sep]) xs)) = (xs, []).
Proof.
  induction 1 as [|x xs Hx _ IH]; [reflexivity|]. cbn [map concat]. rewrite <- app_assoc. cbn [app].
  induction x as [|c x IHx]; cbn [app split_tail].
  - rewrite IH, N.eqb_refl. reflexivity.
  - cbn [existsb] in Hx. apply orb_false_iff in Hx. destruct Hx as [Hc Hx].
    rewrite (IHx Hx), N.eqb_sym, Hc. reflexivity.
Qed.

(* an attempt over the frames fs by a sink that keeps a begin table (elasticsearch, http): the buffer holds
   the frames; without split_batch they are the one request; with it every request carries the frames of a
   range, and when the exchange ends without error the ranges answered with success tile [0,n) from left to
   right and their bodies add up to the payload *)
Definition frames_sent (fs : list bytes) (split : bool) (script : list Z) (a : attempt) : Prop :=
  at_buf a = concat fs
  /\ (split = false -> at_reqs a = [mkReq 0 (len fs) (concat fs) (fst (next_status script))])
  /\ Forall (fun q => 0 <= rq_l q /\ rq_r q <= len fs /\ rq_body q = frames_range fs (rq_l q) (rq_r q)) (at_reqs a)
  /\ (at_err a = false ->
      chain 0 (len fs) (ok_ranges (at_reqs a)) /\ concat (map rq_body (filter ok_req (at_reqs a))) = concat fs).

(* the exchange part shared by ES and http, written as the tail of es_out / http_out after the build: es_out_spec and
   http_out_spec apply it to the goal as it stands *)
Lemma exchange_spec (split : bool) (fs : list bytes) (script : list Z) :
  exists a,
    ('(log, script', st, err) <-
       (if split then send_split (Z.to_nat (len fs)) script 0 (len fs) (offsets 0 fs) (concat fs)
        else Ok (send_whole script (len fs) (concat fs))) ;;
     Ok (mkAtt log err (out_ret_es st err) (concat fs) script')) = Ok a
    /\ frames_sent fs split script a.
Proof.
  destruct split.
  - destruct (split_covers_once fs script) as (log & sc & st & err & -> & F & C). cbn [bind].
    eexists. split; [reflexivity|]. split; [reflexivity|]. split; [discriminate|]. cbn [at_reqs at_err]. split.
    + apply Forall_impl with (2 := F). unfold req_ok. intros q Hq. intuition lia.
    + intro Herr. destruct (C Herr) as (Hc & _ & Hb). split; assumption.
  - unfold send_whole, frames_sent. destruct (next_status script) as [st sc]. cbn [bind fst]. pose proof (len_nonneg fs).
    eexists. split; [reflexivity|]. split; [reflexivity|]. split; [reflexivity|]. cbn [at_reqs at_err]. split.
    + repeat constructor; cbn [rq_l rq_r rq_body]; try lia. symmetry. apply frames_range_all.
    + unfold ok_ranges, ok_req. cbn [filter rq_status]. destruct (is_ok_status st); [|discriminate].
      intros _. cbn. rewrite app_nil_r. repeat split; lia.
Qed.

Theorem es_out_spec c batch prev script : es_cfg_ok c ->
  let fs := map (es_frame_of c) (deliverable batch) in
  exists a, es_out c batch prev script = Ok a /\ frames_sent fs (es_split c) script a.
Proof. intro Hc. cbn zeta. unfold es_out. rewrite (es_build_spec c batch prev Hc). apply exchange_spec. Qed.

Theorem http_out_spec raw split batch prev script :
  let fs := map (frame_http raw) (deliverable batch) in
  exists a, http_out raw split batch prev script = Ok a /\ frames_sent fs split script a.
Proof. cbn zeta. unfold http_out. rewrite (http_build_spec raw batch prev). apply exchange_spec. Qed.

(* a sink that sends the whole payload of the batch in one request, whatever the buffer held before and
   whatever the answers are *)
Definition sends_whole (out : out_fn) (payload : list ev -> bytes) : Prop :=
  forall batch prev script, exists a, out batch prev script = Ok a
    /\ at_buf a = payload batch /\ map rq_body (at_reqs a) = [payload batch].

Theorem file_out_spec : sends_whole file_out (fun b => concat (map frame_file (deliverable b))).
Proof. intros batch prev script. unfold file_out. rewrite build_frames_spec. eexists. repeat split. Qed.

Definition splunk_payload (cfg : list cp_entry) (batch : list ev) : bytes :=
  concat (map (envelope cfg) (deliverable batch)).

Theorem splunk_out_spec cfg : sends_whole (splunk_out cfg) (splunk_payload cfg).
Proof.
  intros batch prev script. unfold splunk_out, send_whole. rewrite build_frames_spec.
  destruct (next_status script) as [st sc]. eexists. repeat split.
Qed.

(* without copy_fields the envelope is {"event":<the event>} *)
Theorem splunk_out_nocopy_spec : sends_whole (splunk_out []) (fun b => concat (map frame_splunk (deliverable b))).
Proof. exact (splunk_out_spec []). Qed.

Theorem gelf_out_spec : sends_whole gelf_out (fun b => concat (map frame_gelf (deliverable b))).
Proof.
  intros batch prev script. unfold gelf_out. rewrite build_frames_spec.
  destruct (next_status script) as [st sc]. eexists. repeat split.
Qed.

Lemma frames_mid (frame : ev -> bytes) pre e post : is_parent e = false ->
  concat (map frame (deliverable (pre ++ e :: post)))
  = concat (map frame (deliverable pre)) ++ frame e ++ concat (map frame (deliverable post)).
Proof. intro Hp. rewrite (deliverable_mid pre e post Hp), map_app, concat_app. reflexivity. Qed.

(* envelope independence / no cross-event leakage: whatever the other events of the batch, the buffer
   history and the answers are, the bytes the request carries for a deliverable event e are
   [envelope cfg e], a function of e and the configuration alone *)
Theorem splunk_envelope_independent cfg e pre post prev script :
  is_parent e = false ->
  exists a, splunk_out cfg (pre ++ e :: post) prev script = Ok a
    /\ map rq_body (at_reqs a) = [at_buf a]
    /\ at_buf a = splunk_payload cfg pre ++ envelope cfg e ++ splunk_payload cfg post
    /\ slice (at_buf a) (len (splunk_payload cfg pre)) (len (splunk_payload cfg pre) + len (envelope cfg e))
       = Ok (envelope cfg e).
Proof.
  intro Hp. destruct (splunk_out_spec cfg (pre ++ e :: post) prev script) as (a & E & B & R).
  exists a. split; [exact E|]. split; [rewrite B; exact R|].
  (* splunk_payload is concat (map (envelope cfg) (deliverable _)), so frames_mid continues B *)
  pose proof (eq_trans B (frames_mid (envelope cfg) pre e post Hp)) as B'.
  split; [exact B'|]. rewrite B'. apply slice_mid.
Qed.

Theorem splunk_no_cross_event_leak cfg e pre1 post1 pre2 post2 p1 s1 p2 s2 :
  is_parent e = false ->
  exists a1 a2,
    splunk_out cfg (pre1 ++ e :: post1) p1 s1 = Ok a1 /\ splunk_out cfg (pre2 ++ e :: post2) p2 s2 = Ok a2
    /\ slice (at_buf a1) (len (splunk_payload cfg pre1)) (len (splunk_payload cfg pre1) + len (envelope cfg e))
       = slice (at_buf a2) (len (splunk_payload cfg pre2)) (len (splunk_payload cfg pre2) + len (envelope cfg e))
    /\ slice (at_buf a1) (len (splunk_payload cfg pre1)) (len (splunk_payload cfg pre1) + len (envelope cfg e))
       = Ok (envelope cfg e).
Proof.
  intro Hp.
  destruct (splunk_envelope_independent cfg e pre1 post1 p1 s1 Hp) as (a1 & E1 & _ & _ & S1).
  destruct (splunk_envelope_independent cfg e pre2 post2 p2 s2 Hp) as (a2 & E2 & _ & _ & S2).
  exists a1, a2. rewrite S1, S2. auto.
Qed.

Theorem envelope_local cfg e1 e2 :
  enc e1 = enc e2 -> ev_copy e1 = ev_copy e2 -> envelope cfg e1 = envelope cfg e2.
Proof. unfold envelope. intros -> ->. reflexivity. Qed.

Lemma apply_copies_none cfg : forall vals fs,
  Forall (fun v => v = None) vals -> apply_copies cfg vals fs = fs.
Proof.
  induction cfg as [|c r IH]; intros vals fs Hv; cbn [apply_copies]; [reflexivity|].
  destruct Hv as [|v vs -> Hvs]; cbn [tl]; destruct (splunk_keep (cp_to_raw c)); apply IH; auto.
Qed.

(* an event that has none of the source fields gets the bare envelope, whatever is configured *)
Theorem envelope_no_sources cfg e :
  Forall (fun v => v = None) (ev_copy e) -> envelope cfg e = frame_splunk e.
Proof. intro H. unfold envelope. rewrite apply_copies_none by exact H. reflexivity. Qed.

(* a configuration as Start() leaves it: a kept entry has a non-empty target path that does not
   start at the "event" key (the glue rejects every other case) *)
Definition cp_ok (c : cp_entry) : Prop :=
  splunk_keep (cp_to_raw c) = true ->
  match cp_to c with [] => False | (k, _) :: _ => bytes_eqb EVENT_KEY k = false end.

Lemma cp_entry_of_sx_ok s c : cp_entry_of_sx s = Some c -> cp_ok c.
Proof.
  unfold cp_entry_of_sx, cp_ok. intro H. step_split H; injection H as <-; cbn [cp_to_raw cp_to]; congruence.
Qed.

Lemma set_path_keeps_head path v k0 e0 x0 r :
  match path with [] => True | (k, _) :: _ => bytes_eqb k0 k = false end ->
  set_path path v ((k0, e0, x0) :: r) = (k0, e0, x0) :: set_path path v r.
Proof. destruct path as [|[k esc] [|]]; intro H; cbn [set_path upsert]; rewrite ?H; reflexivity. Qed.

Lemma apply_copies_keeps_event cfg : Forall cp_ok cfg -> forall vals x0 r,
  apply_copies cfg vals ((EVENT_KEY, EVENT_ESC, x0) :: r) = (EVENT_KEY, EVENT_ESC, x0) :: apply_copies cfg vals r.
Proof.
  induction 1 as [|c cfg Hc _ IH]; intros vals x0 r; cbn [apply_copies]; [reflexivity|].
  destruct (splunk_keep (cp_to_raw c)) eqn:K; [|apply IH].
  destruct vals as [|[x|] vs]; cbn [tl]; try apply IH.
  rewrite set_path_keeps_head; [apply IH|].
  specialize (Hc K). destruct (cp_to c) as [|[k esc] rest]; [exact I|exact Hc].
Qed.

(* every envelope starts with {"event":<the event's encoding> — the event is carried whole and first —
   and goes on with the closing brace or with a comma and the copied fields *)
Theorem envelope_carries_event cfg e : Forall cp_ok cfg ->
  exists tail, envelope cfg e = SPLUNK_PRE ++ enc e ++ tail
    /\ (tail = [125]%N \/ exists t, tail = 44%N :: t).
Proof.
  intro Hc. unfold envelope. rewrite (apply_copies_keeps_event cfg Hc).
  destruct (apply_copies _ _ _) as [|[[k1 e1] x1] r''].
  - exists [125]%N. split; [reflexivity|left; reflexivity].
  - eexists. split; [cbn [oenc]; reflexivity|]. right. eexists. reflexivity.
Qed.

(* buffer reuse and retries: the buffer out() leaves (at_buf, the payload it built) does not depend on what the
   worker's buffer held nor on how the requests are answered; what the requests of a retried batch carry is
   retried_batch_same_payload *)
Definition buf_independent (out : out_fn) (batch : list ev) : Prop :=
  forall p1 s1 p2 s2 a1 a2, out batch p1 s1 = Ok a1 -> out batch p2 s2 = Ok a2 -> at_buf a1 = at_buf a2.

(* every specification of an out() above has this shape: the buffer, then whatever else (R) *)
Lemma buf_fixed (out : out_fn) (payload : bytes) (R : list Z -> attempt -> Prop) batch :
  (forall prev script, exists a, out batch prev script = Ok a /\ at_buf a = payload /\ R script a) ->
  buf_independent out batch.
Proof.
  intros H p1 s1 p2 s2 a1 a2 H1 H2.
  destruct (H p1 s1) as (b1 & E1 & B1 & _). destruct (H p2 s2) as (b2 & E2 & B2 & _). congruence.
Qed.

Theorem payload_independent batch :
  (forall c, es_cfg_ok c -> buf_independent (es_out c) batch)
  /\ (forall raw sp, buf_independent (http_out raw sp) batch)
  /\ buf_independent file_out batch
  /\ (forall cfg, buf_independent (splunk_out cfg) batch)
  /\ buf_independent gelf_out batch
  /\ (forall c p1 p2, len (deliverable batch) <= k_batch_size c -> kafka_build c batch p1 = kafka_build c batch p2).
Proof.
  split; [|split; [|split; [|split; [|split]]]].
  - intros c Hc. exact (buf_fixed _ _ _ _ (fun prev script => es_out_spec c batch prev script Hc)).
  - intros raw sp. exact (buf_fixed _ _ _ _ (http_out_spec raw sp batch)).
  - exact (buf_fixed _ _ _ _ (file_out_spec batch)).
  - intro cfg. exact (buf_fixed _ _ _ _ (splunk_out_spec cfg batch)).
  - exact (buf_fixed _ _ _ _ (gelf_out_spec batch)).
  - intros c p1 p2 H. rewrite !kafka_build_spec by exact H. reflexivity.
Qed.

Definition enc_valid (e : ev) : Prop := json_valid (enc e) = true.
Definition enc_line_safe (e : ev) : Prop := has_nl (enc e) = false.

(* the ES bulk body is exactly 2n lines: action line, document, action line, document, ... *)
Lemma es_lines c evs : es_cfg_plain c -> Forall esc_safe evs -> Forall enc_line_safe evs ->
  lines_tail (concat (map (es_frame_of c) evs)) = (flat_map (fun e => [es_header_of c e; enc e]) evs, []).
Proof.
  intros Hp He Hl.
  replace (concat (map (es_frame_of c) evs))
    with (concat (map (fun x => x ++ [NL]) (flat_map (fun e => [es_header_of c e; enc e]) evs))).
  - apply split_tail_frames, Forall_flat_map. rewrite Forall_forall in *. intros e Hin.
    repeat constructor; [apply (es_header_line c e Hp (He e Hin))|apply Hl, Hin].
  - clear. induction evs as [|e r IH]; [reflexivity|]. cbn [map concat flat_map app]. rewrite IH.
    unfold es_frame_of. rewrite <- !app_assoc. reflexivity.
Qed.

(* ... and every line is one valid JSON document *)
Theorem es_payload_lines c batch prev :
  es_cfg_ok c -> es_cfg_plain c ->
  Forall esc_safe (deliverable batch) -> Forall enc_line_safe (deliverable batch) -> Forall enc_valid (deliverable batch) ->
  exists data begin n,
    es_build c batch prev = Ok (data, begin, n)
    /\ lines_tail data = (flat_map (fun e => [es_header_of c e; enc e]) (deliverable batch), [])
    /\ Forall (fun l => json_valid l = true) (flat_map (fun e => [es_header_of c e; enc e]) (deliverable batch)).
Proof.
  intros Hc Hp He Hl Hv. eexists _, _, _. split; [apply es_build_spec, Hc|]. split; [apply es_lines; assumption|].
  apply Forall_flat_map. rewrite Forall_forall in *. intros e Hin.
  repeat constructor; [apply (es_header_line c e Hp (He e Hin))|apply Hv, Hin].
Qed.

(* file and http (json encoder): the lines of the payload are the events' documents *)
Theorem ndjson_payload_lines batch prev :
  Forall enc_line_safe (deliverable batch) ->
  lines_tail (build_frames frame_file batch prev) = (map enc (deliverable batch), []).
Proof.
  intro Hl. rewrite build_frames_spec. unfold frame_file.
  rewrite <- (map_map enc (fun x => x ++ [NL])). apply split_tail_frames, Forall_map, Hl.
Qed.

Definition ex_cfg : es_cfg := mkEs [105]%N [120; 45; 37]%N [IField] [116]%N true.
Definition ex_e1 : ev := mkEv 0 [123; 49; 125]%N [[97; 34; 98]%N] [[97; 92; 34; 98]%N] [] None [].
Definition ex_e2 : ev := mkEv 2 [123; 50; 125]%N [[]] [[]] [] None [].
Definition ex_e3 : ev := mkEv 0 [123; 51; 125]%N [[]] [[]] [] None [].
Lemma ex_hyps_ok : es_cfg_ok ex_cfg /\ es_cfg_plain ex_cfg /\ esc_safe ex_e1.
Proof.
  split; [unfold es_cfg_ok; cbn; lia|]. split; [repeat split; reflexivity|].
  unfold esc_safe. cbn. repeat constructor.
Qed.

(* the splunk instance: ts -> time, service -> fields.service_name, and an entry to event.x that Start() drops *)
Definition ex_scfg : list cp_entry := [mkCp [116; 105; 109; 101]%N [([116; 105; 109; 101]%N, [34; 116; 105; 109; 101; 34]%N)]; mkCp [102; 105; 101; 108; 100; 115; 46; 115; 101; 114; 118; 105; 99; 101; 95; 110; 97; 109; 101]%N [([102; 105; 101; 108; 100; 115]%N, [34; 102; 105; 101; 108; 100; 115; 34]%N); ([115; 101; 114; 118; 105; 99; 101; 95; 110; 97; 109; 101]%N, [34; 115; 101; 114; 118; 105; 99; 101; 95; 110; 97; 109; 101; 34]%N)]; mkCp [101; 118; 101; 110; 116; 46; 120]%N [([101; 118; 101; 110; 116]%N, [34; 101; 118; 101; 110; 116; 34]%N); ([120]%N, [34; 120; 34]%N)]].
Definition ex_s1 : ev := mkEv 0 [123; 34; 109; 115; 103; 34; 58; 34; 102; 105; 114; 115; 116; 34; 44; 34; 116; 115; 34; 58; 34; 49; 55; 34; 44; 34; 115; 101; 114; 118; 105; 99; 101; 34; 58; 34; 97; 34; 125]%N [] [] [] None [Some (OV [34; 49; 55; 34]%N); Some (OV [34; 97; 34]%N); Some (OV [34; 102; 105; 114; 115; 116; 34]%N)].
Definition ex_s2 : ev := mkEv 0 [123; 34; 109; 115; 103; 34; 58; 34; 115; 101; 99; 111; 110; 100; 34; 125]%N [] [] [] None [None; None; Some (OV [34; 115; 101; 99; 111; 110; 100; 34]%N)].
Definition ex_s3 : ev := mkEv 0 [123; 34; 109; 115; 103; 34; 58; 34; 116; 104; 105; 114; 100; 34; 44; 34; 115; 101; 114; 118; 105; 99; 101; 34; 58; 34; 99; 34; 125]%N [] [] [] None [None; Some (OV [34; 99; 34]%N); Some (OV [34; 116; 104; 105; 114; 100; 34]%N)].
Lemma ex_scfg_ok : Forall cp_ok ex_scfg.
Proof. repeat constructor; unfold cp_ok; cbn; try discriminate; intros _; reflexivity. Qed.

(* The automaton only looks at the top of its stack: a step that succeeds on a stack succeeds on every
   extension of that stack, with the same states.  [framed o o'] says so of the two results.  It goes through
   every `if`, so the proofs walk the guards, and where a bracket closes the top of the stack decides.
   The applications are `simple` because a plain apply unfolds j_val and j_end in search of an `if`. *)
Section Frame.
  Variable base : list jctx.

  Inductive framed : option jstate -> option jstate -> Prop :=
  | framed_some st s : framed (Some (st, s)) (Some (st, s ++ base))
  | framed_none o' : framed None o'.

  Lemma framed_if (b : bool) x y x' y' :
    framed x x' -> framed y y' -> framed (if b then x else y) (if b then x' else y').
  Proof. destruct b; auto. Qed.

  Lemma j_val_frame s c : framed (j_val s c) (j_val (s ++ base) c).
  Proof. unfold j_val. repeat simple apply framed_if. all: constructor. Qed.

  Lemma j_end_frame s c : framed (j_end s c) (j_end (s ++ base) c).
  Proof. unfold j_end. destruct s as [|[] s]; repeat simple apply framed_if. all: constructor. Qed.

  Lemma jstep_frame st s c : framed (jstep (st, s) c) (jstep (st, s ++ base) c).
  Proof.
    (* JHex and JLit branch on their argument as well *)
    destruct st as [| | | | | |k|k|k [|n]| | | | | | | | |[|x rest]]; cbn [jstep]; repeat simple apply framed_if.
    all: try first [simple apply j_val_frame | simple apply j_end_frame | constructor].
    all: destruct s as [|[] s]; constructor.
  Qed.
End Frame.

(* states in which a JSON value is complete: the next byte is a separator *)
Definition term_state (st : jst) : bool :=
  match st with JEnd | JZero | JInt | JFrac | JExpDig => true | _ => false end.

Lemma term_comma st stk : term_state st = true -> jstep (st, CObj :: stk) 44%N = Some (JKey, CObj :: stk).
Proof. destruct st; try discriminate; reflexivity. Qed.
Lemma term_close st stk : term_state st = true -> jstep (st, CObj :: stk) 125%N = Some (JEnd, stk).
Proof. destruct st; try discriminate; reflexivity. Qed.

Definition lit_ok (esc : bytes) : Prop := exists body, esc = QUOTE :: body ++ [QUOTE] /\ str_body_ok body = true.

Lemma lit_ok_intro body : str_body_ok body = true -> lit_ok (QUOTE :: body ++ [QUOTE]).
Proof. intro H. exists body. split; [reflexivity|exact H]. Qed.

Lemma jrun_key esc stk st0 rest : lit_ok esc -> (st0 = JKey \/ st0 = JKeyOrEnd) ->
  jrun (st0, stk) (esc ++ 58%N :: rest) = jrun (JVal, stk) rest.
Proof.
  intros (body & -> & Hb) Hst. cbn [app jrun].
  replace (jstep (st0, stk) QUOTE) with (Some (JStr true, stk)) by (destruct Hst as [-> | ->]; reflexivity).
  rewrite <- app_assoc, jrun_str_body by exact Hb. reflexivity.
Qed.

(* well-formed oracle trees: leaves are JSON documents, key literals are string literals *)
Fixpoint owf (v : oval) : Prop :=
  match v with
  | OV r => json_valid r = true
  | OO fs => (fix go (fs : list ofield) : Prop :=
                match fs with
                | [] => True
                | (_, esc, x) :: r => lit_ok esc /\ owf x /\ go r
                end) fs
  end.
Definition fields_wf (fs : list ofield) : Prop := owf (OO fs).

Lemma oval_ind' (P : oval -> Prop) :
  (forall r, P (OV r)) -> (forall fs, Forall (fun f => P (snd f)) fs -> P (OO fs)) -> forall v, P v.
Proof.
  intros HV HO. fix IH 1. intros [r|fs]; [apply HV|apply HO].
  induction fs as [|[[k esc] x] r IHr]; constructor; [apply IH|exact IHr].
Qed.

(* oenc's loop over the fields: what follows the opening brace (first) or a field value *)
Definition ogo := (fix go (fs : list ofield) (first : bool) : bytes :=
                  match fs with
                  | [] => [125]%N
                  | (_, esc, x) :: r => (if first then [] else [44]%N) ++ esc ++ 58%N :: oenc x ++ go r false
                  end).
Lemma oenc_OO fs : oenc (OO fs) = 123%N :: ogo fs true.
Proof. reflexivity. Qed.
Lemma ogo_cons k esc x r first :
  ogo ((k, esc, x) :: r) first = (if first then [] else [44]%N) ++ esc ++ 58%N :: oenc x ++ ogo r false.
Proof. reflexivity. Qed.

Lemma jrun_frame base : forall l st s st' s',
  jrun (st, s) l = Some (st', s') -> jrun (st, s ++ base) l = Some (st', s' ++ base).
Proof.
  induction l as [|c l IH]; intros st s st' s'; cbn [jrun].
  - intros [= <- <-]. reflexivity.
  - destruct (jstep_frame base st s c) as [st1 s1|o]; [apply IH|discriminate].
Qed.

(* what json_valid says of the empty stack, said of every stack, so that it can be used of a value inside an
   object; the two agree because the automaton looks only at the top of its stack (jrun_frame) *)
Definition jvalue (d : bytes) : Prop :=
  forall stk, exists st, jrun (JVal, stk) d = Some (st, stk) /\ term_state st = true.

Lemma valid_jvalue d : json_valid d = true -> jvalue d.
Proof.
  unfold json_valid. destruct (jrun (JVal, []) d) as [[st s]|] eqn:E; [|discriminate]. intros H stk. exists st.
  destruct st; try discriminate H; destruct s; try discriminate H.
  all: split; [exact (jrun_frame stk _ _ _ _ _ E)|reflexivity].
Qed.

Lemma jvalue_valid d : jvalue d -> json_valid d = true.
Proof. intro H. destruct (H []) as (st & E & T). unfold json_valid. rewrite E. destruct st; try discriminate T; reflexivity. Qed.

(* the fields of an object from the state before a field: just after the opening brace (first) or after a value *)
Lemma jrun_fields stk : forall fs, Forall (fun f => owf (snd f) -> jvalue (oenc (snd f))) fs -> fields_wf fs ->
  forall (first : bool) st, (if first then st = JKeyOrEnd else term_state st = true) ->
  jrun (st, CObj :: stk) (ogo fs first) = Some (JEnd, stk).
Proof.
  induction 1 as [|[[k esc] x] r Hx _ IH]; intros Hw first st Hst.
  - destruct first; [subst st; reflexivity|]. cbn [ogo jrun]. rewrite (term_close st stk Hst). reflexivity.
  - destruct Hw as (Hl & Hwx & Hwr). rewrite ogo_cons. destruct (Hx Hwx (CObj :: stk)) as (st1 & E1 & T1).
    (* the comma unless this is the first field; then the key, the colon, the value, the other fields *)
    destruct first; cbn [app jrun]; [subst st|rewrite (term_comma st stk Hst)].
    all: rewrite jrun_key by auto; exact (jrun_seq _ _ _ _ _ E1 (IH Hwr false st1 T1)).
Qed.

Lemma owf_jvalue : forall v, owf v -> jvalue (oenc v).
Proof.
  induction v as [r|fs IH] using oval_ind'; intro Hw; [exact (valid_jvalue r Hw)|].
  intro stk. exists JEnd. split; [exact (jrun_fields stk fs IH Hw true JKeyOrEnd eq_refl)|reflexivity].
Qed.

Lemma object_run fs stk : fields_wf fs -> jrun (JVal, stk) (oenc (OO fs)) = Some (JEnd, stk).
Proof.
  intro Hw. refine (jrun_fields stk fs _ Hw true JKeyOrEnd eq_refl). apply Forall_forall. intros f _. apply owf_jvalue.
Qed.

Lemma jrun_end_ws : forall l s, jrun (JEnd, []) l = Some s -> forallb is_ws l = true.
Proof.
  induction l as [|c l IH]; intros s; [reflexivity|]. cbn [jrun jstep forallb]. unfold j_end.
  destruct (is_ws c); [apply IH|]. repeat (destruct (N.eqb c _); [discriminate|]). discriminate.
Qed.

(* the cutter takes a document that does not end in white space off a row whole: had the run been complete
   earlier, it could only have gone on through white space *)
Lemma split_docs_whole c rest : is_ws c = false -> forall l s rc,
  jrun s (l ++ [c]) = Some (JEnd, []) ->
  split_docs s rc (l ++ c :: rest)
  = match split_docs (JVal, []) [] rest with
    | Some ds => Some ((rev rc ++ l ++ [c]) :: ds)
    | None => None
    end.
Proof.
  intro Hc. induction l as [|x l IH]; intros s rc; cbn [app jrun split_docs].
  - destruct (jstep s c) as [[st1 s1]|]; [|discriminate]. intros [= -> ->]. rewrite rev_fast_rev. reflexivity.
  - destruct (jstep s x) as [[st1 s1]|]; [|discriminate]. intro H.
    assert (Hgo : split_docs (st1, s1) (x :: rc) (l ++ c :: rest)
                  = match split_docs (JVal, []) [] rest with
                    | Some ds => Some ((rev rc ++ x :: l ++ [c]) :: ds)
                    | None => None
                    end).
    { rewrite (IH _ _ H). cbn [rev]. rewrite <- app_assoc. reflexivity. }
    destruct st1; try exact Hgo. destruct s1; try exact Hgo.
    apply jrun_end_ws in H. rewrite forallb_app in H. cbn [forallb] in H. rewrite Hc, andb_false_r in H. discriminate.
Qed.

Lemma ogo_last : forall fs first, exists l, ogo fs first = l ++ [125]%N.
Proof.
  induction fs as [|[[k esc] x] r IH]; intro first; [exists []; reflexivity|].
  destruct (IH false) as (l & E). rewrite ogo_cons, E, !app_assoc, app_comm_cons, app_assoc. eexists. reflexivity.
Qed.

Lemma split_object fs rest : fields_wf fs ->
  split_docs (JVal, []) [] (oenc (OO fs) ++ rest)
  = match split_docs (JVal, []) [] rest with
    | Some ds => Some (oenc (OO fs) :: ds)
    | None => None
    end.
Proof.
  intro H. pose proof (object_run fs [] H) as E. revert E. rewrite oenc_OO.
  destruct (ogo_last fs true) as (l & ->). intro E. cbn [app]. rewrite <- app_assoc.
  exact (split_docs_whole 125%N rest eq_refl (123%N :: l) (JVal, []) [] E).
Qed.

Definition opt_wf (o : option oval) : Prop := match o with Some x => owf x | None => True end.

Lemma fields_of_wf o : opt_wf o -> fields_wf (fields_of o).
Proof. destruct o as [[r|fs]|]; intro H; try exact I. exact H. Qed.

Lemma upsert_wf k esc f : lit_ok esc -> (forall o, opt_wf o -> owf (f o)) ->
  forall fs, fields_wf fs -> fields_wf (upsert k esc f fs).
Proof.
  intros Hl Hf. induction fs as [|[[k' e'] x] r IH]; cbn [upsert]; [intros _; exact (conj Hl (conj (Hf None I) I))|].
  intros (Hl' & Hx & Hr). destruct (bytes_eqb k' k).
  - exact (conj Hl' (conj (Hf (Some x) Hx) Hr)).
  - exact (conj Hl' (conj Hx (IH Hr))).
Qed.

Lemma set_path_wf v : owf v -> forall path, Forall (fun p => lit_ok (snd p)) path ->
  forall fs, fields_wf fs -> fields_wf (set_path path v fs).
Proof.
  intro Hv. induction 1 as [|[k esc] rest Hl _ IH]; intros fs Hw; cbn [set_path]; [exact Hw|].
  destruct rest as [|q rest']; (apply upsert_wf; [exact Hl| |exact Hw]).
  - intros o _. exact Hv.
  - intros o Ho. apply (IH (fields_of o)), fields_of_wf, Ho.
Qed.

(* a configuration whose target key literals are JSON string literals (the harness takes them from
   insane-json's escaper); a hypothesis of its own: esc_safe speaks of ev_esc only *)
Definition cp_lits_ok (c : cp_entry) : Prop := Forall (fun p => lit_ok (snd p)) (cp_to c).

Lemma apply_copies_wf cfg : Forall cp_lits_ok cfg -> forall vals fs,
  Forall opt_wf vals -> fields_wf fs -> fields_wf (apply_copies cfg vals fs).
Proof.
  induction 1 as [|c cfg Hc _ IH]; intros vals fs Hv Hw; cbn [apply_copies]; [exact Hw|].
  assert (Htl : Forall opt_wf (tl vals)) by (destruct Hv; [constructor|assumption]).
  apply IH; [exact Htl|].
  destruct (splunk_keep (cp_to_raw c)); [|exact Hw].
  destruct Hv as [|[x|] vs Hx _]; try exact Hw. apply set_path_wf; [exact Hx|exact Hc|exact Hw].
Qed.

Definition ev_copy_ok (e : ev) : Prop := json_valid (enc e) = true /\ Forall opt_wf (ev_copy e).

Lemma envelope_wf cfg e : Forall cp_lits_ok cfg -> ev_copy_ok e ->
  fields_wf (apply_copies cfg (ev_copy e) [(EVENT_KEY, EVENT_ESC, OV (enc e))]).
Proof.
  intros Hc [He Hv]. apply apply_copies_wf; [exact Hc|exact Hv|].
  exact (conj (lit_ok_intro EVENT_KEY eq_refl) (conj He I)).
Qed.

(* the envelope of an event is one valid JSON document (an object), whatever the configuration copies
   where, as long as the event's encoding and the copied values are JSON documents (the two halves of
   ev_copy_ok) and the key literals are string literals *)
Theorem envelope_valid cfg e :
  Forall cp_lits_ok cfg -> json_valid (enc e) = true -> Forall opt_wf (ev_copy e) ->
  json_valid (envelope cfg e) = true /\ exists rest, envelope cfg e = 123%N :: rest.
Proof.
  intros Hc He Hv. split; [|eexists; apply oenc_OO].
  apply jvalue_valid, (owf_jvalue (OO _)), envelope_wf; [exact Hc|split; assumption].
Qed.

(* the request body of a batch is cut by the predicate's own cutter into exactly the envelopes of
   the deliverable events: one document per event, in order, nothing else *)
Theorem splunk_payload_docs cfg batch prev script :
  Forall cp_lits_ok cfg -> Forall ev_copy_ok (deliverable batch) ->
  exists a, splunk_out cfg batch prev script = Ok a
    /\ (forall cfgsx, splunk_cfg_of_sx cfgsx = Some cfg ->
        Forall (fun q => docs_of_body 4 cfgsx (rq_body q) = Some (expected_docs 4 cfgsx batch)) (at_reqs a))
    /\ Forall (fun d => json_valid d = true) (map (envelope cfg) (deliverable batch)).
Proof.
  intros Hc He. destruct (splunk_out_spec cfg batch prev script) as (a & E & _ & R).
  exists a. split; [exact E|]. split.
  - intros cfgsx Hcfg.
    apply (Forall_map rq_body (fun b => docs_of_body 4 cfgsx b = Some (expected_docs 4 cfgsx batch))).
    rewrite R. constructor; [|constructor]. unfold expected_docs, splunk_payload. rewrite Hcfg. cbn [docs_of_body].
    induction He as [|e r He1 _ IH]; [reflexivity|]. cbn [map concat]. unfold envelope at 1.
    rewrite split_object by (apply envelope_wf; assumption). rewrite IH. reflexivity.
  - apply Forall_map. apply Forall_impl with (2 := He). intros e [H1 H2]. apply envelope_valid; assumption.
Qed.

Lemma ex_scopy_ok : Forall cp_lits_ok ex_scfg /\ Forall ev_copy_ok [ex_s1; ex_s2; ex_s3].
Proof.
  split.
  - (* the literal of every target segment is its key between quotes *)
    repeat constructor.
    all: match goal with |- lit_ok (snd ?p) => exact (lit_ok_intro (fst p) eq_refl) end.
  - repeat constructor; cbn; reflexivity.
Qed.

(* an answer is coded 1000 * kind + status *)
Lemma is_ok_status_kind k s : 0 <= s < 1000 ->
  is_ok_status (1000 * k + s)
  = (0 <=? k) && (k <? 8) && (200 <=? s) && (s <=? 202) && ((k =? 0) || Z.odd k).
Proof.
  intro Hs. unfold is_ok_status, answer_status, answer_kind.
  rewrite (Z.add_comm (1000 * k)), (Z.mul_comm 1000), Z.mod_add, Z.div_add, Z.mod_small, Z.div_small by lia.
  cbn [Z.add]. replace ((0 <=? s + k * 1000) && (s + k * 1000 <? 8000)) with ((0 <=? k) && (k <? 8)) by lia.
  reflexivity.
Qed.

(* the answers a sink takes for success: 200..202 with the plain body (kind 0) or with a body its
   response reader accepts (the odd kinds); every other answer - also a 2xx one whose body the reader
   rejects (the even kinds) - is an error of the request *)
Lemma answer_kinds :
  (forall st, is_ok_status st = true <->
     exists k s, st = 1000 * k + s /\ 200 <= s <= 202 /\ (k = 0 \/ k = 1 \/ k = 3 \/ k = 5 \/ k = 7))
  /\ (forall k s, 200 <= s <= 202 -> (k = 2 \/ k = 4 \/ k = 6) -> is_ok_status (1000 * k + s) = false)
  /\ is_ok_status 413 = false /\ is_ok_status 400 = false /\ is_ok_status 204 = false /\ is_ok_status 199 = false.
Proof.
  split; [split|split; [|repeat split; reflexivity]].
  - intro H. pose proof (Z.div_mod st 1000 ltac:(lia)) as Hst. pose proof (Z.mod_pos_bound st 1000 ltac:(lia)) as Hm.
    exists (st / 1000), (st mod 1000). split; [exact Hst|]. rewrite Hst, is_ok_status_kind in H by exact Hm.
    bnorm. apply orb_prop in H0. destruct H0 as [Hk|Hk]; [|apply Z.odd_spec in Hk; destruct Hk as [m Hk]]; lia.
  - intros (k & s & -> & Hs & Hk). rewrite is_ok_status_kind by lia.
    replace ((k =? 0) || Z.odd k) with true by (destruct Hk as [->|[->|[->|[->| ->]]]]; reflexivity). lia.
  - intros k s Hs Hk. rewrite is_ok_status_kind by lia.
    replace ((k =? 0) || Z.odd k) with false by (destruct Hk as [->|[->| ->]]; reflexivity). apply andb_false_r.
Qed.

(* a rejected 2xx answer makes out() return the error, ES / http and splunk alike: the batch is offered again *)
Lemma rejected_answer_is_retried k s :
  200 <= s <= 202 ->
  out_ret_es (1000 * k + s) true = 1 /\ out_ret_splunk (1000 * k + s) true = 1.
Proof.
  intros Hs. unfold out_ret_es, out_ret_splunk.
  replace (1000 * k + s =? 400) with false by lia. replace (1000 * k + s =? 413) with false by lia.
  split; reflexivity.
Qed.

(* ok = true: no call of out() panicked or failed (attempts ends the case there); every attempt made exactly one request, its body
   the payload of the batch; after at least one attempt the buffer handed on is that payload; at most [tries] attempts *)
Definition retried (out : out_fn) (payload : list ev -> bytes) (tries : nat) (batch : list ev) (prev : bytes)
  (script : list Z) : Prop :=
  let '(atts, p, s, ok) := attempts out tries batch prev script in
  ok = true
  /\ Forall (fun r => exists a, r = Ok a /\ map rq_body (at_reqs a) = [payload batch]) atts
  /\ (tries <> O -> atts <> [] /\ p = payload batch)
  /\ (length atts <= tries)%nat.

(* a sink whose out() cannot fail on this batch and always leaves an attempt with P and a buffer with B: the
   exchange never breaks off, every attempt has P, and if there was an attempt at all the buffer left behind has B
   (it is the last attempt's) *)
Lemma attempts_all (out : out_fn) (P : attempt -> Prop) (B : bytes -> Prop) batch :
  (forall prev script, exists a, out batch prev script = Ok a /\ B (at_buf a) /\ P a) ->
  forall tries prev script,
  let '(atts, p, s, ok) := attempts out tries batch prev script in
  ok = true /\ Forall (fun r => exists a, r = Ok a /\ P a) atts /\ (tries <> O -> atts <> [] /\ B p)
  /\ (length atts <= tries)%nat.
Proof.
  intro H. induction tries as [|t IH]; intros prev script; cbn [attempts].
  - split; [reflexivity|]. split; [constructor|]. split; [intro C; contradiction|reflexivity].
  - destruct (H prev script) as (a & -> & Hb & Ha). destruct (Z.eqb (at_ret a) 1).
    + specialize (IH (at_buf a) (at_script a)).
      (* no attempt left: the buffer is this one's *)
      destruct t as [|t']; [cbn [attempts]|destruct (attempts out (S t') batch (at_buf a) (at_script a)) as [[[rest p] s] ok]].
      * split; [reflexivity|]. split; [constructor; eauto|]. split; [split; [discriminate|exact Hb]|reflexivity].
      * destruct IH as (Hok & Hall & Hp & Hlen). split; [exact Hok|]. split; [constructor; eauto|].
        split; [split; [discriminate|apply Hp; discriminate]|cbn [length]; lia].
    + split; [reflexivity|]. split; [constructor; eauto|]. split; [split; [discriminate|exact Hb]|cbn [length]; lia].
Qed.

Lemma attempts_same_payload out payload (H : sends_whole out payload) :
  forall tries batch prev script, retried out payload tries batch prev script.
Proof.
  intros tries batch.
  exact (attempts_all out (fun a => map rq_body (at_reqs a) = [payload batch]) (fun p => p = payload batch) batch (H batch) tries).
Qed.

Definition es_payload (c : es_cfg) (batch : list ev) : bytes := concat (map (es_frame_of c) (deliverable batch)).

(* a sink that keeps a begin table sends the whole payload when it does not split *)
Lemma frames_sends_whole (out : out_fn) (frame : ev -> bytes) :
  (forall batch prev script, exists a, out batch prev script = Ok a
     /\ frames_sent (map frame (deliverable batch)) false script a) ->
  sends_whole out (fun b => concat (map frame (deliverable b))).
Proof.
  intros H batch prev script. destruct (H batch prev script) as (a & E & B & R & _).
  exists a. rewrite (R eq_refl). repeat split; assumption.
Qed.

Lemma es_sends_whole c : es_cfg_ok c -> es_split c = false -> sends_whole (es_out c) (es_payload c).
Proof. intros Hc Hs. apply frames_sends_whole. rewrite <- Hs. intros batch prev script. exact (es_out_spec c batch prev script Hc). Qed.

Theorem retried_batch_same_payload :
  forall tries batch prev script,
  (forall c, es_cfg_ok c -> es_split c = false ->
     retried (es_out c) (fun b => concat (map (es_frame_of c) (deliverable b))) tries batch prev script)
  /\ (forall raw, retried (http_out raw false) (fun b => concat (map (frame_http raw) (deliverable b))) tries batch prev script)
  /\ retried file_out (fun b => concat (map frame_file (deliverable b))) tries batch prev script
  /\ (forall cfg, retried (splunk_out cfg) (fun b => concat (map (envelope cfg) (deliverable b))) tries batch prev script)
  /\ retried gelf_out (fun b => concat (map frame_gelf (deliverable b))) tries batch prev script.
Proof.
  intros tries batch prev script. repeat split.
  - intros c Hc Hs. apply attempts_same_payload, es_sends_whole; assumption.
  - intro raw. apply attempts_same_payload, frames_sends_whole, http_out_spec.
  - apply attempts_same_payload, file_out_spec.
  - intro cfg. apply attempts_same_payload, splunk_out_spec.
  - apply attempts_same_payload, gelf_out_spec.
Qed.

Lemma via_out_spec out batch prev script :
  (deliverable batch = [] -> via_out out batch prev script = Ok (mkAtt [] false 0 prev script))
  /\ (deliverable batch <> [] -> via_out out batch prev script = out batch prev script).
Proof.
  unfold via_out. destruct (deliverable batch); split; intro H; try reflexivity; [contradiction|discriminate H].
Qed.

Lemma via_attempts out batch : deliverable batch <> [] -> forall tries prev script,
  attempts (via_out out) tries batch prev script = attempts out tries batch prev script.
Proof.
  intro H. induction tries as [|t IH]; intros prev script; cbn [attempts]; [reflexivity|].
  rewrite (proj2 (via_out_spec out batch prev script) H).
  destruct (out batch prev script) as [a| |]; try reflexivity. rewrite IH. reflexivity.
Qed.

(* through the batcher: a batch without a deliverable event makes no request and leaves the worker's buffer
   and the answers alone; any other batch is offered to out() exactly as in the direct drive, so every attempt
   carries the payload of the batch *)
Theorem via_batcher :
  forall out payload, sends_whole out payload ->
  forall tries batch prev script,
  (deliverable batch = [] -> tries <> O ->
     attempts (via_out out) tries batch prev script = ([Ok (mkAtt [] false 0 prev script)], prev, script, true))
  /\ (deliverable batch <> [] ->
      attempts (via_out out) tries batch prev script = attempts out tries batch prev script
      /\ retried out payload tries batch prev script).
Proof.
  intros out payload H tries batch prev script. split.
  - intros Hd Ht. destruct tries; [contradiction|]. cbn [attempts].
    rewrite (proj1 (via_out_spec out batch prev script) Hd). reflexivity.
  - intro Hd. split; [apply via_attempts, Hd|apply attempts_same_payload, H].
Qed.

Theorem es_default_index_value op fmt time sp :
  let c := mkEs op fmt (es_default_vals []) time sp in
  es_vals c = [ITime]
  /\ ((count_pct fmt <= 1)%nat <-> es_cfg_ok c)
  /\ forall e1 e2, es_header c e1 = es_header c e2.
Proof.
  cbn zeta. split; [reflexivity|]. split; [reflexivity|].
  intros e1 e2. unfold es_header. rewrite !es_append_index_name_eq. cbn [es_fmt es_vals es_time es_default_vals is_nil].
  rewrite (es_name_spec_ext time e1 e2); [reflexivity|]. intros v k [<-|[]]. reflexivity.
Qed.

Lemma routed_eqb_iff x y : routed_eqb x y = true <-> x = y.
Proof.
  destruct x as [a b], y as [c d]. unfold routed_eqb. cbn [fst snd]. rewrite andb_true_iff, !bytes_eqb_eq.
  split; [intros [-> ->]; reflexivity|intro H; injection H as -> ->; auto].
Qed.

Lemma routed_list_eqb_iff xs : forall ys, routed_list_eqb xs ys = true <-> xs = ys.
Proof.
  induction xs as [|x xs IH]; intros [|y ys]; cbn [routed_list_eqb]; split; intro H; try reflexivity; try discriminate.
  - apply andb_true_iff in H. destruct H as [H1 H2]. apply routed_eqb_iff in H1. apply IH in H2. subst. reflexivity.
  - injection H as -> ->. apply andb_true_iff. split; [apply routed_eqb_iff|apply IH]; reflexivity.
Qed.

(* the predicate's greedy matcher finds a run of consecutive elements, wherever it starts: the elements of the run
   that the matcher uses up on the way there leave a shorter run *)
Lemma routed_subseq_seg : forall ys a xs b, ys = a ++ xs ++ b -> routed_subseq xs ys = true.
Proof.
  induction ys as [|y ys IH]; intros a xs b E.
  - destruct a, xs; try discriminate E. reflexivity.
  - destruct xs as [|x xs]; [reflexivity|]. cbn [routed_subseq].
    destruct a as [|y' a]; cbn [app] in E; injection E as -> E.
    + rewrite (proj2 (routed_eqb_iff x x) eq_refl). exact (IH [] xs b E).
    + destruct (routed_eqb x y').
      * apply (IH (a ++ [x]) xs b). rewrite <- app_assoc. exact E.
      * exact (IH a (x :: xs) b E).
Qed.

Lemma routed_subseq_refl xs : routed_subseq xs xs = true.
Proof. apply (routed_subseq_seg xs [] xs []). symmetry. apply app_nil_r. Qed.

Theorem k_topic_spec c e :
  (k_use_field c = true -> ev_topic e <> [] -> k_topic c e = ev_topic e)
  /\ (k_use_field c = false \/ ev_topic e = [] -> k_topic c e = k_default c)
  /\ (forall e2, ev_topic e2 = ev_topic e -> k_topic c e2 = k_topic c e).
Proof.
  unfold k_topic. split; [|split].
  - intros -> Hne. destruct (ev_topic e); [congruence|reflexivity].
  - intros [->| ->]; [reflexivity|]. destruct (k_use_field c); reflexivity.
  - intros e2 ->. reflexivity.
Qed.

(* what the producer is handed for a list of events: per record its topic (reported with status -1) and
   its value (reported with the answer) *)
Definition k_obs (c : k_cfg) (st : Z) (evs : list ev) : list (bytes * Z) :=
  flat_map (fun e => [(k_topic c e, -1); (enc e, st)]) evs.
Definition req_obs (q : sreq) : bytes * Z := (rq_body q, rq_status q).

Lemma k_reqs_spec c st data : forall recs evs,
  Forall2 (fun r e => k_value data r = Ok (enc e) /\ kr_topic r = k_topic c e) recs evs ->
  exists reqs, k_reqs data recs st = Ok reqs /\ map req_obs reqs = k_obs c st evs.
Proof.
  induction 1 as [|r e recs evs [Hv Ht] _ (reqs & E & M)]; cbn [k_reqs].
  - exists []. split; reflexivity.
  - rewrite Hv, E. cbn [bind]. eexists. split; [reflexivity|]. unfold k_obs in *.
    cbn [map req_obs rq_body rq_status flat_map app]. rewrite Ht, M. reflexivity.
Qed.

(* one call of out(): whatever the worker's buffer held before and whatever the answer is (the model keeps no
   record slots between calls: kafka_build starts from (buf_reset prev, [], 0)),
   record i carries the topic and the encoding of the i-th deliverable event of THIS batch *)
Theorem kafka_out_routing c batch prev script :
  len (deliverable batch) <= k_batch_size c ->
  exists a, kafka_out c batch prev script = Ok a
    /\ map req_obs (at_reqs a) = k_obs c (fst (next_status script)) (deliverable batch)
    /\ at_buf a = concat (map enc (deliverable batch)).
Proof.
  intro Hbs. unfold kafka_out. rewrite (kafka_build_spec c batch prev Hbs). cbn [bind].
  destruct (next_status script) as [st sc]. cbn [fst].
  destruct (k_reqs_spec c st _ _ _ (k_recs_values c (deliverable batch) [])) as (reqs & E & M).
  cbn [app] in E. change (len (@nil byte)) with 0 in E. rewrite E. cbn [bind].
  eexists. split; [reflexivity|]. cbn [at_reqs at_buf]. auto.
Qed.

(* topic independence / no cross-event leakage: inside ANY batch that contains the deliverable event e -
   any events before it, any after it, any content of the worker's buffer, any answer - the
   record at e's place carries [k_topic c e], a function of e and the configuration alone *)
Theorem kafka_topic_independent c e pre post prev script :
  is_parent e = false -> len (deliverable (pre ++ e :: post)) <= k_batch_size c ->
  exists a, kafka_out c (pre ++ e :: post) prev script = Ok a
    /\ map req_obs (at_reqs a)
       = k_obs c (fst (next_status script)) (deliverable pre)
         ++ [(k_topic c e, -1); (enc e, fst (next_status script))]
         ++ k_obs c (fst (next_status script)) (deliverable post).
Proof.
  intros Hp Hbs. destruct (kafka_out_routing c (pre ++ e :: post) prev script Hbs) as (a & E & M & _).
  exists a. split; [exact E|]. rewrite M, (deliverable_mid pre e post Hp). apply flat_map_app.
Qed.

Lemma nth_error_mid2 {A} (a : list A) x y b :
  nth_error (a ++ x :: y :: b) (length a) = Some x /\ nth_error (a ++ x :: y :: b) (S (length a)) = Some y.
Proof. induction a as [|z a IH]; [split; reflexivity|exact IH]. Qed.

Lemma k_obs_at c st pre t v post reqs :
  map req_obs reqs = k_obs c st pre ++ [(t, -1); (v, st)] ++ k_obs c st post ->
  nth_error (map rq_body reqs) (2 * length pre) = Some t
  /\ nth_error (map rq_body reqs) (S (2 * length pre)) = Some v.
Proof.
  intro M. replace (map rq_body reqs) with (map fst (map req_obs reqs)) by (rewrite map_map; reflexivity).
  rewrite M, map_app. cbn [map app fst].
  replace (2 * length pre)%nat with (length (map fst (k_obs c st pre))); [apply nth_error_mid2|].
  rewrite map_length. clear. unfold k_obs. induction pre; cbn [flat_map app length]; lia.
Qed.

Theorem kafka_no_cross_event_leak c e pre1 post1 pre2 post2 p1 s1 p2 s2 :
  is_parent e = false ->
  len (deliverable (pre1 ++ e :: post1)) <= k_batch_size c ->
  len (deliverable (pre2 ++ e :: post2)) <= k_batch_size c ->
  exists a1 a2,
    kafka_out c (pre1 ++ e :: post1) p1 s1 = Ok a1 /\ kafka_out c (pre2 ++ e :: post2) p2 s2 = Ok a2
    /\ nth_error (map rq_body (at_reqs a1)) (2 * length (deliverable pre1)) = Some (k_topic c e)
    /\ nth_error (map rq_body (at_reqs a2)) (2 * length (deliverable pre2)) = Some (k_topic c e)
    /\ nth_error (map rq_body (at_reqs a1)) (S (2 * length (deliverable pre1))) = Some (enc e)
    /\ nth_error (map rq_body (at_reqs a2)) (S (2 * length (deliverable pre2))) = Some (enc e).
Proof.
  intros Hp H1 H2.
  destruct (kafka_topic_independent c e pre1 post1 p1 s1 Hp H1) as (a1 & E1 & M1). apply k_obs_at in M1.
  destruct (kafka_topic_independent c e pre2 post2 p2 s2 Hp H2) as (a2 & E2 & M2). apply k_obs_at in M2.
  exists a1, a2. tauto.
Qed.

(* no cross-batch / cross-attempt leakage: through ANY history of batches on one worker (buffer reused,
   failed attempts offered again, any answers; the model carries no records from call to call) every call of
   out() hands the producer, per record, the topic and the value of the events of the batch it was called with *)
Theorem kafka_history_routing c : forall batches prev script,
  Forall (fun b => len (deliverable b) <= k_batch_size c) batches ->
  Forall (fun ba => exists a st, snd ba = Ok a /\ map req_obs (at_reqs a) = k_obs c st (deliverable (fst ba)))
         (run_batches (kafka_out c) batches prev script)
  /\ (forall b, In b batches -> In b (map fst (run_batches (kafka_out c) batches prev script))).
Proof.
  intros batches prev script HF. revert prev script.
  induction HF as [|b bs Hb _ IH]; intros prev script; cbn [run_batches]; [split; [constructor|intros b []]|].
  (* in the shape attempts_all takes: B is True, P the routing; 3 is the number of calls run_batches allows (retry = 1) *)
  assert (Hout : forall p s, exists a, kafka_out c b p s = Ok a /\ True
                   /\ exists st, map req_obs (at_reqs a) = k_obs c st (deliverable b)).
  { intros p s. destruct (kafka_out_routing c b p s Hb) as (a & E & M & _). eauto. }
  pose proof (attempts_all (kafka_out c) _ (fun _ => True) b Hout 3%nat prev script) as HA.
  destruct (attempts (kafka_out c) 3 b prev script) as [[[atts p] s] ok].
  destruct HA as (-> & Hall & Hp & _). destruct (IH p s) as [IH1 IH2]. split.
  - apply Forall_app. split; [|exact IH1]. apply Forall_map. cbn [fst snd].
    apply Forall_impl with (2 := Hall). intros r (a & -> & st & M). eauto.
  - intros b' [<-|Hin]; rewrite map_app; apply in_or_app; [left|right; apply IH2, Hin].
    destruct (Hp ltac:(discriminate)) as [Hne _]. destruct atts; [destruct (Hne eq_refl)|left; reflexivity].
Qed.

Lemma kafka_pairs_obs c st : st <> -1 -> forall evs reqs,
  map req_obs reqs = k_obs c st evs ->
  kafka_pairs (map sx_of_req reqs) = Some (map (k_routed c) evs).
Proof.
  intros Hst. induction evs as [|e r IH]; intros reqs M.
  - destruct reqs; [reflexivity|discriminate].
  - unfold k_obs in M. cbn [flat_map app] in M.
    destruct reqs as [|q1 [|q2 reqs]]; try discriminate.
    cbn [map] in M. unfold req_obs at 1 2 in M. injection M as B1 S1 B2 S2 M3.
    cbn [map sx_of_req kafka_pairs]. rewrite S1, S2, B1, B2.
    replace (st =? -1) with false by lia. cbn [Z.eqb andb negb].
    rewrite (IH reqs M3). reflexivity.
Qed.

(* the predicate's routing clause for kafka: it holds of an observation exactly when the observed
   records are, in order, (k_topic c e, enc e) for the deliverable events of the batch *)
Theorem kafka_route_pred_iff cfgsx c batch m reqs ret :
  kafka_of_sx cfgsx = Some c ->
  route_pred 3 cfgsx batch m (SL [SZ 0; SL reqs; SZ ret]) = true
  <-> kafka_pairs reqs = Some (map (k_routed c) (deliverable batch)).
Proof.
  intro Hc. unfold route_pred, expected_routed, carried_pairs, complete. rewrite Hc. cbn [Z.eqb Pos.eqb orb].
  destruct (kafka_pairs reqs) as [ps|]; [|split; discriminate]. rewrite andb_true_r.
  split.
  - intro H. apply andb_true_iff in H. destruct H as [_ H]. apply routed_list_eqb_iff in H. rewrite H. reflexivity.
  - intro H. injection H as ->. rewrite routed_subseq_refl. apply routed_list_eqb_iff. reflexivity.
Qed.

(* ... and the model's own observation satisfies it, for every buffer history and every answer *)
Theorem kafka_model_routes cfgsx c batch prev script :
  kafka_of_sx cfgsx = Some c -> len (deliverable batch) <= k_batch_size c -> fst (next_status script) <> -1 ->
  route_pred 3 cfgsx batch (kafka_out c batch prev script) (sx_flat (kafka_out c batch prev script)) = true.
Proof.
  intros Hc Hbs Hst. destruct (kafka_out_routing c batch prev script Hbs) as (a & E & M & _). rewrite E.
  cbn [sx_flat]. apply (kafka_route_pred_iff cfgsx c batch (Ok a) _ _ Hc).
  apply (kafka_pairs_obs c _ Hst), M.
Qed.

(* data of an example of Properties/C19.v: kafka with use_topic_field and default topic d; events with topic a, a parent
   (topic x), no topic, topic b *)
Definition ex_kcfg : k_cfg := mkK [100]%N true 4.
Definition ex_k1 : ev := mkEv 0 [123; 49; 125]%N [] [] [97]%N None [].
Definition ex_k2 : ev := mkEv 2 [123; 50; 125]%N [] [] [120]%N None [].
Definition ex_k3 : ev := mkEv 0 [123; 51; 125]%N [] [] [] None [].
Definition ex_k4 : ev := mkEv 0 [123; 52; 125]%N [] [] [98]%N None [].

Theorem es_header_local c e1 e2 :
  ev_raw e1 = ev_raw e2 -> ev_esc e1 = ev_esc e2 -> es_header_of c e1 = es_header_of c e2.
Proof.
  intros Hr He. unfold es_header_of, es_name_of. rewrite (es_name_spec_ext _ e1 e2); [reflexivity|].
  intros v k _. unfold es_piece. rewrite Hr, He. reflexivity.
Qed.

Lemma es_route_ok c e : es_cfg_ok c -> es_route c e = es_header_of c e.
Proof. intro Hc. unfold es_route. rewrite (es_header_ok c e Hc). reflexivity. Qed.

(* action-line independence: inside the payload of ANY batch that contains the deliverable event e the
   bytes at e's place are its own action line and its own document *)
Theorem es_action_line_independent c e pre post prev script :
  es_cfg_ok c -> is_parent e = false ->
  exists a, es_out c (pre ++ e :: post) prev script = Ok a
    /\ at_buf a = es_payload c pre ++ (es_header_of c e ++ [NL] ++ enc e ++ [NL]) ++ es_payload c post
    /\ slice (at_buf a) (len (es_payload c pre)) (len (es_payload c pre) + len (es_header_of c e))
       = Ok (es_header_of c e).
Proof.
  intros Hc Hp. destruct (es_out_spec c (pre ++ e :: post) prev script Hc) as (a & E & B & _).
  exists a. split; [exact E|]. rewrite (frames_mid _ pre e post Hp) in B.
  split; [exact B|]. rewrite B. unfold es_frame_of. rewrite <- !app_assoc. apply slice_mid.
Qed.

Lemma unpair_flat {A} (f g : A -> bytes) : forall l,
  unpair (flat_map (fun e => [f e; g e]) l) = Some (map f l, map g l).
Proof.
  induction l as [|x l IH]; [reflexivity|]. cbn [flat_map app unpair map]. rewrite IH. reflexivity.
Qed.

(* the predicate's cutter (es_pairs) reads from the frames of any events exactly their (action line,
   document) pairs — under the oracle hypotheses that make the lines lines *)
Theorem es_pairs_frames c evs :
  es_cfg_ok c -> es_cfg_plain c -> Forall esc_safe evs -> Forall enc_line_safe evs ->
  es_pairs (concat (map (es_frame_of c) evs)) = Some (map (es_routed c) evs).
Proof.
  intros Hc Hp He Hl. unfold es_pairs. rewrite (es_lines c evs Hp He Hl). cbn [is_nil negb].
  rewrite unpair_flat, combine_map. f_equal. apply map_ext. intro e.
  unfold es_routed. rewrite (es_route_ok c e Hc). reflexivity.
Qed.

(* the model's own observation satisfies the routing clause (one request per call: without split_batch),
   for every buffer history and every answer *)
Theorem es_model_routes cfgsx c pr batch prev script :
  es_of_sx cfgsx = Some (c, pr) -> es_cfg_ok c -> es_cfg_plain c -> es_split c = false ->
  Forall esc_safe (deliverable batch) -> Forall enc_line_safe (deliverable batch) ->
  route_pred 0 cfgsx batch (es_out c batch prev script) (sx_flat (es_out c batch prev script)) = true.
Proof.
  intros Hcfg Hc Hp Hs He Hl. unfold es_out. rewrite (es_build_spec c batch prev Hc). cbn [bind]. rewrite Hs.
  unfold send_whole. destruct (next_status script) as [st sc]. cbn [bind sx_flat at_reqs map sx_of_req rq_body rq_status].
  unfold route_pred, expected_routed. rewrite Hcfg. unfold carried_pairs. cbn [Z.eqb es_carried_pairs].
  unfold sx_of_req. cbn [rq_body rq_status]. rewrite (es_pairs_frames c (deliverable batch) Hc Hp He Hl).
  cbn [es_all_routed]. rewrite (es_pairs_frames c (deliverable batch) Hc Hp He Hl).
  rewrite routed_subseq_refl.
  unfold complete. cbn [Z.eqb orb at_err andb]. destruct (is_ok_status st); cbn [negb].
  - rewrite app_nil_r, routed_subseq_refl, andb_true_r. cbn [andb]. apply routed_list_eqb_iff. reflexivity.
  - destruct (map (es_routed c) (deliverable batch)); reflexivity.
Qed.

(* a request's body is the frames of firstn n (skipn k ds): es_pairs_frames reads the pairs of that stretch, and a stretch of ds
   is a run of consecutive elements (routed_subseq_seg) *)
Lemma es_all_routed_spec c ds : es_cfg_ok c -> es_cfg_plain c -> Forall esc_safe ds -> Forall enc_line_safe ds ->
  forall reqs,
  Forall (fun q => rq_body q = frames_range (map (es_frame_of c) ds) (rq_l q) (rq_r q)) reqs ->
  es_all_routed (map (es_routed c) ds) (map sx_of_req reqs) = true.
Proof.
  intros Hc Hp He Hl. induction 1 as [|q reqs Hq _ IH]; [reflexivity|].
  cbn [map sx_of_req es_all_routed]. rewrite IH, andb_true_r, Hq. unfold frames_range. rewrite skipn_map, firstn_map.
  set (k := Z.to_nat (rq_l q)). set (n := Z.to_nat (rq_r q - rq_l q)).
  assert (E : ds = firstn k ds ++ firstn n (skipn k ds) ++ skipn n (skipn k ds)) by (rewrite !firstn_skipn; reflexivity).
  rewrite E in He, Hl. apply Forall_app, proj2, Forall_app, proj1 in He, Hl.
  rewrite (es_pairs_frames c _ Hc Hp He Hl).
  apply (routed_subseq_seg _ (map (es_routed c) (firstn k ds)) _ (map (es_routed c) (skipn n (skipn k ds)))).
  rewrite <- !map_app, <- E. reflexivity.
Qed.

(* with or without split_batch, for every buffer history and every script of answers: every request out()
   makes — also one that is answered 413 / 5xx / with a rejected body — consists, in order, of (action
   line, document) pairs of the batch's deliverable events, each action line the event's own *)
Theorem es_requests_routed c batch prev script :
  es_cfg_ok c -> es_cfg_plain c ->
  Forall esc_safe (deliverable batch) -> Forall enc_line_safe (deliverable batch) ->
  exists a, es_out c batch prev script = Ok a
    /\ es_all_routed (map (es_routed c) (deliverable batch)) (map sx_of_req (at_reqs a)) = true.
Proof.
  intros Hc Hp He Hl. destruct (es_out_spec c batch prev script Hc) as (a & E & _ & _ & F & _).
  exists a. split; [exact E|]. apply (es_all_routed_spec c (deliverable batch) Hc Hp He Hl).
  apply Forall_impl with (2 := F). intros q (_ & _ & Hq). exact Hq.
Qed.
