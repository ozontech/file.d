(* NO-WEDGE theorem of the stream protocol (Model/Stream.v = pipeline/stream.go + the charged list of
   pipeline/streamer.go): from EVERY reachable state some schedule without a put drains every stream
   completely, without passing through a Panicf.  The schedule is made of processor and heartbeat steps and of the commit of
   the event taken last, which has to come from the output: that it arrives is assumed here, not shown.

   Proof: a variant function [M] (sum over the stream table of a per-stream rank [m]) and a progress
   lemma: in every state that satisfies the inductive invariant [Inv] of Proofs/Stream.v, either every
   stream has rank 0 (and then the state is [drained]) or some internal label is enabled whose step
   strictly decreases [M].  The steps chosen are the ones the Go code performs: joinStream pops the LAST
   charged stream, attach, get (regular or time-out event), commit of the last taken event, leave,
   tryDetach, makeCharged after a non-empty detach, and tryUnblock's time-out for a blocked owner. *)
From Verif Require Import Base.Sx Model.Stream Proofs.ListFacts Proofs.Stream Proofs.StreamTheorems.
From Coq Require Import Lia Bool List ZArith Arith.
Import ListNotations.
Local Open Scope Z_scope.

Definition internal (l : slabel) : Prop := match l with SPut _ _ _ => False | _ => True end.

Definition drained (t : sst) : Prop :=
  scrashed t = false /\ charged t = [] /\
  forall i, let st := sti t i in
    q st = [] /\ att st = false /\ det st = false /\ blk st = false /\ popped st = false /\ pend st = false /\
    own st = false /\ away st = scommit st.

(* 1 when the event taken last is not committed yet *)
Definition ne01 (st : stream) : nat := if away st =? scommit st then 0%nat else 1%nat.

(* number of internal steps the schedule of [progress] still needs: 2 per queued event (get, commit), 2 for the owner's leave and
   tryDetach; before those attach (popped: 3), pop (charged: 4), makeCharged (pending: 5), tryDetach (detaching: 6); a blocked
   owner + 3 = the time-out and the 2 of the marker it queues *)
Definition m (st : stream) : nat :=
  let len := length (q st) in
  if att st then
    if det st then ((match q st with [] => 1 | _ :: _ => 2 * len + 6 end) + ne01 st)%nat
    else (2 * len + 2 + ne01 st + (if blk st then 3 else 0))%nat
  else match q st with
       | [] => 0%nat
       | _ :: _ => (2 * len + (if popped st then 3 else if pend st then 5 else 4))%nat
       end.

Fixpoint msum (l : list stream) : nat :=
  match l with [] => 0%nat | x :: r => (m x + msum r)%nat end.

Definition M (t : sst) : nat := msum (streams t).

Lemma m_stream0 : m stream0 = 0%nat.
Proof. reflexivity. Qed.

Lemma msum_set i : forall l x, (msum (set_s l i x) + m (get_s l i) = msum l + m x)%nat.
Proof.
  induction i as [|i IH]; intros l x; rewrite get_s_nth; destruct l as [|y r]; cbn [set_s nth msum].
  - rewrite m_stream0. lia.
  - lia.
  - assert (H := IH [] x). rewrite get_s_nil in H. cbn [msum] in H. rewrite m_stream0 in *. lia.
  - assert (H := IH r x). rewrite get_s_nth in H. lia.
Qed.

Lemma msum_zero_or l : (forall i, m (get_s l i) = 0%nat) \/ exists i, (m (get_s l i) > 0)%nat.
Proof.
  induction l as [|y r IH].
  - left. intros i. rewrite get_s_nil. exact m_stream0.
  - destruct (m y) as [|k] eqn:Ey.
    + destruct IH as [Hz|(i & Hi)].
      * left. intros i. rewrite get_s_nth. destruct i as [|i]; cbn [nth]; [exact Ey|].
        rewrite <- get_s_nth. apply Hz.
      * right. exists (S i). rewrite get_s_nth. cbn [nth]. rewrite <- get_s_nth. exact Hi.
    + right. exists O. rewrite get_s_nth. cbn [nth]. lia.
Qed.

Definition prog (t : sst) : Prop :=
  exists l t', internal l /\ sstep t l = Some t' /\ (M t' < M t)%nat.

Lemma prog_intro t l i x t' :
  internal l -> sstep t l = Some t' -> streams t' = set_s (streams t) i x ->
  (m x < m (sti t i))%nat -> prog t.
Proof.
  intros Hi Hs Hst Hm. exists l, t'. split; [exact Hi|]. split; [exact Hs|].
  unfold M. rewrite Hst. assert (H := msum_set i (streams t) x). fold (sti t i) in H. lia.
Qed.

(* name the fields of stream [i]: the hypotheses still in the goal become facts about the fields *)
Ltac d_open t i Est := destruct (sti t i) as [q0 cu a co at0 de bl po pe ow] eqn:Est; sfields.

(* [prog_intro] for label [l] of stream [i], whose fields [Est] names: [guards] rewrites the guards of
   the step that do not compute; what is left is the comparison of the two ranks *)
Ltac d_step t i Hcr Est l guards :=
  eapply (prog_intro t l i);
  [exact I
  |sstep_sti Hcr t i; rewrite Est; sfields; guards; reflexivity
  |cbn [streams]; reflexivity
  |rewrite Est; unfold m, ne01; sfields; cbn [length]].

(* commit of the event taken last (by its owner, or by the output while the stream is detaching) *)
Lemma pr_commit t i :
  scrashed t = false -> att (sti t i) = true -> scommit (sti t i) < away (sti t i) -> prog t.
Proof.
  intros Hcr. d_open t i Est. intros -> Hlt.
  d_step t i Hcr Est (SCommit (Z.of_nat i) a) ltac:(rewrite (proj2 (Z.leb_le co a)), Z.leb_refl by lia).
  rewrite Z.eqb_refl. destruct (Z.eqb_spec a co); [lia|]. destruct de, q0; lia.
Qed.

(* tryDetach of a detaching stream whose last taken event is committed *)
Lemma pr_detach t i :
  scrashed t = false -> att (sti t i) = true -> det (sti t i) = true ->
  away (sti t i) = scommit (sti t i) -> prog t.
Proof.
  intros Hcr. d_open t i Est. intros -> -> ->.
  d_step t i Hcr Est (SDetach (Z.of_nat i) (match q0 with [] => false | _ => true end))
    ltac:(rewrite Z.eqb_refl, eqb_reflx).
  destruct q0, po; cbn [length]; lia.
Qed.

(* makeCharged after a non-empty tryDetach (or a put into an idle stream) *)
Lemma pr_charge t i :
  scrashed t = false -> att (sti t i) = false -> pend (sti t i) = true -> popped (sti t i) = false ->
  q (sti t i) <> [] -> ~ In (Z.of_nat i) (charged t) -> prog t.
Proof.
  intros Hcr. d_open t i Est. intros -> -> -> Hq Hnc. destruct q0 as [|x r]; [congruence|].
  d_step t i Hcr Est (SCharge (Z.of_nat i)) ltac:(rewrite (proj2 (existsb_eqb_notIn _ _) Hnc)).
  lia.
Qed.

(* joinStream: pop the last charged stream *)
Lemma pr_pop t : Inv t -> charged t <> [] -> prog t.
Proof.
  intros HI Hne. destruct (rev_nonempty _ Hne) as (s & r & E & Hin). assert (H0 := I_pos _ HI s Hin).
  destruct (i_ch _ _ _ (I_s _ HI s H0) Hin) as (Ha & Hq & Hpo & Hpe). revert Ha Hq Hpo Hpe.
  unfold sget. fold (sti t (Z.to_nat s)). d_open t (Z.to_nat s) Est. intros -> Hq -> ->.
  destruct q0 as [|x r0]; [congruence|].
  eapply (prog_intro t (SPop s) (Z.to_nat s)); [exact I| | |].
  - sstep_guards (I_cr _ HI) H0. rewrite E, Z.eqb_refl. reflexivity.
  - reflexivity.
  - fold (sti t (Z.to_nat s)). rewrite Est. unfold m. sfields. lia.
Qed.

(* attach after the pop *)
Lemma pr_attach t i :
  scrashed t = false -> popped (sti t i) = true -> att (sti t i) = false -> det (sti t i) = false ->
  q (sti t i) <> [] -> away (sti t i) = scommit (sti t i) -> prog t.
Proof.
  intros Hcr. d_open t i Est. intros -> -> -> Hq ->. destruct q0 as [|x r]; [congruence|].
  d_step t i Hcr Est (SAttach (Z.of_nat i)) ltac:(idtac).
  rewrite Z.eqb_refl. lia.
Qed.

(* tryUnblock (heartbeat): the time-out event for a blocked owner *)
Lemma pr_timeout t i :
  scrashed t = false -> blk (sti t i) = true -> att (sti t i) = true -> det (sti t i) = false ->
  q (sti t i) = [] -> away (sti t i) = scommit (sti t i) -> prog t.
Proof.
  intros Hcr. d_open t i Est. intros -> -> -> -> ->.
  d_step t i Hcr Est (STimeout (Z.of_nat i) co) ltac:(rewrite !Z.eqb_refl).
  rewrite Z.eqb_refl. lia.
Qed.

(* the owner takes the next regular event *)
Lemma pr_get_regular t i r :
  scrashed t = false -> att (sti t i) = true -> own (sti t i) = true -> det (sti t i) = false ->
  blk (sti t i) = false -> 0 <= away (sti t i) -> q (sti t i) = (away (sti t i) + 1) :: r -> prog t.
Proof.
  intros Hcr. d_open t i Est. intros -> -> -> -> H0 ->.
  d_step t i Hcr Est (SGet (Z.of_nat i) (a + 1) 0) ltac:(rewrite (proj2 (Z.ltb_ge (a + 1) 0)), Z.eqb_refl by lia).
  destruct (Z.eqb_spec (a + 1) co), (Z.eqb_spec a co); lia.
Qed.

(* the owner takes the time-out event *)
Lemma pr_get_marker t i r :
  scrashed t = false -> att (sti t i) = true -> own (sti t i) = true -> det (sti t i) = false ->
  blk (sti t i) = false -> 0 <= scommit (sti t i) -> q (sti t i) = (- scommit (sti t i) - 1) :: r -> prog t.
Proof.
  intros Hcr. d_open t i Est. intros -> -> -> -> H0 ->.
  d_step t i Hcr Est (SGet (Z.of_nat i) co 3) ltac:(rewrite (proj2 (Z.ltb_ge co 0)), !Z.eqb_refl by lia).
  rewrite Z.eqb_refl. destruct (Z.eqb_spec a co); lia.
Qed.

(* instantGet finds the stream empty: leave *)
Lemma pr_leave t i :
  scrashed t = false -> att (sti t i) = true -> own (sti t i) = true -> det (sti t i) = false ->
  q (sti t i) = [] -> away (sti t i) = scommit (sti t i) -> prog t.
Proof.
  intros Hcr. d_open t i Est. intros -> -> -> -> ->.
  d_step t i Hcr Est (SLeave (Z.of_nat i)) ltac:(idtac).
  rewrite Z.eqb_refl. destruct bl; lia.
Qed.

(* PROGRESS: in a state satisfying the invariant, a stream of non-zero rank means some internal step is
   enabled (for this stream, or the pop of the last charged one) and decreases the variant *)
Lemma progress t i : Inv t -> (m (sti t i) > 0)%nat -> prog t.
Proof.
  intros HI Hm. assert (Hcr := I_cr _ HI). assert (Hv := sinv_view _ _ _ (Inv_nat t i HI)). fold (sti t i) in Hv.
  remember (sti t i) as st eqn:E. destruct Hv.
  - (* idle *) cbv in Hm. lia.
  - (* charged *) apply (pr_pop t HI). intros Hc. rewrite Hc in *. assumption.
  - (* popped *) apply (pr_attach t i Hcr); rewrite <- E; trivial. apply range_nonempty. lia.
  - (* pending *) apply (pr_charge t i Hcr); rewrite <- ?E; trivial. apply range_nonempty. lia.
  - (* owned *) destruct (range (a + 1) cu) as [|x r] eqn:Eq; range_inv.
    + destruct (Z.eq_dec a co) as [->|Hne].
      * apply (pr_leave t i Hcr); rewrite <- E; reflexivity.
      * apply (pr_commit t i Hcr); rewrite <- E; [reflexivity|sfields; lia].
    + apply (pr_get_regular t i (range (a + 1 + 1) cu) Hcr); rewrite <- E; sfields; trivial; lia.
  - (* owned, marker first *) apply (pr_get_marker t i (range (a + 1) cu) Hcr); rewrite <- E; sfields; trivial; lia.
  - (* blocked *) apply (pr_timeout t i Hcr); rewrite <- E; reflexivity.
  - (* detaching *) destruct (Z.eq_dec a co) as [->|Hne].
    + apply (pr_detach t i Hcr); rewrite <- E; reflexivity.
    + apply (pr_commit t i Hcr); rewrite <- E; [reflexivity|sfields; lia].
Qed.

Lemma m_zero st : m st = 0%nat -> att st = false /\ q st = [].
Proof.
  unfold m. destruct (att st); [destruct (det st), (q st); lia|].
  destruct (q st); [auto|]. destruct (popped st), (pend st); cbn [length]; lia.
Qed.

Lemma zero_drained t : Inv t -> (forall i, m (sti t i) = 0%nat) -> drained t.
Proof.
  intros HI Hz. split; [exact (I_cr _ HI)|]. split.
  - destruct (charged t) as [|s r] eqn:E; [reflexivity|exfalso].
    assert (Hin : In s (charged t)) by (rewrite E; left; reflexivity).
    assert (H0 := I_pos _ HI s Hin). destruct (i_ch _ _ _ (I_s _ HI s H0) Hin) as (_ & Hq & _).
    destruct (m_zero _ (Hz (Z.to_nat s))) as (_ & Hq'). unfold sget in Hq. unfold sti in Hq'. congruence.
  - intros i. cbv zeta. destruct (m_zero _ (Hz i)) as [Ha Hq]. revert Ha Hq. unfold sti.
    destruct (sinv_view _ _ _ (Inv_nat t i HI)); sfields; try discriminate; intros _ Hq; range_inv; try lia.
    repeat split.
Qed.

(* an induction on the fuel of its own, not Lts.sched_rests: [progress] yields the next label as an existential, not by a function *)
Lemma drain_from n : forall t, (M t <= n)%nat -> Inv t ->
  exists ls' t', Forall internal ls' /\ srun t ls' = Some t' /\ drained t' /\ (length ls' <= n)%nat.
Proof.
  induction n as [|n IH]; intros t Hn HI; destruct (msum_zero_or (streams t)) as [Hz|(i & Hi)].
  1, 3: exists [], t; split; [constructor|]; split; [reflexivity|]; split;
    [exact (zero_drained t HI Hz)|apply Nat.le_0_l].
  all: destruct (progress t i HI Hi) as (l & t1 & Hint & Hst & Hlt).
  - lia.
  - destruct (IH t1 ltac:(lia) (Inv_step _ _ _ HI Hst)) as (ls' & t' & HF & Hr & Hd & Hlen).
    exists (l :: ls'), t'. split; [constructor; assumption|]. split; [cbn [srun]; rewrite Hst; exact Hr|].
    split; [exact Hd|cbn [length]; lia].
Qed.

Theorem stream_can_always_drain :
  forall ls t, srun sinit ls = Some t ->
  exists ls' t', Forall internal ls' /\ srun t ls' = Some t' /\ drained t'.
Proof.
  intros ls t Hr. destruct (drain_from (M t) t (le_n _) (Inv_reach _ _ Hr)) as (ls' & t' & HF & Hr' & Hd & _).
  exists ls', t'. auto.
Qed.

(* the same with the bound: the drain needs at most [M t] steps, i.e. at most
   2 * (events waiting) + 6 per stream (+1 for an uncommitted event) *)
Theorem stream_can_always_drain_bounded :
  forall ls t, srun sinit ls = Some t ->
  exists ls' t', Forall internal ls' /\ srun t ls' = Some t' /\ drained t' /\ (length ls' <= M t)%nat.
Proof. intros ls t Hr. exact (drain_from (M t) t (le_n _) (Inv_reach _ _ Hr)). Qed.

(* and the progress form: a reachable state is drained, or an internal step is enabled that does not
   crash and brings the state strictly closer to drained *)
Theorem stream_drained_or_progress :
  forall ls t, srun sinit ls = Some t ->
  drained t \/ exists l t', internal l /\ sstep t l = Some t' /\ scrashed t' = false /\ (M t' < M t)%nat.
Proof.
  intros ls t Hr. assert (HI := Inv_reach _ _ Hr).
  destruct (msum_zero_or (streams t)) as [Hz|(i & Hi)]; [left; exact (zero_drained t HI Hz)|right].
  destruct (progress t i HI Hi) as (l & t1 & Hint & Hst & Hlt). exists l, t1.
  split; [exact Hint|]. split; [exact Hst|]. split; [exact (I_cr _ (Inv_step _ _ _ HI Hst))|exact Hlt].
Qed.

(* non-vacuity.  Stream 0: its owner took event 1, it was committed (a multi-line action holds it) and the owner is
   blocked in blockGet; stream 1: charged, two events queued, no processor yet *)
Definition wedge_candidate : list slabel :=
  [ SPut 0 1 0; SCharge 0; SPop 0; SAttach 0; SGet 0 1 0; SCommit 0 1; SBlock 0;
    SPut 1 1 0; SCharge 1; SPut 1 2 0 ].

Definition wedge_drain : list slabel :=
  [ SPop 1; SAttach 1; SGet 1 1 0; SGet 1 2 0; SCommit 1 2; SLeave 1; SDetach 1 false;
    STimeout 0 1; SGet 0 1 3; SLeave 0; SDetach 0 false ].

Example stream_drain_nonvacuous :
  exists t, srun sinit wedge_candidate = Some t /\
    length (streams t) = 2%nat /\
    blk (sti t 0) = true /\ own (sti t 0) = true /\
    charged t = [1] /\ q (sti t 1) = [1; 2] /\ att (sti t 1) = false /\
    ~ drained t /\
    exists t', Forall internal wedge_drain /\ srun t wedge_drain = Some t' /\ drained t' /\
      rev (taken t') = [(0, 1); (1, 1); (1, 2)] /\ timeouts t' = [(0, 1)].
Proof.
  eexists. split; [vm_compute; reflexivity|].
  split; [vm_compute; reflexivity|]. split; [vm_compute; reflexivity|]. split; [vm_compute; reflexivity|].
  split; [vm_compute; reflexivity|]. split; [vm_compute; reflexivity|]. split; [vm_compute; reflexivity|].
  split; [intros (_ & Hc & _); vm_compute in Hc; discriminate Hc|].
  eexists. split; [repeat constructor|]. split; [vm_compute; reflexivity|].
  split; [|split; vm_compute; reflexivity].
  split; [vm_compute; reflexivity|]. split; [vm_compute; reflexivity|].
  intros i. destruct i as [|[|i]]; [vm_compute; repeat split; reflexivity..|].
  unfold sti. cbn [streams]. rewrite get_s_nth. cbn [nth].
  destruct i; vm_compute; repeat split; reflexivity.
Qed.

Print Assumptions stream_can_always_drain.
Print Assumptions stream_drained_or_progress.
