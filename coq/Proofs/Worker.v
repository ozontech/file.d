(* Proofs about Model/Worker.v (worker.work + checkInputBytes).
   The specification split_lines / with_off and what it does when the content grows by a run of bytes without a newline,
   left open or closed by one; the accumulator relation [accR]; ONE invariant, "the job has consumed b since its start":
   [reached] between passes, [lreached] inside the loops of a pass (parsing loop, append after it, read loop), and over a
   file that grows [consumed] (Proofs/WorkerMaint.v); the theorems. *)
From Verif Require Import Base.Sx Base.GoSem Model.Worker Proofs.GoSemFacts Proofs.ListFacts.
From Coq Require Import Lia ZifyBool.

Lemma rev_fast_rev (l : bytes) : rev_fast l = rev l.
Proof. unfold rev_fast. rewrite rev_append_rev. apply app_nil_r. Qed.

Lemma len_zero_nil {A} (l : list A) : len l = 0 -> l = [].
Proof. apply GoSemFacts.len_zero_nil. Qed.

Definition noNL (b : bytes) : Prop := Forall (fun x => N.eqb x NL = false) b.
Definition is_line (l : bytes) : Prop := exists l0, l = l0 ++ [NL] /\ noNL l0.

Lemma noNL_rev b : noNL b -> noNL (rev b).
Proof. apply Forall_rev. Qed.

Lemma last_is_nl_app_nl (a : bytes) : last_is_nl (a ++ [NL]) = true.
Proof.
  induction a as [|x a IH]; [reflexivity|].
  cbn [app]. destruct a as [|y a']; exact IH.
Qed.

Lemma split_lines_nonl p : noNL p -> split_lines p = ([], p).
Proof.
  induction 1 as [|x p Hx _ IH]; [reflexivity|].
  cbn [split_lines]. rewrite IH, Hx. reflexivity.
Qed.

Lemma split_lines_nonl_app p b : noNL p ->
  split_lines (p ++ NL :: b) = ((p ++ [NL]) :: fst (split_lines b), snd (split_lines b)).
Proof.
  induction 1 as [|x p Hx _ IH]; cbn [app split_lines].
  - destruct (split_lines b) as [ls t]. reflexivity.
  - rewrite IH, Hx. reflexivity.
Qed.

Lemma split_lines_concat ls b : Forall is_line ls ->
  split_lines (concat ls ++ b) = (ls ++ fst (split_lines b), snd (split_lines b)).
Proof.
  induction 1 as [|l ls (l0 & -> & Hl0) _ IH]; cbn [concat app].
  - destruct (split_lines b). reflexivity.
  - rewrite <- !app_assoc. cbn [app]. rewrite (split_lines_nonl_app l0 _ Hl0), IH. reflexivity.
Qed.

(* split_lines is THE decomposition into lines and a newline-free remainder *)
Lemma split_lines_of_lines ls : forall t, Forall is_line ls -> noNL t ->
  split_lines (concat ls ++ t) = (ls, t).
Proof. intros t Hl Ht. rewrite (split_lines_concat ls t Hl), (split_lines_nonl t Ht). cbn [fst snd]. rewrite app_nil_r. reflexivity. Qed.

Lemma split_lines_spec b :
  b = concat (fst (split_lines b)) ++ snd (split_lines b)
  /\ Forall is_line (fst (split_lines b)) /\ noNL (snd (split_lines b)).
Proof.
  induction b as [|x b (Hb & Hl & Ht)]; cbn [split_lines].
  - repeat split; constructor.
  - destruct (split_lines b) as [ls t]. cbn [fst snd] in *.
    destruct (N.eqb x NL) eqn:Hx.
    + apply N.eqb_eq in Hx. subst x. cbn [fst snd concat app]. repeat split.
      * f_equal. exact Hb.
      * constructor; [|exact Hl]. exists []. split; [reflexivity|constructor].
      * exact Ht.
    + destruct Hl as [|l ls' (l0 & -> & Hl0) Hl]; cbn [fst snd concat app] in *.
      * repeat split; [f_equal; exact Hb|constructor|constructor; assumption].
      * repeat split; [f_equal; exact Hb| |exact Ht].
        constructor; [|exact Hl]. exists (x :: l0). split; [reflexivity|constructor; assumption].
Qed.

Lemma split_lines_app b1 b2 :
  split_lines (b1 ++ b2) =
  (fst (split_lines b1) ++ fst (split_lines (snd (split_lines b1) ++ b2)),
   snd (split_lines (snd (split_lines b1) ++ b2))).
Proof.
  destruct (split_lines_spec b1) as (H1 & Hl1 & _).
  rewrite <- (split_lines_concat _ _ Hl1), app_assoc, <- H1. reflexivity.
Qed.

Lemma with_off_app l1 : forall base l2,
  with_off base (l1 ++ l2) = with_off base l1 ++ with_off (base + len (concat l1)) l2.
Proof.
  induction l1 as [|l l1 IH]; intros base l2; cbn [app with_off concat].
  - rewrite len_nil, Z.add_0_r. reflexivity.
  - rewrite IH, len_app, Z.add_assoc. reflexivity.
Qed.

Lemma split_lines_whole b : snd (split_lines b) = [] -> concat (fst (split_lines b)) = b.
Proof. intros H. destruct (split_lines_spec b) as [Hb _]. rewrite H, app_nil_r in Hb. symmetry. exact Hb. Qed.

Lemma with_off_split o pre b : snd (split_lines pre) = [] ->
  with_off o (fst (split_lines (pre ++ b))) =
  with_off o (fst (split_lines pre)) ++ with_off (o + len pre) (fst (split_lines b)).
Proof.
  intros H. rewrite split_lines_app, H. cbn [fst app]. rewrite with_off_app, (split_lines_whole pre H). reflexivity.
Qed.

(* an emitted offset is the file offset just after the line's newline *)
Lemma with_off_sound ls : forall base o l, In (o, l) (with_off base ls) ->
  exists before after, ls = before ++ l :: after /\ o = base + len (concat before) + len l.
Proof.
  induction ls as [|l0 ls IH]; intros base o l H; cbn [with_off] in H; [contradiction|].
  destruct H as [H|H].
  - inversion H; subst. exists [], ls. split; [reflexivity|]. cbn [concat]. rewrite len_nil. lia.
  - destruct (IH _ _ _ H) as [bf [af [-> Ho]]]. exists (l0 :: bf), af. split; [reflexivity|].
    cbn [concat]. rewrite len_app. lia.
Qed.

Lemma with_off_length ls : forall base, length (with_off base ls) = length ls.
Proof. induction ls as [|l ls IH]; intros base; cbn [with_off length]; [reflexivity|]. rewrite IH. reflexivity. Qed.

Lemma with_off_snd ls : forall base, map snd (with_off base ls) = ls.
Proof. induction ls as [|l ls IH]; intros base; cbn [with_off map snd]; [reflexivity|]. rewrite IH. reflexivity. Qed.

Lemma size_filter_id c es : check_max c && negb (wcut c) = false -> size_filter c es = es.
Proof. intros H. unfold size_filter, over_limit. rewrite H. apply filter_all. reflexivity. Qed.

(* the content extended by a newline-free run [r], left open or closed by a newline *)
Lemma split_lines_run b r : noNL r ->
  split_lines (b ++ r) = (fst (split_lines b), snd (split_lines b) ++ r).
Proof.
  intros Hr. destruct (split_lines_spec b) as (_ & _ & Ht).
  rewrite split_lines_app, (split_lines_nonl (_ ++ r)) by (apply Forall_app; split; assumption).
  cbn [fst snd]. rewrite app_nil_r. reflexivity.
Qed.

Lemma split_lines_line b r : noNL r ->
  split_lines (b ++ r ++ [NL]) = (fst (split_lines b) ++ [snd (split_lines b) ++ r ++ [NL]], []).
Proof.
  intros Hr. destruct (split_lines_spec b) as (_ & _ & Ht).
  rewrite split_lines_app, app_assoc, (split_lines_nonl_app _ []) by (apply Forall_app; split; assumption).
  cbn [fst snd split_lines]. rewrite <- app_assoc. reflexivity.
Qed.

Lemma spec_emits_run c sk0 o b r : noNL r -> spec_emits c sk0 o (b ++ r) = spec_emits c sk0 o b.
Proof. intros Hr. unfold spec_emits. rewrite (split_lines_run b r Hr). reflexivity. Qed.

Lemma has_line_run b r : noNL r -> has_line (b ++ r) = has_line b.
Proof. intros Hr. unfold has_line. rewrite (split_lines_run b r Hr). reflexivity. Qed.

Lemma has_line_line b r : noNL r -> has_line (b ++ r ++ [NL]) = true.
Proof. intros Hr. unfold has_line. rewrite (split_lines_line b r Hr). destruct (fst (split_lines b)); reflexivity. Qed.

(* a completed line is handed over unless it is the first in tail mode or too long, with the offset behind its newline *)
Lemma spec_emits_line c sk0 o b r : noNL r ->
  let full := snd (split_lines b) ++ r ++ [NL] in
  spec_emits c sk0 o (b ++ r ++ [NL]) =
  spec_emits c sk0 o b ++
  (if sk0 && negb (has_line b) || over_limit c full then [] else [(o + len (b ++ r ++ [NL]), full)]).
Proof.
  intros Hr full. destruct (split_lines_spec b) as (Hb & _). apply (f_equal (@len byte)) in Hb.
  unfold spec_emits, has_line. rewrite (split_lines_line b r Hr). cbn [fst]. rewrite with_off_app. fold full. cbn [with_off].
  replace (o + len (concat (fst (split_lines b))) + len full) with (o + len (b ++ r ++ [NL]))
    by (unfold full; rewrite !len_app in *; lia).
  unfold size_filter. destruct sk0; cbn [drop_first andb orb].
  - destruct (fst (split_lines b)) as [|l ls]; cbn [with_off app tl negb orb]; [reflexivity|].
    rewrite filter_app. cbn [filter snd]. destruct (over_limit c full); reflexivity.
  - rewrite filter_app. cbn [filter snd]. destruct (over_limit c full); reflexivity.
Qed.

Definition M (c : wcfg) : nat := Z.to_nat (wmax c).

(* the accumulator [a] stands for the true unterminated bytes [p]:
   equal; or frozen (skip mode, already over the limit); or truncated (cut-off mode).
   Frozen is strict (the code stops appending only when len(accumBuf) > max), cut is not (accumBuf[:max] plus an empty
   rest of the buffer); len a <= len p makes the size rule decide on [a] as it would on [p] (accR_line). *)
Definition accR (c : wcfg) (p a : bytes) : Prop :=
  a = p
  \/ (check_max c = true /\ wcut c = false /\ wmax c < len a /\ len a <= len p)
  \/ (check_max c = true /\ wcut c = true /\ wmax c <= len a /\ len a <= len p
      /\ firstn (M c) a = firstn (M c) p).

Definition dataR (c : wcfg) (d full : bytes) : Prop :=
  d = full
  \/ (check_max c = true /\ wcut c = true /\ wmax c < len d /\ wmax c < len full
      /\ last_is_nl d = true /\ last_is_nl full = true
      /\ firstn (M c) d = firstn (M c) full).

Definition emitR (c : wcfg) (e e' : emit) : Prop := fst e = fst e' /\ dataR c (snd e) (snd e').

Lemma firstn_M_app c (a r : bytes) : wmax c <= len a -> firstn (M c) (a ++ r) = firstn (M c) a.
Proof. apply firstn_Z_app_le. Qed.

(* the third case of accR survives cutting the accumulator to max bytes and extending both *)
Lemma accR_cut c p a r : 0 <= wmax c -> check_max c = true -> wcut c = true ->
  wmax c <= len a -> len a <= len p -> firstn (M c) a = firstn (M c) p ->
  accR c (p ++ r) (firstn (M c) a ++ r).
Proof.
  intros Hm Hc Hu Ha Hp Hf.
  assert (Hl : len (firstn (M c) a) = wmax c) by (rewrite len_firstn; unfold M; lia).
  pose proof (len_nonneg r).
  right; right. rewrite !len_app, !firstn_M_app, firstn_firstn, Nat.min_id by lia.
  repeat split; try assumption; lia.
Qed.

(* the append after the parsing loop, on forward lists *)
Lemma accR_post c p a r : 0 <= wmax c -> accR c p a ->
  accR c (p ++ r)
    (if check_max c && (len a >? wmax c)
     then (if negb (wcut c) then a else firstn (M c) a ++ r)
     else a ++ r).
Proof.
  pose proof (len_nonneg r) as Hr. intros Hm [H|[(Hc & Hu & H1 & H2)|(Hc & Hu & H1 & H2 & H3)]].
  - subst a. destruct (check_max c) eqn:Hc; [|left; reflexivity]. cbn [andb].
    destruct (len p >? wmax c) eqn:Hg; [|left; reflexivity].
    destruct (wcut c) eqn:Hu; cbn [negb].
    + apply accR_cut; try assumption; try reflexivity; lia.
    + right; left. rewrite len_app. repeat split; try assumption; lia.
  - rewrite Hc, Hu. replace (len a >? wmax c) with true by lia. cbn [andb negb].
    right; left. rewrite len_app. repeat split; try assumption; lia.
  - rewrite Hc, Hu. cbn [andb negb].
    destruct (len a >? wmax c) eqn:Hg; [apply accR_cut; assumption|].
    (* len a = max: cutting to max bytes changes nothing *)
    rewrite <- (firstn_all2 (n := M c) a) by (unfold M, len in *; lia).
    apply accR_cut; assumption.
Qed.

(* a line l0 ++ [NL] completes the accumulated bytes: the worker's size rule, applied to the accumulator, decides as it
   would on the true bytes, and what is handed over stands for the true line *)
Lemma accR_line c p a l0 : accR c p a ->
  let full := p ++ l0 ++ [NL] in
  check_max c && negb (wcut c) && (len a + len (l0 ++ [NL]) >? wmax c) = over_limit c full
  /\ (over_limit c full = false -> dataR c (a ++ l0 ++ [NL]) full).
Proof.
  unfold over_limit. rewrite !len_app. change (len [NL]) with 1. pose proof (len_nonneg l0) as Hl.
  intros [H|[(Hc & Hu & H1 & H2)|(Hc & Hu & H1 & H2 & H3)]].
  - subst a. split; [reflexivity|]. left. reflexivity.
  - rewrite Hc, Hu. cbn [andb negb]. split; lia.
  - rewrite Hu. cbn [negb]. rewrite !andb_false_r. split; [reflexivity|]. intros _.
    right. rewrite !len_app, !firstn_M_app, !app_assoc, !last_is_nl_app_nl by lia.
    change (len [NL]) with 1. repeat split; try assumption; lia.
Qed.

Lemma in_buf_eq (ra line : bytes) :
  match ra with [] => line | _ :: _ => rev_append ra line end = rev ra ++ line.
Proof. destruct ra; [reflexivity|apply rev_append_rev]. Qed.

Definition flat (rs : list (list bytes)) : bytes := concat (map (@concat byte) rs).
Definition st_at (o : Z) (sk0 : bool) : wst := {| cur := o; tail := []; skip := sk0 |}.

(* a job started at offset [o] with an empty tail and shouldSkip = [sk0] has consumed the bytes [b]: it has handed over
   [E] and its state is [st] *)
Definition reached (c : wcfg) (o : Z) (sk0 : bool) (b : bytes) (E : list emit) (st : wst) : Prop :=
  Forall2 (emitR c) E (spec_emits c sk0 o b)
  /\ cur st = o + len b
  /\ skip st = sk0 && negb (has_line b)
  /\ accR c (snd (split_lines b)) (tail st).

Lemma reached_start c o sk0 : reached c o sk0 [] [] (st_at o sk0).
Proof.
  repeat split; cbn [st_at cur tail skip].
  - destruct sk0; constructor.
  - symmetry. apply Z.add_0_r.
  - symmetry. apply andb_true_r.
  - left. reflexivity.
Qed.

Section Pass.
Variables (c : wcfg) (lo o : Z) (sk0 : bool).
Hypothesis Hm : 0 <= wmax c.

(* inside a pass that started at position [lo], in loop state [s]: the job state the pass would save if it ended at this
   point is reached.  [jskip s = sk s]: the local skipLine and job.shouldSkip, two variables of the code, agree between lines. *)
Definition lreached (b : bytes) (E : list emit) (s : lst) : Prop :=
  reached c o sk0 b E {| cur := lo + scanned s; tail := rev (racc s); skip := sk s |}
  /\ nacc s = len (racc s) /\ jskip s = sk s.

(* a newline behind the bytes [rev rcur] of the read buffer: what the model hands over and the state it goes on with *)
Lemma line_sim rcur b E s : noNL rcur -> lreached b E s ->
  let line := rev rcur ++ [NL] in
  let sk1 := sk s || (check_max c && negb (wcut c) && (nacc s + len line >? wmax c)) in
  lreached (b ++ line) (E ++ if sk1 then [] else [(lo + (scanned s + len line), rev (racc s) ++ line)])
    {| racc := []; nacc := 0; sk := false; jskip := if sk1 then false else jskip s; scanned := scanned s + len line |}.
Proof.
  intros Hr ((HE & Hp & Hs & Ha) & Hn & Hj) line sk1. cbn [cur tail skip] in *. apply noNL_rev in Hr.
  destruct (accR_line c _ _ (rev rcur) Ha) as [Hov Hdata].
  assert (Hsk1 : sk1 = sk0 && negb (has_line b) || over_limit c (snd (split_lines b) ++ line)).
  { unfold sk1, line. rewrite Hs, Hn, <- (len_rev (racc s)), Hov. reflexivity. }
  repeat split; cbn [cur tail skip racc nacc sk jskip scanned]; unfold line.
  - rewrite (spec_emits_line c sk0 o b _ Hr). cbv zeta. fold line. rewrite <- Hsk1. apply Forall2_app; [exact HE|].
    clearbody sk1. destruct sk1; constructor; [|constructor].
    symmetry in Hsk1. apply orb_false_elim in Hsk1.
    split; cbn [fst snd]; [rewrite len_app, Z.add_assoc, Hp; ring|apply Hdata, Hsk1].
  - rewrite (len_app b), Z.add_assoc, Hp. ring.
  - rewrite (has_line_line b _ Hr). symmetry. apply andb_false_r.
  - rewrite (split_lines_line b _ Hr). left. reflexivity.
  - unfold sk1. rewrite Hj. destruct (sk s), (check_max c && negb (wcut c) && _); reflexivity.
Qed.

(* the end of the read buffer, [rev rr] behind its last newline, and the append after the parsing loop *)
Lemma post_read_sim rr b E s : noNL rr -> lreached b E s ->
  lreached (b ++ rev rr) E
    (post_read c {| racc := racc s; nacc := nacc s; sk := sk s; jskip := jskip s; scanned := scanned s + len rr |} rr).
Proof.
  intros Hr ((HE & Hp & Hs & Ha) & Hn & Hj). cbn [cur tail skip] in *. apply noNL_rev in Hr.
  pose proof (accR_post c _ _ (rev rr) Hm Ha) as HP. rewrite len_rev, <- Hn in HP.
  rewrite <- (spec_emits_run c sk0 o b _ Hr) in HE. rewrite <- (has_line_run b _ Hr) in Hs.
  assert (Hp' : lo + (scanned s + len rr) = o + len (b ++ rev rr)) by (rewrite len_app, len_rev, Z.add_assoc, Hp; ring).
  unfold post_read. cbn [racc nacc sk jskip scanned]. destruct (check_max c && (nacc s >? wmax c)) eqn:Hg.
  - destruct (wcut c) eqn:Hu; cbn [negb] in *;
      repeat split; cbn [cur tail skip racc nacc sk jskip scanned]; rewrite ?(split_lines_run b _ Hr); cbn [snd]; try assumption.
    + rewrite rev_app_distr.
      replace (Z.to_nat (nacc s - wmax c)) with (length (racc s) - M c)%nat
        by (rewrite Hn; unfold M, len; clear - Hm; lia).
      rewrite <- firstn_rev. exact HP.
    + rewrite len_app, len_skipn. clear - Hm Hn Hg. lia.
  - repeat split; cbn [cur tail skip racc nacc sk jskip scanned]; rewrite ?(split_lines_run b _ Hr); cbn [snd]; try assumption.
    + rewrite rev_app_distr. exact HP.
    + rewrite len_app, Hn. apply Z.add_comm.
Qed.

(* the parsing loop over one read buffer, with the append after it; general in [rcur], which grows along the induction
   on [buf] (read_loop_sim takes rcur = []) *)
Lemma scan_buf_sim : forall buf rcur b E s, noNL rcur -> lreached b E s ->
  let '(E1, s', rr) := scan_buf c lo buf rcur s in
  lreached (b ++ rev rcur ++ buf) (E ++ E1) (post_read c s' rr).
Proof.
  induction buf as [|x buf IH]; intros rcur b E s Hr R; cbn [scan_buf].
  - rewrite !app_nil_r. exact (post_read_sim rcur b E s Hr R).
  - destruct (N.eqb x NL) eqn:Hx.
    + apply N.eqb_eq in Hx. subst x. rewrite rev_fast_rev, in_buf_eq. cbn [rev].
      generalize (IH [] _ _ _ (Forall_nil _) (line_sim rcur b E s Hr R)).
      destruct (scan_buf c lo buf [] _) as [[es s''] rr]. cbn [rev app]. rewrite <- !app_assoc. exact (fun H => H).
    + generalize (IH (x :: rcur) b E s (Forall_cons _ Hx Hr) R). cbn [rev]. rewrite <- app_assoc. exact (fun H => H).
Qed.

(* the call shape [read_loop ... s (scanned s)] is the invariant: readTotal, which the code keeps apart from scanned,
   equals it at every read boundary, so the cur st + total of [round] is the lo + scanned s of [lreached] *)
Lemma read_loop_sim : forall reads b E s, lreached b E s ->
  let '(E1, s', t') := read_loop c lo reads s (scanned s) in
  lreached (b ++ concat reads) (E ++ E1) s' /\ t' = scanned s'.
Proof.
  induction reads as [|buf rs IH]; intros b E s R; cbn [read_loop concat].
  - rewrite !app_nil_r. split; [exact R|reflexivity].
  - generalize (scan_buf_sim buf [] b E s (Forall_nil _) R).
    destruct (scan_buf c lo buf [] s) as [[e1 s1] rr]. cbn [rev app]. intros R2.
    replace (scanned s + len buf) with (scanned (post_read c s1 rr))
      by (destruct R as ((_ & Rp & _) & _), R2 as ((_ & Rp2 & _) & _); cbn [cur] in *; rewrite len_app in Rp2; lia).
    generalize (IH _ _ _ R2). destruct (read_loop c lo rs _ _) as [[e2 s3] t3].
    rewrite <- !app_assoc. exact (fun H => H).
Qed.
End Pass.

Lemma reached_round c o sk0 b E st reads : 0 <= wmax c -> reached c o sk0 b E st ->
  let '(es, st') := round c st reads in reached c o sk0 (b ++ concat reads) (E ++ es) st'.
Proof.
  intros Hm R. unfold round.
  generalize (read_loop_sim c (cur st) o sk0 Hm reads b E
    {| racc := rev_fast (tail st); nacc := len (tail st); sk := skip st; jskip := skip st; scanned := 0 |}).
  cbn [scanned]. destruct (read_loop c (cur st) reads _ 0) as [[es s] total].
  intros H. destruct H as ((R' & _ & Hj) & Ht).
  - unfold lreached. cbn [racc nacc sk jskip scanned]. rewrite Z.add_0_r, rev_fast_rev, rev_involutive, len_rev.
    destruct st. split; [exact R|split; reflexivity].
  - rewrite rev_fast_rev, Ht, Hj. exact R'.
Qed.

Lemma read_loop_no_bytes c lo reads : concat reads = [] -> forall s t,
  exists s', read_loop c lo reads s t = ([], s', t) /\ jskip s' = jskip s.
Proof.
  induction reads as [|buf rs IH]; intros H s t; cbn [read_loop]; [eauto|].
  cbn [concat] in H. apply app_eq_nil in H. destruct H as [-> H]. cbn [scan_buf]. rewrite len_nil, !Z.add_0_r.
  destruct (IH H (post_read c {| racc := racc s; nacc := nacc s; sk := sk s; jskip := jskip s; scanned := scanned s |} []) t) as (s' & -> & Hj).
  exists s'. split; [reflexivity|]. rewrite Hj. unfold post_read. destruct (_ && _); [destruct (negb _)|]; reflexivity.
Qed.

(* a pass that reads nothing hands over nothing and keeps position and shouldSkip (in cut-off mode it may cut the tail) *)
Lemma round_no_bytes c st reads : concat reads = [] ->
  let '(es, st') := round c st reads in es = [] /\ cur st' = cur st /\ skip st' = skip st.
Proof.
  intros Hr. unfold round.
  destruct (read_loop_no_bytes c (cur st) reads Hr
    {| racc := rev_fast (tail st); nacc := len (tail st); sk := skip st; jskip := skip st; scanned := 0 |} 0) as (s' & -> & Hj).
  cbn [cur skip]. rewrite Hj, Z.add_0_r. repeat split; reflexivity.
Qed.

Lemma rounds_reached c o sk0 : 0 <= wmax c -> forall rs b E st, reached c o sk0 b E st ->
  let '(E2, st') := rounds c st rs in reached c o sk0 (b ++ flat rs) (E ++ E2) st'.
Proof.
  intros Hm. induction rs as [|r rs IH]; intros b E st H; cbn [rounds]; unfold flat; cbn [map concat].
  - rewrite !app_nil_r. exact H.
  - apply (reached_round c o sk0 b E st r Hm) in H. revert H. destruct (round c st r) as [e1 s1]. intros H.
    apply IH in H. revert H. destruct (rounds c s1 rs) as [e2 s2].
    rewrite !app_assoc. exact (fun H => H).
Qed.

(* the general statement: every configuration, every start offset, every pass/read structure *)
Theorem worker_general c o sk0 rs : 0 <= wmax c ->
  let '(E, st') := rounds c (st_at o sk0) rs in reached c o sk0 (flat rs) E st'.
Proof. intros Hm. exact (rounds_reached c o sk0 Hm rs [] [] _ (reached_start c o sk0)). Qed.

Lemma worker_emits c o sk0 rs : 0 <= wmax c ->
  Forall2 (emitR c) (fst (rounds c (st_at o sk0) rs)) (spec_emits c sk0 o (flat rs)).
Proof. intros Hm. generalize (worker_general c o sk0 rs Hm). destruct (rounds c (st_at o sk0) rs). intros H. apply H. Qed.

Lemma Forall2_emitR_eq c E E' : cut_mode c = false -> Forall2 (emitR c) E E' -> E = E'.
Proof.
  intros Hc H. induction H as [|[o d] [o' d'] l l' [H1 H2] _ IH]; [reflexivity|].
  cbn [fst snd] in *. f_equal; [|exact IH]. f_equal; [exact H1|].
  destruct H2 as [H2|[Hm [Hu _]]]; [exact H2|]. unfold cut_mode in Hc. rewrite Hm, Hu in Hc. discriminate.
Qed.

Definition nolimit : wcfg := {| wmax := 0; wcut := false |}.

(* no size limit: exactly the complete lines with their end offsets (tail mode: but the first); tail = the
   unterminated rest *)
Lemma reached_nolimit o sk0 b E st : reached nolimit o sk0 b E st ->
  E = drop_first sk0 (with_off o (fst (split_lines b)))
  /\ st = {| cur := o + len b; tail := snd (split_lines b); skip := sk0 && negb (has_line b) |}.
Proof.
  intros (HF & Hc & Hs & Ha). split.
  - apply Forall2_emitR_eq in HF; [|reflexivity]. rewrite HF. apply size_filter_id. reflexivity.
  - destruct st as [cu tl_ skp]. cbn [cur tail skip] in *.
    destruct Ha as [Ha|[(Hx & _)|(Hx & _)]]; [|discriminate Hx..]. subst. reflexivity.
Qed.

Lemma worker_nolimit o sk0 rs :
  rounds nolimit (st_at o sk0) rs =
  (drop_first sk0 (with_off o (fst (split_lines (flat rs)))),
   {| cur := o + len (flat rs); tail := snd (split_lines (flat rs)); skip := sk0 && negb (has_line (flat rs)) |}).
Proof.
  pose proof (worker_general nolimit o sk0 rs (Z.le_refl 0)) as H.
  destruct (rounds nolimit (st_at o sk0) rs) as [E st]. apply reached_nolimit in H. destruct H as [-> ->]. reflexivity.
Qed.

Theorem worker_offsets_exact o rs :
  let b := flat rs in
  rounds nolimit (st_at o false) rs =
  (with_off o (fst (split_lines b)), {| cur := o + len b; tail := snd (split_lines b); skip := false |}).
Proof. exact (worker_nolimit o false rs). Qed.

(* tail mode (job.shouldSkip), no size limit: exactly the first line is dropped *)
Theorem worker_skip_first o rs :
  let b := flat rs in
  rounds nolimit (st_at o true) rs =
  (tl (with_off o (fst (split_lines b))),
   {| cur := o + len b; tail := snd (split_lines b); skip := negb (has_line b) |}).
Proof. exact (worker_nolimit o true rs). Qed.

(* resume: a pass started at a line boundary of the file completes the whole-file list *)
Theorem worker_resume pre rs : snd (split_lines pre) = [] ->
  let b := flat rs in
  with_off 0 (fst (split_lines (pre ++ b))) =
  with_off 0 (fst (split_lines pre)) ++ fst (rounds nolimit (st_at (len pre) false) rs).
Proof.
  intros Hp b. rewrite worker_offsets_exact. exact (with_off_split 0 pre b Hp).
Qed.

Lemma flat_app rs1 rs2 : flat (rs1 ++ rs2) = flat rs1 ++ flat rs2.
Proof. unfold flat. rewrite map_app. apply concat_app. Qed.

Lemma rounds_app c rs1 : forall st rs2,
  rounds c st (rs1 ++ rs2) =
  let '(E1, st1) := rounds c st rs1 in let '(E2, st2) := rounds c st1 rs2 in (E1 ++ E2, st2).
Proof.
  induction rs1 as [|r rs1 IH]; intros st rs2; cbn [app rounds].
  - destruct (rounds c st rs2). reflexivity.
  - destruct (round c st r) as [e1 s1]. rewrite IH.
    destruct (rounds c s1 rs1) as [e2 s2]. destruct (rounds c s2 rs2) as [e3 s3].
    rewrite app_assoc. reflexivity.
Qed.

(* the unterminated tail is held back, and delivered (completed) by the later passes *)
Theorem worker_tail_completed o rs1 rs2 :
  let b1 := flat rs1 in let b2 := flat rs2 in
  let t1 := snd (split_lines b1) in
  let '(E1, st1) := rounds nolimit (st_at o false) rs1 in
  E1 = with_off o (fst (split_lines b1)) /\ tail st1 = t1 /\
  fst (rounds nolimit st1 rs2) = with_off (o + len b1 - len t1) (fst (split_lines (t1 ++ b2))) /\
  fst (rounds nolimit (st_at o false) (rs1 ++ rs2)) = E1 ++ fst (rounds nolimit st1 rs2).
Proof.
  intros b1 b2 t1.
  pose proof (worker_nolimit o false (rs1 ++ rs2)) as H12.
  rewrite rounds_app, flat_app, split_lines_app in H12. rewrite rounds_app.
  rewrite (worker_nolimit o false rs1) in *. fold b1 b2 t1 in H12 |- *.
  destruct (rounds nolimit _ rs2) as [E2 st2]. cbn [fst snd drop_first] in *.
  rewrite with_off_app in H12. injection H12 as HE _. apply app_inv_head in HE.
  repeat split. rewrite HE. f_equal.
  destruct (split_lines_spec b1) as [Hb1 _]. fold t1 in Hb1.
  apply (f_equal (@len byte)) in Hb1. rewrite len_app in Hb1. lia.
Qed.

(* max_event_size without cut-off: exactly the over-limit lines are missing, everything else
   (data and offsets) unchanged *)
Theorem worker_size_skip c o rs : 0 < wmax c -> wcut c = false ->
  let b := flat rs in
  let '(E, st') := rounds c (st_at o false) rs in
  E = filter (fun e => len (snd e) <=? wmax c) (with_off o (fst (split_lines b)))
  /\ cur st' = o + len b /\ skip st' = false
  /\ (tail st' = snd (split_lines b)
      \/ (wmax c < len (tail st') /\ len (tail st') <= len (snd (split_lines b)))).
Proof.
  intros Hm Hu b. pose proof (worker_general c o false rs) as H. fold b in H.
  destruct (rounds c (st_at o false) rs) as [E st']. destruct H as [HF [Hc [Hs Ha]]]; [lia|].
  apply Forall2_emitR_eq in HF; [|unfold cut_mode; rewrite Hu; apply andb_false_r].
  split; [|split; [exact Hc|split; [exact Hs|]]].
  - rewrite HF. unfold spec_emits, size_filter. cbn [drop_first]. apply filter_ext. intros [o' d].
    unfold over_limit, check_max. rewrite Hu. cbn [snd]. lia.
  - destruct Ha as [Ha|[Ha|Ha]]; [left; exact Ha|right; tauto|].
    destruct Ha as [_ [Hx _]]. congruence.
Qed.

Lemma check_input_long c b : 0 <= wmax c -> check_max c = true -> wmax c < len b ->
  check_input c b = if negb (wcut c) then (b, false, false)
                    else (firstn (M c) b ++ (if last_is_nl b then [NL] else []), true, true).
Proof.
  intros Hm Hc H. unfold check_input. rewrite Hc. unfold check_max in Hc.
  replace (len b >? wmax c) with true by lia.
  destruct b as [|x b']; [rewrite len_nil in H; lia|].
  (* max is not 0, so b is longer than one byte *)
  replace (len (x :: b') =? 1) with false by lia. rewrite andb_false_r. reflexivity.
Qed.

(* what checkInputBytes does with a delivered stand-in is what it does with the true line *)
Lemma dataR_check_input c d full : 0 <= wmax c -> dataR c d full -> check_input c d = check_input c full.
Proof.
  intros Hm [->|(Hc & Hu & H1 & H2 & H3 & H4 & H5)]; [reflexivity|].
  rewrite !check_input_long by assumption. rewrite Hu, H3, H4, H5. reflexivity.
Qed.

Definition checked (c : wcfg) (es : list emit) : list (Z * (bytes * bool * bool)) :=
  map (fun e => (fst e, check_input c (snd e))) es.

Lemma checked_emitR c E E' : 0 <= wmax c -> Forall2 (emitR c) E E' -> checked c E = checked c E'.
Proof.
  intros Hm H. induction H as [|e e' l l' [H1 H2] _ IH]; [reflexivity|].
  cbn [checked map]. rewrite H1, (dataR_check_input c _ _ Hm H2). f_equal. exact IH.
Qed.

(* cut-off mode, composed with checkInputBytes: every line arrives, with its own offset; a line
   longer than max arrives as its first max bytes + newline, flagged as cut *)
Theorem worker_size_cut c o rs : 0 < wmax c -> wcut c = true ->
  let b := flat rs in
  let '(E, st') := rounds c (st_at o false) rs in
  checked c E = checked c (with_off o (fst (split_lines b)))
  /\ Forall2 (emitR c) E (with_off o (fst (split_lines b)))
  /\ cur st' = o + len b /\ skip st' = false.
Proof.
  intros Hm Hu b. pose proof (worker_general c o false rs) as H. fold b in H.
  destruct (rounds c (st_at o false) rs) as [E st']. destruct H as [HF [Hc [Hs Ha]]]; [lia|].
  unfold spec_emits in HF. rewrite size_filter_id in HF by (rewrite Hu; apply andb_false_r). cbn [drop_first] in HF.
  split; [apply checked_emitR; [lia|exact HF]|]. split; [exact HF|split; assumption].
Qed.

Theorem check_input_line c l0 :
  check_input c (l0 ++ [NL]) =
  match l0 with
  | [] => ([NL], false, false)                                       (* empty line: dropped *)
  | _ :: _ =>
      if check_max c && (len l0 + 1 >? wmax c) then
        if wcut c then (firstn (M c) (l0 ++ [NL]) ++ [NL], true, true)   (* cut to max bytes + newline *)
        else (l0 ++ [NL], false, false)                                (* rejected *)
      else (l0 ++ [NL], false, true)
  end.
Proof.
  unfold check_input. rewrite last_is_nl_app_nl, len_app. change (len [NL]) with 1. fold (M c).
  destruct l0 as [|x l0']; [reflexivity|].
  cbn [app]. rewrite len_cons. pose proof (len_nonneg l0').
  replace (len l0' + 1 + 1 =? 1) with false by lia. rewrite andb_false_r.
  destruct (check_max c && (len l0' + 1 + 1 >? wmax c)); [|reflexivity].
  destruct (wcut c); reflexivity.
Qed.

(* tail mode started on the last byte of an existing file: if that byte is a newline, every line
   appended later is delivered; otherwise only the line in progress is lost.  The byte x is re-read by the first pass, here
   as a read of its own in front of its reads (only [flat] of the reads matters); with no pass at all, rs = [], it is not read. *)
Theorem worker_tail_mode pre x rs :
  let b := flat rs in
  let '(E, _) := match rs with
                 | [] => rounds nolimit (st_at (len (pre ++ [x]) - 1) true) []
                 | r :: rs' => rounds nolimit (st_at (len (pre ++ [x]) - 1) true) (([x] :: r) :: rs')
                 end in
  E = if N.eqb x NL then with_off (len (pre ++ [x])) (fst (split_lines b))
      else tl (with_off (len (pre ++ [x]) - 1) (fst (split_lines (x :: b)))).
Proof.
  intros b. destruct rs as [|r rs'].
  - cbn [rounds]. unfold b, flat. cbn [map concat split_lines]. destruct (N.eqb x NL); reflexivity.
  - rewrite worker_skip_first. change (flat (([x] :: r) :: rs')) with (x :: b).
    destruct (N.eqb x NL) eqn:Hx; [|reflexivity].
    cbn [split_lines]. rewrite Hx. destruct (split_lines b) as [ls t].
    cbn [fst with_off tl]. change (len [x]) with 1. rewrite Z.sub_add. reflexivity.
Qed.

(* the executable predicates of the correspondence check are implied by the relations *)
Lemma data_relb_complete c d full : dataR c d full -> data_relb c d full = true.
Proof.
  unfold data_relb, cut_mode. intros [->|(Hc & Hu & H1 & H2 & H3 & H4 & H5)].
  - rewrite bytes_eqb_refl. reflexivity.
  - apply Z.ltb_lt in H1, H2. rewrite Hc, Hu, H1, H2, H3, H4. fold (M c). rewrite H5, bytes_eqb_refl.
    apply orb_true_r.
Qed.

Lemma tail_relb_complete c t a : accR c t a -> tail_relb c a t = true.
Proof.
  unfold tail_relb, cut_mode. intros [->|[(Hc & Hu & H1 & H2)|(Hc & Hu & H1 & H2 & H3)]].
  - rewrite bytes_eqb_refl. reflexivity.
  - apply Z.ltb_lt in H1. apply Z.leb_le in H2. rewrite Hc, Hu, H1, H2. cbn [negb andb]. rewrite orb_true_r. reflexivity.
  - apply Z.leb_le in H1, H2. rewrite Hc, Hu, H1, H2. fold (M c). rewrite H3, bytes_eqb_refl. apply orb_true_r.
Qed.

Lemma reached_pred c o sk0 b E st : reached c o sk0 b E st ->
  forall2b (emit_okb c) (map (fun e => (e, None)) E) (spec_emits c sk0 o b) = true
  /\ tail_relb c (tail st) (snd (split_lines b)) = true.
Proof.
  intros (HF & _ & _ & Ha). split; [|apply tail_relb_complete; exact Ha].
  induction HF as [|[o1 d1] [o2 d2] l l' [H1 H2] _ IH]; [reflexivity|].
  cbn [map forall2b emit_okb fst snd] in *. subst o2.
  rewrite Z.eqb_refl, (data_relb_complete _ _ _ H2), IH. reflexivity.
Qed.

(* the boolean predicate of the correspondence check holds of every run of the model *)
Theorem worker_pred_holds c o sk0 rs : 0 <= wmax c ->
  let b := flat rs in
  let '(E, st') := rounds c (st_at o sk0) rs in
  forall2b (emit_okb c) (map (fun e => (e, None)) E) (spec_emits c sk0 o b) = true
  /\ tail_relb c (tail st') (snd (split_lines b)) = true.
Proof.
  intros Hm b. pose proof (worker_general c o sk0 rs Hm) as H.
  destruct (rounds c (st_at o sk0) rs) as [E st']. exact (reached_pred c o sk0 b E st' H).
Qed.

(* what leaves In depends on the delivered data only through what checkInputBytes makes of it: a stand-in of a line
   (cut-off mode: first max bytes + junk) yields the same event as the line itself *)
Lemma events_of_emitR c E E' : 0 <= wmax c -> Forall2 (emitR c) E E' -> events_of c E = events_of c E'.
Proof.
  intros Hm H. induction H as [|e e' l l' [H1 H2] _ IH]; [reflexivity|].
  unfold events_of in *. cbn [flat_map]. rewrite H1, (dataR_check_input c _ _ Hm H2), IH. reflexivity.
Qed.

(* every configuration, every start offset, every pass / read structure: the events that reach the output are exactly the
   accepted complete lines of the content - offset of the line's end, the line without its newline (cut to max bytes
   and flagged when longer), in order, once *)
Theorem worker_events c o sk0 rs : 0 <= wmax c ->
  events_of c (fst (rounds c (st_at o sk0) rs)) = events_of c (spec_emits c sk0 o (flat rs)).
Proof.
  intros Hm. apply events_of_emitR; [exact Hm|apply worker_emits, Hm].
Qed.

Theorem events_of_line c o l0 :
  events_of c [(o, l0 ++ [NL])] =
  match l0 with
  | [] => []
  | _ :: _ =>
      if check_max c && (len l0 + 1 >? wmax c)
      then (if wcut c then [(o, firstn (Z.to_nat (wmax c)) l0, true)] else [])
      else [(o, l0, false)]
  end.
Proof.
  cbn [events_of flat_map fst snd app]. rewrite check_input_line.
  destruct l0 as [|x l0']; [reflexivity|].
  destruct (check_max c && (len (x :: l0') + 1 >? wmax c)) eqn:Hc.
  - destruct (wcut c); cbn [negb]; [|reflexivity]. rewrite removelast_last, app_nil_r.
    unfold M. rewrite firstn_Z_app_le by lia. reflexivity.
  - rewrite removelast_last. reflexivity.
Qed.
