(* Invariants of the batcher LTS (Model/Batcher.v).  [Step] opens the step function once, one rule per branch with the
   guards as propositions; every invariant is proved by cases of it.  [WF] is the structural invariant: the batches in
   flight carry the consecutive sequence numbers lo_seq .. outSeq - 1, only the oldest can be inside its commit section,
   the channel holds Queued batches; [lo_seq_step] says what a step does to lo_seq (the end of a commit section adds one,
   nothing else moves it); the invariants that need WF go through [run_invariant_wf].  Then one invariant per
   clause of C08 / C09, each with its step and init lemma and the theorem over the runs from [init].  No-wedge and
   shutdown: BatcherDrain.v, BatcherStop.v. *)
From Verif Require Import Base.Sx Model.Batcher Gen.BatcherGen Proofs.ListFacts.
From Verif Require Proofs.Lts.
From Coq Require Import Lia ZifyBool Bool List ZArith FinFun.
Import ListNotations.
Local Open Scope Z_scope.

Lemma run_lts c ls s : run c s ls = Lts.run (step c) s ls.
Proof. apply Lts.run_unique; reflexivity. Qed.

Lemma run_invariant (c : cfg) (P : st -> Prop) :
  (forall s l s', P s -> step c s l = Some s' -> P s') ->
  forall ls s s', P s -> run c s ls = Some s' -> P s'.
Proof. intros Hstep ls s s'. rewrite run_lts. exact (Lts.run_invariant (step c) P Hstep ls s s'). Qed.

Lemma run_app c ls1 : forall s ls2,
  run c s (ls1 ++ ls2) = match run c s ls1 with Some s1 => run c s1 ls2 | None => None end.
Proof.
  intros s ls2. rewrite !run_lts, Lts.run_app. destruct (Lts.run (step c) s ls1); [symmetry; apply run_lts|reflexivity].
Qed.

Lemma ev_eqb_eq a b : ev_eqb a b = true -> a = b.
Proof. destruct a, b. unfold ev_eqb. cbn. intros H. bnorm. subst. reflexivity. Qed.

Lemma ev_eqb_refl e : ev_eqb e e = true.
Proof. unfold ev_eqb. rewrite !Z.eqb_refl. reflexivity. Qed.

(* splits a step function on a guard without rewriting the guard inside the result *)
Lemma if_Some {A} (b : bool) (x y : option A) z :
  (if b then x else y) = Some z -> b = true /\ x = Some z \/ b = false /\ y = Some z.
Proof. destruct b; auto. Qed.

Lemma nth_error_snoc_Some {A} (l : list A) x n y : nth_error l n = Some y -> nth_error (l ++ [x]) n = Some y.
Proof. intros H. rewrite nth_error_app1; [exact H|]. apply nth_error_Some. rewrite H. discriminate. Qed.

(* a step extends at most one history variable by one entry (or crashes) and leaves the control fields alone *)
Definition hist (s : st) cr ad sl sn cm cb fh rh : st :=
  {| cur := cur s; deciding := deciding s; free := free s; flight := flight s; queue := queue s; outSeq := outSeq s;
     commitSeq := commitSeq s; stopped := stopped s; crashed := cr; added := ad; sealed_hist := sl; sent_hist := sn;
     committed := cm; commit_batches := cb; failed_hist := fh; result_hist := rh |}.
Definition crash s :=
  hist s true (added s) (sealed_hist s) (sent_hist s) (committed s) (commit_batches s) (failed_hist s) (result_hist s).
Definition log_added e s :=
  hist s (crashed s) (e :: added s) (sealed_hist s) (sent_hist s) (committed s) (commit_batches s) (failed_hist s) (result_hist s).
Definition log_sealed b s :=
  hist s (crashed s) (added s) (b :: sealed_hist s) (sent_hist s) (committed s) (commit_batches s) (failed_hist s) (result_hist s).
Definition log_sent q s :=
  hist s (crashed s) (added s) (sealed_hist s) (q :: sent_hist s) (committed s) (commit_batches s) (failed_hist s) (result_hist s).
Definition log_committed e s :=
  hist s (crashed s) (added s) (sealed_hist s) (sent_hist s) (e :: committed s) (commit_batches s) (failed_hist s) (result_hist s).
Definition log_commit_begin q s :=
  hist s (crashed s) (added s) (sealed_hist s) (sent_hist s) (committed s) (q :: commit_batches s) (failed_hist s) (result_hist s).
Definition log_failed f s :=
  hist s (crashed s) (added s) (sealed_hist s) (sent_hist s) (committed s) (commit_batches s) (f :: failed_hist s) (result_hist s).
Definition log_result r s :=
  hist s (crashed s) (added s) (sealed_hist s) (sent_hist s) (committed s) (commit_batches s) (failed_hist s) (r :: result_hist s).

(* [step] as a relation: one rule per branch of the function that returns a state, guards as propositions *)
Inductive Step (c : cfg) (s : st) : label -> st -> Prop :=
| SFree (Hcur : cur s = None) (Hfree : 0 < free s) :
    Step c s LFree (upd s (Some []) (deciding s) (free s - 1) (flight s) (queue s) (outSeq s) (commitSeq s) (stopped s))
| SAdd e l0 (Hcur : cur s = Some l0) (Hstop : stopped s = false) (Hdec : deciding s = false) :
    Step c s (LAdd e)
      (log_added e (upd s (Some (e :: l0)) true (free s) (flight s) (queue s) (outSeq s) (commitSeq s) (stopped s)))
| STick (Hstop : stopped s = false) (Hdec : deciding s = false) :
    Step c s LTick (upd s (cur s) true (free s) (flight s) (queue s) (outSeq s) (commitSeq s) (stopped s))
| SNotReady el tmo l0 (Hcur : cur s = Some l0) (Hdec : deciding s = true)
    (Hyoung : (Z.of_nat (length l0) =? 0) ||
              negb (size_ready c (Z.of_nat (length l0)) (bytes_of l0)) && (el <=? tmo) = true) :
    Step c s (LNotReady (Z.of_nat (length l0)) (bytes_of l0) el tmo)
      (upd s (Some l0) false (free s) (flight s) (queue s) (outSeq s) (commitSeq s) (stopped s))
| SSeal l0 (Hcur : cur s = Some l0) (Hdec : deciding s = true) (Hpos : 0 < Z.of_nat (length l0)) :
    let status := if size_ready c (Z.of_nat (length l0)) (bytes_of l0) then 1 else 2 in
    Step c s (LSeal (outSeq s) (Z.of_nat (length l0)) status (bytes_of l0))
      (log_sealed (rev l0)
         (upd s None false (free s)
            (flight s ++ [{| bseq := outSeq s; bevs := rev l0; bstage := Pending; bemptied := false; bstatus := status |}])
            (queue s) (outSeq s + 1) (commitSeq s) (stopped s)))
| SPushClosed q b (Hfind : find_bat (flight s) q = Some b) (Hst : bstage b = Pending) (Hstop : stopped s = true) :
    Step c s (LPush q) (crash s)
| SPush q b (Hfind : find_bat (flight s) q = Some b) (Hst : bstage b = Pending) (Hstop : stopped s = false) :
    Step c s (LPush q)
      (upd s (cur s) (deciding s) (free s) (upd_bat (flight s) q (set_stage Queued)) (queue s ++ [q])
         (outSeq s) (commitSeq s) (stopped s))
| STake q (Hq : In q (queue s)) (Hidle : busy_workers (flight s) < workers c) :
    Step c s (LTake q)
      (upd s (cur s) (deciding s) (free s) (upd_bat (flight s) q (set_stage Taken))
         (filter (fun x => negb (x =? q)) (queue s)) (outSeq s) (commitSeq s) (stopped s))
| SOutBegin q b (Hfind : find_bat (flight s) q = Some b) (Hst : bstage b = Taken) (Hiter : has_iter (bevs b) = true) :
    Step c s (LOutBegin q (Z.of_nat (length (bevs b))))
      (with_flight s (upd_bat (flight s) q (set_stage (Sending 0 PIdle))))
| SOutSaw q ids b t ph (Hfind : find_bat (flight s) q = Some b) (Hst : bstage b = Sending t ph)
    (Hph : match ph with PIdle => negb (retriable c) | PCalling => retriable c | _ => false end = true)
    (Hids : sx_eqb (SL (map SZ ids)) (SL (map (fun e => SZ (eid e)) (filter iterable (bevs b)))) = true) :
    Step c s (LOutSaw q ids) s
| SOutEnd q b t ph (Hfind : find_bat (flight s) q = Some b) (Hst : bstage b = Sending t ph)
    (Hph : match ph with PDone => retriable c | PIdle => negb (retriable c) | _ => false end = true) :
    Step c s (LOutEnd q (if bemptied b then 0 else Z.of_nat (length (bevs b))) (if bemptied b then 3 else bstatus b))
      (log_sent q (with_flight s (upd_bat (flight s) q (set_stage Sent))))
| SCommitBegin q b (Hfind : find_bat (flight s) q = Some b) (Hnone : committing_bat (flight s) = None)
    (Hready : bstage b = Sent \/ bstage b = Taken /\ has_iter (bevs b) = false) (Hq : q = commitSeq s) :
    Step c s (LCommitBegin q (if bemptied b then 0 else Z.of_nat (length (bevs b))))
      (log_commit_begin q
         (upd s (cur s) (deciding s) (free s) (upd_bat (flight s) q (set_stage (Committing 0))) (queue s)
            (outSeq s) (commitSeq s + 1) (stopped s)))
| SCommitEv e b k (Hcb : committing_bat (flight s) = Some b) (Hst : bstage b = Committing k)
    (Hfull : bemptied b = false) (Hnth : nth_error (bevs b) k = Some e) :
    Step c s (LCommitEv e)
      (log_committed e (with_flight s (upd_bat (flight s) (bseq b) (set_stage (Committing (S k))))))
| SCommitEnd q b k (Hfind : find_bat (flight s) q = Some b) (Hst : bstage b = Committing k)
    (Hk : Z.of_nat k = if bemptied b then 0 else Z.of_nat (length (bevs b))) :
    Step c s (LCommitEnd q (if bemptied b then 3 else bstatus b))
      (upd s (cur s) (deciding s) (free s + 1) (del_bat (flight s) q) (queue s) (outSeq s) (commitSeq s) (stopped s))
| SStop (Hstop : stopped s = false) (Hdec : deciding s = false)
    (Hpend : negb (atomic_push c) ||
             negb (existsb (fun b => match bstage b with Pending => true | _ => false end) (flight s)) = true) :
    Step c s LStop (upd s (cur s) (deciding s) (free s) (flight s) (queue s) (outSeq s) (commitSeq s) true)
| SRetryFirst q b t (Hfind : find_bat (flight s) q = Some b) (Hst : bstage b = Sending t PIdle)
    (Hret : retriable c = true) :
    Step c s (LRetryCall q t) (with_flight s (upd_bat (flight s) q (set_stage (Sending t PCalling))))
| SRetryAgain q b t (Hfind : find_bat (flight s) q = Some b) (Hst : bstage b = Sending t PFailed)
    (Hret : retriable c = true) (Hmore : (0 <=? retry c) && (retry c <? t) = false) :
    Step c s (LRetryCall q (t + 1)) (with_flight s (upd_bat (flight s) q (set_stage (Sending (t + 1) PCalling))))
| SRetryResult q b t ok (Hfind : find_bat (flight s) q = Some b) (Hst : bstage b = Sending t PCalling) :
    Step c s (LRetryResult q t ok)
      (log_result (q, t, ok)
         (with_flight s (upd_bat (flight s) q (set_stage (Sending t (if ok then PDone else PFailed))))))
| SGiveUp q b t stopbo (Hfind : find_bat (flight s) q = Some b) (Hst : bstage b = Sending t PFailed)
    (Hover : stopbo || (0 <=? retry c) && (retry c <? t) = true) :
    Step c s (LRetryGiveUp q t (Z.of_nat (length (bevs b))) (deadq c) stopbo)
      (log_failed (q, t, stopbo, bevs b)
         (with_flight s
            (upd_bat (flight s) q
               (fun _ => {| bseq := bseq b; bevs := bevs b; bstage := Sending t PDone; bemptied := deadq c;
                            bstatus := bstatus b |})))).

Lemma step_live c s l s' : step c s l = Some s' -> crashed s = false.
Proof. unfold step. destruct (crashed s); [discriminate|reflexivity]. Qed.

Lemma step_Step c s l s' : step c s l = Some s' -> Step c s l s'.
Proof.
  intros H. apply if_Some in H. destruct H as [[_ H]|[_ H]]; [discriminate|].
  destruct l; try discriminate H.
  6:{ (* Push: both branches of the test on [stopped] return a state *)
      destruct (find_bat (flight s) seq) as [b|] eqn:Hfind; [|discriminate].
      destruct (bstage b) eqn:Hst; try discriminate.
      apply if_Some in H. destruct H as [[Hstop H]|[Hstop H]]; injection H as <-; econstructor; eassumption. }
  all: cbv zeta in H; step_split H.
  all: try (injection H as <-).
  all: bnorm; subst.
  all: try (econstructor; first [eassumption|reflexivity]).
  - (* Seal *)
    assert (status = if size_ready c (Z.of_nat (length l)) (bytes_of l) then 1 else 2) as ->
      by (destruct (size_ready c _ _); bnorm; assumption).
    rewrite <- rev_alt. apply SSeal; assumption.
  - (* Take *) apply STake; [apply existsb_eqb_In|]; assumption.
  - (* OutEnd *)
    assert (n = (if bemptied b then 0 else Z.of_nat (length (bevs b))) /\ status = if bemptied b then 3 else bstatus b)
      as [-> ->] by (destruct (bemptied b); bnorm; auto).
    eapply SOutEnd; eassumption.
  - (* CommitBegin *) apply SCommitBegin; try first [assumption|reflexivity]. destruct (bstage b); try discriminate; bnorm; auto.
  - (* CommitEv *) match goal with E : ev_eqb _ _ = true |- _ => apply ev_eqb_eq in E; subst end.
    eapply SCommitEv; try eassumption; destruct (bemptied b); first [discriminate|assumption|reflexivity].
Qed.

Lemma Step_step c s l s' : crashed s = false -> Step c s l s' -> step c s l = Some s'.
Proof.
  intros Hcr H. unfold step. rewrite Hcr. destruct H; cbv zeta.
  - rewrite Hcur. replace (0 <? free s) with true by lia. reflexivity.
  - rewrite Hcur, Hstop, Hdec. reflexivity.
  - rewrite Hstop, Hdec. reflexivity.
  - rewrite Hcur, Hdec, !Z.eqb_refl, Hyoung. reflexivity.
  - rewrite Hcur, Hdec, !Z.eqb_refl, <- rev_alt. replace (0 <? _) with true by lia.
    destruct (size_ready c _ _); reflexivity.
  - rewrite Hfind, Hst. unfold crash, hist. rewrite Hstop. reflexivity.
  - rewrite Hfind, Hst, Hstop. reflexivity.
  - rewrite (proj2 (existsb_eqb_In _ _) Hq). replace (_ <? _) with true by lia. reflexivity.
  - rewrite Hfind, Hst, Hiter, Z.eqb_refl. reflexivity.
  - rewrite Hfind, Hst, Hph, Hids. reflexivity.
  - rewrite Hfind, Hst, Hph. destruct (bemptied b); rewrite !Z.eqb_refl; reflexivity.
  - rewrite Hfind, Hnone, <- Hq, !Z.eqb_refl. destruct Hready as [->|[-> ->]]; reflexivity.
  - rewrite Hcb, Hst, Hfull, Hnth, ev_eqb_refl. reflexivity.
  - rewrite Hfind, Hst, <- Hk, !Z.eqb_refl. reflexivity.
  - rewrite Hstop, Hdec, Hpend. reflexivity.
  - rewrite Hfind, Hst, Hret, Z.eqb_refl. reflexivity.
  - rewrite Hfind, Hst, Hret, Z.eqb_refl, Hmore. reflexivity.
  - rewrite Hfind, Hst, Z.eqb_refl. reflexivity.
  - rewrite Hfind, Hst, !Z.eqb_refl, Hover, eqb_reflx. unfold log_failed, hist, with_flight, upd. cbn. rewrite Hcr. reflexivity.
Qed.

(* the fields of the post-state of a [Step] rule *)
Ltac post_state :=
  cbn [cur deciding free flight queue outSeq commitSeq stopped crashed added sealed_hist sent_hist committed
       commit_batches failed_hist result_hist upd with_flight hist crash log_added log_sealed log_sent log_committed
       log_commit_begin log_failed log_result].

(* inversion of a step whose label is known *)
Ltac step_inv H := apply step_Step in H; inversion H; subst; clear H.

Lemma find_bat_In fl q b : find_bat fl q = Some b -> In b fl /\ bseq b = q.
Proof.
  induction fl as [|x r IH]; cbn [find_bat]; [discriminate|].
  destruct (bseq x =? q) eqn:E; intros H.
  - inversion H; subst. split; [left; reflexivity|lia].
  - destruct (IH H); split; [right|]; assumption.
Qed.

Lemma In_upd_bat fl q f b :
  In b (upd_bat fl q f) -> In b fl \/ exists b0, find_bat fl q = Some b0 /\ b = f b0.
Proof.
  induction fl as [|x r IH]; cbn [upd_bat find_bat]; [tauto|].
  destruct (bseq x =? q) eqn:E; cbn [In]; intros [H|H].
  - right; exists x; split; [reflexivity|symmetry; exact H].
  - left; right; exact H.
  - left; left; exact H.
  - destruct (IH H) as [H1|H1]; [left; right; exact H1|right; exact H1].
Qed.

Lemma In_upd_bat_found fl q f b0 b : find_bat fl q = Some b0 -> In b (upd_bat fl q f) -> In b fl \/ b = f b0.
Proof. intros Hf Hb. apply In_upd_bat in Hb. destruct Hb as [Hb|(b1 & Hb1 & ->)]; [left; exact Hb|right; congruence]. Qed.

(* frame for a step that rewrites one batch in flight: what holds of every batch still does, if it holds of the new one *)
Lemma upd_bat_frame {P : bat -> Prop} {fl q f} :
  (forall b, In b fl -> P b) -> (forall b0, find_bat fl q = Some b0 -> P (f b0)) ->
  forall b, In b (upd_bat fl q f) -> P b.
Proof. intros HP Hf b Hb. apply In_upd_bat in Hb. destruct Hb as [Hb|(b0 & Hb0 & ->)]; auto. Qed.

Lemma upd_bat_frame_at {P : bat -> Prop} {fl q f b0} :
  find_bat fl q = Some b0 -> (forall b, In b fl -> P b) -> P (f b0) -> forall b, In b (upd_bat fl q f) -> P b.
Proof. intros Hfind HP H0. apply upd_bat_frame; [exact HP|]. intros b1 Hb1. replace b1 with b0 by congruence. exact H0. Qed.

Lemma In_del_bat fl q b : In b (del_bat fl q) -> In b fl.
Proof.
  induction fl as [|x r IH]; cbn [del_bat]; [tauto|].
  destruct (bseq x =? q); cbn [In]; [tauto|]. intros [H|H]; [left; exact H|right; exact (IH H)].
Qed.

Lemma bseq_set_stage g b : bseq (set_stage g b) = bseq b. Proof. reflexivity. Qed.
Lemma bevs_set_stage g b : bevs (set_stage g b) = bevs b. Proof. reflexivity. Qed.
Lemma bstage_set_stage g b : bstage (set_stage g b) = g. Proof. reflexivity. Qed.
Lemma bemptied_set_stage g b : bemptied (set_stage g b) = bemptied b. Proof. reflexivity. Qed.

(* a member of the in-flight list after one batch was rewritten: a member as before, or the rewritten batch *)
Ltac in_upd Hb :=
  let b0 := fresh "b0" in let Hf := fresh "Hf" in
  apply In_upd_bat in Hb; destruct Hb as [Hb|[b0 [Hf ->]]].

(* a member of the in-flight list after a batch was sealed: a member as before, or the new batch *)
Ltac in_snoc Hx := apply in_app_or in Hx; destruct Hx as [Hx|[<-|[]]].

(* C08 2. commit sections start in sequence order *)

Fixpoint countdown (n : nat) : list Z := match n with O => [] | S k => Z.of_nat k :: countdown k end.

Definition inv_commit_order (s : st) : Prop :=
  0 <= commitSeq s /\ commit_batches s = countdown (Z.to_nat (commitSeq s)).

Lemma countdown_S z : 0 <= z -> countdown (Z.to_nat (z + 1)) = z :: countdown (Z.to_nat z).
Proof. intros Hz. replace (Z.to_nat (z + 1)) with (S (Z.to_nat z)) by lia. cbn [countdown]. f_equal. lia. Qed.

Lemma inv_commit_order_step c s l s' : inv_commit_order s -> step c s l = Some s' -> inv_commit_order s'.
Proof.
  intros [H0 H1] H. apply step_Step in H. destruct H; try (split; assumption).
  (* CommitBegin *) split; post_state; [lia|]. rewrite countdown_S, H1, Hq by assumption. reflexivity.
Qed.

Lemma inv_commit_order_init c : inv_commit_order (init c).
Proof. split; cbn; [lia|reflexivity]. Qed.

Lemma countdown_rev n : rev (countdown n) = map Z.of_nat (seq 0 n).
Proof.
  induction n as [|n IH]; [reflexivity|]. cbn [countdown rev]. rewrite IH.
  rewrite seq_S, map_app. reflexivity.
Qed.

Lemma commit_in_seq_order c ls s :
  run c (init c) ls = Some s ->
  0 <= commitSeq s /\ rev (commit_batches s) = map Z.of_nat (seq 0 (Z.to_nat (commitSeq s))).
Proof.
  intros Hr.
  destruct (run_invariant c inv_commit_order (inv_commit_order_step c) ls _ _ (inv_commit_order_init c) Hr) as [H0 H1].
  split; [exact H0|]. rewrite H1. apply countdown_rev.
Qed.

Lemma commit_each_once c ls s : run c (init c) ls = Some s -> NoDup (commit_batches s).
Proof.
  intros Hr. destruct (commit_in_seq_order c ls s Hr) as [_ H].
  rewrite <- (rev_involutive (commit_batches s)), H. apply NoDup_rev.
  apply FinFun.Injective_map_NoDup; [intros x y Hxy; apply Nat2Z.inj; exact Hxy|apply seq_NoDup].
Qed.

(* C08 7. Stop never panics when the channel send is inside the critical section *)

Definition inv_nopanic (s : st) : Prop :=
  crashed s = false /\ (deciding s = true -> stopped s = false) /\
  (stopped s = true -> forall b, In b (flight s) -> bstage b <> Pending).

Lemma inv_nopanic_step c s l s' :
  atomic_push c = true -> inv_nopanic s -> step c s l = Some s' -> inv_nopanic s'.
Proof.
  intros Ha (H0 & H1 & H2) H. apply step_Step in H.
  destruct H; unfold inv_nopanic; post_state;
    try (split; [assumption|split; [auto; congruence|]]); try assumption;
    (* a batch moves to a stage other than Pending *)
    try (intros Hs; apply (upd_bat_frame (H2 Hs)); discriminate).
  - (* Seal: the section is open, so the batcher is not stopped *) intros Hs. rewrite (H1 Hdec) in Hs. discriminate.
  - (* Push on a closed channel: excluded *) destruct (H2 Hstop b (proj1 (find_bat_In _ _ _ Hfind)) Hst).
  - (* CommitEnd *) intros Hs x Hx. exact (H2 Hs x (In_del_bat _ _ _ Hx)).
  - (* Stop waits for the pending send *) intros _ x Hx Hp. rewrite Ha in Hpend. cbn [negb orb] in Hpend.
    apply negb_true_iff, not_true_iff_false in Hpend. apply Hpend, existsb_exists. exists x. rewrite Hp. auto.
Qed.

Lemma inv_nopanic_init c : inv_nopanic (init c).
Proof. repeat split; cbn; intros; try congruence; contradiction. Qed.

Lemma nopanic_reach c ls s : atomic_push c = true -> run c (init c) ls = Some s -> inv_nopanic s.
Proof.
  intros Ha. exact (run_invariant c inv_nopanic (fun s0 l s1 => inv_nopanic_step c s0 l s1 Ha) ls _ _ (inv_nopanic_init c)).
Qed.

Lemma stop_never_panics c ls s :
  atomic_push c = batcher_atomic_push -> run c (init c) ls = Some s -> crashed s = false.
Proof. intros Ha Hr. exact (proj1 (nopanic_reach c ls s Ha Hr)). Qed.

Definition ev1 : ev := {| eid := 1; esrc := 0; esize := 1; ekind := 0 |}.

Lemma stop_panics_without_atomic_push :
  exists c ls s, atomic_push c = false /\ run c (init c) ls = Some s /\ crashed s = true.
Proof.
  exists {| workers := 1; maxCount := 1; maxBytes := 0; retriable := false; retry := 0; deadq := false; atomic_push := false |},
    [LFree; LAdd ev1; LSeal 0 1 1 1; LStop; LPush 0].
  eexists. split; [reflexivity|]. split; [vm_compute; reflexivity|reflexivity].
Qed.

(* C08 8. the NotReady decision is impossible for a non-empty batch older than the flush timeout *)

Lemma idle_flush_decision c s n b el tmo s' :
  step c s (LNotReady n b el tmo) = Some s' -> n <> 0 -> el <= tmo.
Proof. intros H Hn. step_inv H. lia. Qed.

(* C08 1. size bounds of sealed batches *)

Definition not_size_ready (c : cfg) (l : list ev) : Prop :=
  (maxCount c = 0 \/ Z.of_nat (length l) < maxCount c) /\ (maxBytes c = 0 \/ bytes_of l < maxBytes c).

Definition batch_ok (c : cfg) (b : list ev) : Prop :=
  b <> [] /\ (not_size_ready c b \/ exists b0 e, b = b0 ++ [e] /\ not_size_ready c b0).

Lemma size_ready_false c l :
  size_ready c (Z.of_nat (length l)) (bytes_of l) = false <-> not_size_ready c l.
Proof. unfold size_ready, not_size_ready. lia. Qed.

Lemma bytes_of_app a b : bytes_of (a ++ b) = bytes_of a + bytes_of b.
Proof. induction a as [|x a IH]; cbn [bytes_of app]; lia. Qed.

Lemma bytes_of_rev l : bytes_of (rev l) = bytes_of l.
Proof. induction l as [|x l IH]; cbn [bytes_of rev]; [reflexivity|]. rewrite bytes_of_app, IH. cbn [bytes_of]. lia. Qed.

Lemma nsr_rev c l : not_size_ready c l -> not_size_ready c (rev l).
Proof. unfold not_size_ready. rewrite rev_length, bytes_of_rev. tauto. Qed.

Lemma nsr_nil c : 0 <= maxCount c -> 0 <= maxBytes c -> not_size_ready c [].
Proof. unfold not_size_ready. cbn [length bytes_of]. lia. Qed.

Definition inv_bounds (c : cfg) (s : st) : Prop :=
  (forall b, In b (sealed_hist s) -> batch_ok c b) /\
  match cur s with
  | None => True
  | Some l0 => (deciding s = false -> not_size_ready c l0) /\
               (deciding s = true -> not_size_ready c l0 \/ exists e t, l0 = e :: t /\ not_size_ready c t)
  end.

Lemma inv_bounds_step c s l s' :
  0 <= maxCount c -> 0 <= maxBytes c -> inv_bounds c s -> step c s l = Some s' -> inv_bounds c s'.
Proof.
  intros Hc Hb [Hsl Hcu] H. apply step_Step in H.
  destruct H; unfold inv_bounds; post_state; try (split; [exact Hsl|]); try exact Hcu.
  - (* Free *) split; intros _; [|left]; apply nsr_nil; assumption.
  - (* Add: the batch was below the limits before *) rewrite Hcur in Hcu. split; [discriminate|]. intros _. right.
    exists e, l0. split; [reflexivity|exact (proj1 Hcu Hdec)].
  - (* Tick *) destruct (cur s); [|exact I]. split; [discriminate|]. intros _. left. exact (proj1 Hcu Hdec).
  - (* NotReady: empty, or the code's own size test failed *) split; [|discriminate]. intros _.
    destruct l0; [apply nsr_nil; assumption|]. apply size_ready_false. cbn [length] in *. lia.
  - (* Seal *) rewrite Hcur in Hcu. split; [|exact I]. intros x [<-|Hx]; [|exact (Hsl x Hx)]. split.
    + intros E. apply (f_equal (@length ev)) in E. rewrite rev_length in E. cbn [length] in E. lia.
    + destruct (proj2 Hcu Hdec) as [Hn'|(e & t & -> & Hn')]; [left; apply nsr_rev; exact Hn'|].
      right. exists (rev t), e. split; [reflexivity|apply nsr_rev; exact Hn'].
Qed.

Lemma inv_bounds_init c : inv_bounds c (init c).
Proof. split; cbn; [contradiction|exact I]. Qed.

Lemma batch_bounds c ls s :
  0 <= maxCount c -> 0 <= maxBytes c -> run c (init c) ls = Some s ->
  forall b, In b (sealed_hist s) -> batch_ok c b.
Proof.
  intros Hc Hb Hr.
  exact (proj1 (run_invariant c (inv_bounds c) (fun s0 l s1 => inv_bounds_step c s0 l s1 Hc Hb) ls _ _ (inv_bounds_init c) Hr)).
Qed.

Lemma batch_ok_count c b : batch_ok c b -> 0 < maxCount c -> Z.of_nat (length b) <= maxCount c.
Proof.
  intros [_ [[H _]|(b0 & e & -> & [H _])]] Hm; [lia|]. rewrite app_length. cbn [length]. lia.
Qed.

Lemma batch_ok_bytes c b :
  batch_ok c b -> 0 < maxBytes c ->
  bytes_of b < maxBytes c \/ exists b0 e, b = b0 ++ [e] /\ bytes_of b0 < maxBytes c.
Proof.
  intros [_ [[_ H]|(b0 & e & -> & [_ H])]] Hm; [left; lia|]. right. exists b0, e. split; [reflexivity|lia].
Qed.

(* C08 4. added = sealed batches ++ current batch *)

Definition cur_list (s : st) : list ev := match cur s with Some l => l | None => [] end.

Definition inv_added (s : st) : Prop :=
  rev (added s) = concat (rev (sealed_hist s)) ++ rev (cur_list s).

Lemma inv_added_step c s l s' : inv_added s -> step c s l = Some s' -> inv_added s'.
Proof.
  intros H1 H. apply step_Step in H. unfold inv_added, cur_list in *.
  destruct H; post_state; try exact H1; rewrite Hcur in H1; cbn [rev] in *.
  - (* Free *) exact H1.
  - (* Add *) rewrite H1, app_assoc. reflexivity.
  - (* NotReady *) exact H1.
  - (* Seal *) rewrite H1, concat_app. cbn [concat]. rewrite !app_nil_r. reflexivity.
Qed.

Lemma added_is_sealed_plus_current c ls s :
  run c (init c) ls = Some s -> rev (added s) = concat (rev (sealed_hist s)) ++ rev (cur_list s).
Proof.
  intros Hr. assert (Hi : inv_added (init c)) by reflexivity.
  exact (run_invariant c inv_added (inv_added_step c) ls _ _ Hi Hr).
Qed.

(* what a step does to the fields that the timed layer (Proofs/BatcherAge.v) mirrors *)
Lemma step_cur_sealed c s l s' :
  step c s l = Some s' ->
  cur_list s' = match l with LAdd e => e :: cur_list s | LSeal _ _ _ _ => [] | _ => cur_list s end /\
  sealed_hist s' = match l with LSeal _ _ _ _ => rev (cur_list s) :: sealed_hist s | _ => sealed_hist s end.
Proof.
  intros H. apply step_Step in H. unfold cur_list.
  destruct H; post_state; try rewrite Hcur; split; reflexivity.
Qed.

Definition committing (b : bat) : bool := match bstage b with Committing _ => true | _ => false end.

Fixpoint consec (lo : Z) (l : list Z) (hi : Z) : Prop :=
  match l with [] => lo = hi | x :: r => x = lo /\ consec (lo + 1) r hi end.

Lemma consec_app lo l hi : consec lo l hi -> consec lo (l ++ [hi]) (hi + 1).
Proof.
  revert lo. induction l as [|x r IH]; cbn [consec app]; intros lo H.
  - subst. split; reflexivity.
  - destruct H as [-> H]. split; [reflexivity|apply IH; exact H].
Qed.

Lemma consec_bounds lo l hi : consec lo l hi -> lo <= hi /\ forall x, In x l -> lo <= x < hi.
Proof.
  revert lo. induction l as [|x r IH]; cbn [consec]; intros lo H.
  - split; [lia|intros ? []].
  - destruct H as [-> H]. destruct (IH _ H) as [H1 H2]. split; [lia|].
    intros y [<-|Hy]; [lia|]. specialize (H2 _ Hy). lia.
Qed.

Fixpoint zrange (lo : Z) (n : nat) : list Z := match n with O => [] | S k => lo :: zrange (lo + 1) k end.

Lemma consec_zrange lo l hi : consec lo l hi -> l = zrange lo (Z.to_nat (hi - lo)).
Proof.
  revert lo. induction l as [|x r IH]; cbn [consec]; intros lo H.
  - subst. replace (hi - hi) with 0 by lia. reflexivity.
  - destruct H as [-> H]. pose proof (proj1 (consec_bounds _ _ _ H)) as Hb.
    replace (Z.to_nat (hi - lo)) with (S (Z.to_nat (hi - (lo + 1)))) by lia.
    cbn [zrange]. f_equal. apply IH. exact H.
Qed.

Lemma In_zrange_iff n : forall lo x, In x (zrange lo n) <-> lo <= x < lo + Z.of_nat n.
Proof.
  induction n as [|n IH]; intros lo x; cbn [zrange In]; [lia|]. rewrite IH. lia.
Qed.

Lemma In_zrange n : forall lo x, lo <= x < lo + Z.of_nat n -> In x (zrange lo n).
Proof. intros lo x. apply In_zrange_iff. Qed.

Lemma zrange_NoDup lo n : NoDup (zrange lo n).
Proof.
  revert lo. induction n as [|n IH]; intros lo; cbn [zrange]; constructor; [|apply IH].
  rewrite In_zrange_iff. lia.
Qed.

Lemma In_find_bat fl b : In b fl -> exists b1, find_bat fl (bseq b) = Some b1.
Proof.
  induction fl as [|x r IH]; [intros []|]. cbn [find_bat]. intros [->|H].
  - rewrite Z.eqb_refl. eexists; reflexivity.
  - destruct (bseq x =? bseq b); [eexists; reflexivity|exact (IH H)].
Qed.

(* sequence numbers in flight are pairwise different: find_bat finds THE batch *)
Lemma find_bat_of_In lo fl hi b :
  consec lo (map bseq fl) hi -> In b fl -> find_bat fl (bseq b) = Some b.
Proof.
  revert lo. induction fl as [|x r IH]; [intros ? ? []|]. cbn [map consec find_bat]. intros lo [Hx Hc] [->|Hin].
  - rewrite Z.eqb_refl. reflexivity.
  - pose proof (proj2 (consec_bounds _ _ _ Hc) _ (in_map bseq _ _ Hin)).
    rewrite (proj2 (Z.eqb_neq _ _)) by lia. exact (IH _ Hc Hin).
Qed.

Lemma find_bat_unique lo fl hi q b b' :
  consec lo (map bseq fl) hi -> find_bat fl q = Some b -> In b' fl -> bseq b' = q -> b' = b.
Proof. intros Hc Hf Hin <-. rewrite (find_bat_of_In _ _ _ _ Hc Hin) in Hf. injection Hf as <-. reflexivity. Qed.

Lemma In_upd_bat_strong lo fl hi q f b0 x :
  consec lo (map bseq fl) hi -> find_bat fl q = Some b0 -> In x (upd_bat fl q f) ->
  (In x fl /\ bseq x <> q) \/ x = f b0.
Proof.
  revert lo. induction fl as [|y r IH]; [discriminate|]. cbn [map consec find_bat upd_bat]. intros lo [Hy Hc] Hf.
  destruct (bseq y =? q) eqn:E; bnorm; cbn [In].
  - inversion Hf; subst y. intros [<-|Hx]; [right; reflexivity|left].
    split; [right; exact Hx|]. pose proof (proj2 (consec_bounds _ _ _ Hc) _ (in_map bseq _ _ Hx)). lia.
  - intros [<-|Hx]; [left; split; [left; reflexivity|exact E]|].
    destruct (IH _ Hc Hf Hx) as [[H1 H2]|H1]; [left; split; [right; exact H1|exact H2]|right; exact H1].
Qed.

Lemma map_bseq_upd fl q f b0 :
  find_bat fl q = Some b0 -> bseq (f b0) = q -> map bseq (upd_bat fl q f) = map bseq fl.
Proof.
  induction fl as [|x r IH]; [discriminate|]. cbn [find_bat upd_bat]. intros Hf Hq.
  destruct (bseq x =? q) eqn:E; bnorm; cbn [map].
  - inversion Hf; subst. congruence.
  - f_equal. exact (IH Hf Hq).
Qed.

Lemma length_upd_bat fl q f : length (upd_bat fl q f) = length fl.
Proof. induction fl as [|x r IH]; [reflexivity|]. cbn [upd_bat]. destruct (bseq x =? q); cbn [length]; congruence. Qed.

Lemma find_bat_upd_other fl q f b0 q' :
  q' <> q -> find_bat fl q = Some b0 -> bseq (f b0) = q -> find_bat (upd_bat fl q f) q' = find_bat fl q'.
Proof.
  intros Hne. induction fl as [|x r IH]; [discriminate|]. cbn [find_bat upd_bat]. intros Hf Hq.
  destruct (bseq x =? q) eqn:E; bnorm; cbn [find_bat].
  - inversion Hf; subst x. rewrite Hq. destruct (q =? q') eqn:E1; bnorm; [congruence|].
    destruct (bseq b0 =? q') eqn:E2; bnorm; [congruence|reflexivity].
  - destruct (bseq x =? q'); [reflexivity|exact (IH Hf Hq)].
Qed.

Lemma find_bat_upd_same fl q f b0 :
  find_bat fl q = Some b0 -> bseq (f b0) = q -> find_bat (upd_bat fl q f) q = Some (f b0).
Proof.
  induction fl as [|x r IH]; [discriminate|]. cbn [find_bat upd_bat]. intros Hf Hq.
  destruct (bseq x =? q) eqn:E; bnorm; cbn [find_bat].
  - inversion Hf; subst x. rewrite Hq, Z.eqb_refl. reflexivity.
  - rewrite (proj2 (Z.eqb_neq _ _) E). exact (IH Hf Hq).
Qed.

Lemma find_bat_app fl q b x : find_bat fl q = Some b -> find_bat (fl ++ [x]) q = Some b.
Proof.
  induction fl as [|y r IH]; [discriminate|]. cbn [find_bat app]. destruct (bseq y =? q); [auto|exact IH].
Qed.

Lemma existsb_committing_upd fl q f b0 :
  find_bat fl q = Some b0 -> committing (f b0) = committing b0 ->
  existsb committing (upd_bat fl q f) = existsb committing fl.
Proof.
  induction fl as [|x r IH]; [discriminate|]. cbn [find_bat upd_bat]. intros Hf Hc.
  destruct (bseq x =? q) eqn:E; cbn [existsb].
  - inversion Hf; subst x. rewrite Hc. reflexivity.
  - f_equal. exact (IH Hf Hc).
Qed.

Lemma existsb_committing_true fl b : In b fl -> committing b = true -> existsb committing fl = true.
Proof. intros Hin Hc. apply existsb_exists. exists b. split; assumption. Qed.

Lemma existsb_committing_upd_true fl q f b0 :
  find_bat fl q = Some b0 -> committing (f b0) = true -> existsb committing (upd_bat fl q f) = true.
Proof.
  induction fl as [|x r IH]; [discriminate|]. cbn [find_bat upd_bat]. intros Hf Hc.
  destruct (bseq x =? q) eqn:E; cbn [existsb].
  - inversion Hf; subst x. rewrite Hc. reflexivity.
  - rewrite (IH Hf Hc). apply orb_true_r.
Qed.

Lemma existsb_app_committing fl x : committing x = false -> existsb committing (fl ++ [x]) = existsb committing fl.
Proof. intros H. rewrite existsb_app. cbn [existsb]. rewrite H. rewrite !orb_false_r. reflexivity. Qed.

Lemma committing_bat_None fl : committing_bat fl = None -> existsb committing fl = false.
Proof.
  unfold committing_bat. induction fl as [|x r IH]; [reflexivity|]. cbn [find existsb].
  change (match bstage x with Committing _ => true | _ => false end) with (committing x).
  destruct (committing x); [discriminate|exact IH].
Qed.

Lemma committing_bat_Some fl b : committing_bat fl = Some b -> In b fl /\ committing b = true.
Proof. unfold committing_bat. intros H. apply find_some in H. exact H. Qed.

Definition lo_seq (s : st) : Z := commitSeq s - (if existsb committing (flight s) then 1 else 0).
Definition cur_count (s : st) : Z := match cur s with Some _ => 1 | None => 0 end.

Record WF (c : cfg) (s : st) : Prop := {
  wf_lo : 0 <= lo_seq s;
  wf_len : Z.of_nat (length (sealed_hist s)) = outSeq s;
  wf_consec : consec (lo_seq s) (map bseq (flight s)) (outSeq s);
  wf_cmt : forall b, In b (flight s) -> committing b = true -> bseq b = lo_seq s;
  wf_evs : forall b, In b (flight s) -> nth_error (rev (sealed_hist s)) (Z.to_nat (bseq b)) = Some (bevs b);
  wf_queue : forall q, In q (queue s) -> exists b, find_bat (flight s) q = Some b /\ bstage b = Queued;
  wf_count : free s + Z.of_nat (length (flight s)) + cur_count s = workers c
}.

Lemma wf_init c : WF c (init c).
Proof. constructor; cbn; try lia; try reflexivity; intros; contradiction. Qed.

(* the batch inside its commit section is the oldest one in flight, and the only one *)
Lemma wf_committing_head c s b : WF c s -> In b (flight s) -> committing b = true -> exists r, flight s = b :: r.
Proof.
  intros Hwf Hin Hc. pose proof (wf_cmt _ _ Hwf _ Hin Hc) as Hlo. pose proof (wf_consec _ _ Hwf) as Hcs.
  destruct (flight s) as [|x r]; [destruct Hin|]. exists r. f_equal.
  cbn [map consec] in Hcs. destruct Hcs as [Hx Hcs]. destruct Hin as [->|Hin]; [reflexivity|].
  pose proof (proj2 (consec_bounds _ _ _ Hcs) _ (in_map bseq _ _ Hin)). lia.
Qed.

Lemma wf_tail_noncommitting c s b r : WF c s -> flight s = b :: r -> existsb committing r = false.
Proof.
  intros Hwf Hfl. apply not_true_iff_false. intros E. apply existsb_exists in E. destruct E as (b' & Hb' & E).
  pose proof (wf_consec _ _ Hwf) as Hcs. pose proof (wf_cmt _ _ Hwf b') as Hlo. rewrite Hfl in Hcs, Hlo.
  cbn [map consec] in Hcs. specialize (Hlo (or_intror Hb') E).
  pose proof (proj2 (consec_bounds _ _ _ (proj2 Hcs)) _ (in_map bseq _ _ Hb')). lia.
Qed.

(* the rule CommitEnd under WF: the batch whose commit section ends is the oldest, the rest is outside *)
Lemma wf_commit_end c s q b k :
  WF c s -> find_bat (flight s) q = Some b -> bstage b = Committing k ->
  exists r, flight s = b :: r /\ del_bat (flight s) q = r /\ existsb committing r = false /\ bseq b = lo_seq s.
Proof.
  intros Hwf Hfind Hst. destruct (find_bat_In _ _ _ Hfind) as [Hin Hseq].
  assert (Hcm : committing b = true) by (unfold committing; rewrite Hst; reflexivity).
  destruct (wf_committing_head _ _ _ Hwf Hin Hcm) as [r Hfl]. exists r.
  split; [exact Hfl|split; [|split; [exact (wf_tail_noncommitting _ _ _ _ Hwf Hfl)|exact (wf_cmt _ _ Hwf _ Hin Hcm)]]].
  rewrite Hfl. cbn [del_bat]. rewrite Hseq, Z.eqb_refl. reflexivity.
Qed.

Lemma lo_seq_upd s s' q f b0 :
  find_bat (flight s) q = Some b0 -> flight s' = upd_bat (flight s) q f -> commitSeq s' = commitSeq s ->
  committing (f b0) = committing b0 -> lo_seq s' = lo_seq s.
Proof. intros Hfind Hf Hc Hcm. unfold lo_seq. rewrite Hf, Hc, (existsb_committing_upd _ _ _ _ Hfind Hcm). reflexivity. Qed.

Lemma lo_seq_cases s :
  (committing_bat (flight s) = None /\ lo_seq s = commitSeq s) \/
  (exists b, committing_bat (flight s) = Some b /\ lo_seq s = commitSeq s - 1).
Proof.
  unfold lo_seq. destruct (committing_bat (flight s)) as [b|] eqn:E.
  - right. exists b. split; [reflexivity|]. destruct (committing_bat_Some _ _ E) as [Hin Hc].
    rewrite (existsb_committing_true _ _ Hin Hc). reflexivity.
  - left. rewrite (committing_bat_None _ E). split; [reflexivity|lia].
Qed.

(* [lo_seq] counts the commit sections that are over: only the end of one moves it.  [wf_step] and [inv_shape_step] read
   lo_seq of the post-state from here and do not unfold it *)
Lemma lo_seq_step c s l s' :
  WF c s -> step c s l = Some s' -> lo_seq s' = match l with LCommitEnd _ _ => lo_seq s + 1 | _ => lo_seq s end.
Proof.
  intros Hwf H. apply step_Step in H.
  destruct H; try reflexivity;
    try (destruct (wf_queue _ _ Hwf _ Hq) as (b & Hfind & Hst));
    (* a batch moves between two stages outside the commit section *)
    try (eapply (lo_seq_upd _ _ _ _ _ Hfind); [reflexivity..|]; unfold committing; cbn [bstage set_stage]; rewrite Hst; reflexivity).
  - (* Seal *) unfold lo_seq. post_state. rewrite existsb_app_committing by reflexivity. reflexivity.
  - (* CommitBegin: the counter and the flag move together *)
    unfold lo_seq. post_state. rewrite (existsb_committing_upd_true _ _ _ _ Hfind), (committing_bat_None _ Hnone) by reflexivity. lia.
  - (* CommitEv *) destruct (committing_bat_Some _ _ Hcb) as [Hin Hcm].
    eapply (lo_seq_upd _ _ _ _ _ (find_bat_of_In _ _ _ _ (wf_consec _ _ Hwf) Hin)); [reflexivity..|]. exact (eq_sym Hcm).
  - (* CommitEnd: the batch that leaves is the only one inside its commit section *)
    destruct (wf_commit_end _ _ _ _ _ Hwf Hfind Hst) as (r & Hfl & Hdel & Hexr & _).
    unfold lo_seq. post_state. rewrite Hdel, Hexr, Hfl. cbn [existsb]. unfold committing. rewrite Hst. cbn [orb]. lia.
Qed.

(* a step that leaves the in-flight list, the channel and the counters alone *)
Lemma wf_same c s s' :
  WF c s -> flight s' = flight s -> queue s' = queue s -> sealed_hist s' = sealed_hist s ->
  outSeq s' = outSeq s -> commitSeq s' = commitSeq s -> free s' + cur_count s' = free s + cur_count s ->
  WF c s'.
Proof.
  intros [] Hf Hq Hs Ho Hc Hn. unfold lo_seq in *.
  constructor; unfold lo_seq; rewrite ?Hf, ?Hq, ?Hs, ?Ho, ?Hc; try assumption. lia.
Qed.

(* a step that rewrites one in-flight batch in place *)
Lemma wf_upd c s s' q f b0 :
  WF c s -> find_bat (flight s) q = Some b0 ->
  flight s' = upd_bat (flight s) q f -> sealed_hist s' = sealed_hist s -> outSeq s' = outSeq s ->
  free s' = free s -> cur s' = cur s ->
  bseq (f b0) = q -> bevs (f b0) = bevs b0 ->
  lo_seq s' = lo_seq s -> (committing (f b0) = true -> q = lo_seq s) ->
  (forall q', In q' (queue s') -> (q' <> q /\ In q' (queue s)) \/ (q' = q /\ bstage (f b0) = Queued)) ->
  WF c s'.
Proof.
  intros [L1 L2 L3 L4 L5 L6 L7] Hfind Hf Hs Ho Hfr Hcu Hseq Hevs Hlo Hcm Hq. destruct (find_bat_In _ _ _ Hfind) as [Hin Hq0].
  constructor; rewrite ?Hlo, ?Hf, ?Hs, ?Ho; try assumption.
  - rewrite (map_bseq_upd _ _ _ _ Hfind Hseq). assumption.
  - apply (upd_bat_frame_at Hfind L4). rewrite Hseq. exact Hcm.
  - apply (upd_bat_frame_at Hfind L5). rewrite Hseq, Hevs, <- Hq0. exact (L5 _ Hin).
  - intros q' Hq'. destruct (Hq _ Hq') as [[Hne Hin']|[-> Hst]].
    + rewrite (find_bat_upd_other _ _ _ _ _ Hne Hfind Hseq). auto.
    + exists (f b0). split; [exact (find_bat_upd_same _ _ _ _ Hfind Hseq)|exact Hst].
  - rewrite length_upd_bat. unfold cur_count in *. rewrite Hfr, Hcu. assumption.
Qed.

(* the channel holds no batch that is not in stage Queued *)
Lemma queue_other c s q b0 q' :
  WF c s -> find_bat (flight s) q = Some b0 -> bstage b0 <> Queued -> In q' (queue s) -> q' <> q.
Proof. intros Hwf Hfind Hst Hq' ->. destruct (wf_queue _ _ Hwf _ Hq') as (b & Hb & Hbs). congruence. Qed.

(* a step that moves one in-flight batch between two stages outside the channel, neither into nor out of the commit section *)
Lemma wf_upd_plain c s s' q f b0 :
  WF c s -> find_bat (flight s) q = Some b0 -> bstage b0 <> Queued ->
  flight s' = upd_bat (flight s) q f -> queue s' = queue s -> sealed_hist s' = sealed_hist s ->
  outSeq s' = outSeq s -> commitSeq s' = commitSeq s -> free s' = free s -> cur s' = cur s ->
  bseq (f b0) = q -> bevs (f b0) = bevs b0 -> committing (f b0) = committing b0 ->
  WF c s'.
Proof.
  intros Hwf Hfind Hst Hf Hq Hs Ho Hc Hfr Hcu Hseq Hevs Hcm.
  apply (wf_upd c s s' q f b0 Hwf Hfind Hf Hs Ho Hfr Hcu Hseq Hevs (lo_seq_upd _ _ _ _ _ Hfind Hf Hc Hcm)).
  - rewrite Hcm. intros Hc1. destruct (find_bat_In _ _ _ Hfind) as [Hin <-]. exact (wf_cmt _ _ Hwf _ Hin Hc1).
  - rewrite Hq. intros q' Hq'. left. split; [exact (queue_other _ _ _ _ _ Hwf Hfind Hst Hq')|exact Hq'].
Qed.

Lemma wf_step c s l s' : WF c s -> step c s l = Some s' -> WF c s'.
Proof.
  intros Hwf H. pose proof (lo_seq_step _ _ _ _ Hwf H) as Hlo. apply step_Step in H.
  (* [Hlo] names the post-state as the rule writes it: a case rewrites with it before [post_state] opens that term *)
  destruct H; try exact Hwf;
    (* the batcher's own labels: at most the current batch and the free count move *)
    try (apply (wf_same c s); [exact Hwf|reflexivity..|unfold cur_count; post_state; try rewrite Hcur; lia]);
    (* a worker moves its batch between two stages outside the channel and the commit section *)
    try (eapply (wf_upd_plain c s _ q _ b Hwf Hfind);
         [rewrite Hst; discriminate|reflexivity..|exact (proj2 (find_bat_In _ _ _ Hfind))|reflexivity|];
         unfold committing; cbn [bstage set_stage]; rewrite Hst; reflexivity).
  - (* Seal *)
    destruct Hwf as [L1 L2 L3 L4 L5 L6 L7]. constructor; rewrite ?Hlo; post_state.
    + exact L1.
    + cbn [length]. lia.
    + rewrite map_app. cbn [map bseq]. apply consec_app. exact L3.
    + intros x Hx Hc. in_snoc Hx; [auto|discriminate Hc].
    + intros x Hx. cbn [rev]. in_snoc Hx.
      * apply nth_error_snoc_Some. exact (L5 _ Hx).
      * cbn [bseq bevs]. rewrite nth_error_app2 by (rewrite rev_length; lia). rewrite rev_length.
        replace (Z.to_nat (outSeq s) - length (sealed_hist s))%nat with O by lia. reflexivity.
    + intros q' Hq'. destruct (L6 _ Hq') as (x & Hx & Hs). exists x. split; [apply find_bat_app; exact Hx|exact Hs].
    + rewrite app_length. cbn [length]. unfold cur_count in *. post_state. rewrite Hcur in L7. lia.
  - (* Push *)
    assert (Hne : bstage b <> Queued) by (rewrite Hst; discriminate).
    apply (wf_upd c s _ q (set_stage Queued) b Hwf Hfind); try first [reflexivity|exact Hlo].
    + exact (proj2 (find_bat_In _ _ _ Hfind)).
    + discriminate.
    + post_state. intros q' Hq'. in_snoc Hq'; [left|right; split; reflexivity].
      split; [exact (queue_other _ _ _ _ _ Hwf Hfind Hne Hq')|exact Hq'].
  - (* Take *)
    destruct (wf_queue _ _ Hwf _ Hq) as (b & Hfind & Hst).
    apply (wf_upd c s _ q (set_stage Taken) b Hwf Hfind); try first [reflexivity|exact Hlo].
    + exact (proj2 (find_bat_In _ _ _ Hfind)).
    + discriminate.
    + post_state. intros q' Hq'. apply filter_In in Hq'. destruct Hq' as [Hq' Hne]. left. split; [lia|exact Hq'].
  - (* CommitBegin: no other batch is inside its commit section *)
    apply (wf_upd c s _ q (set_stage (Committing 0)) b Hwf Hfind); try first [reflexivity|exact Hlo].
    + exact (proj2 (find_bat_In _ _ _ Hfind)).
    + intros _. destruct (lo_seq_cases s) as [[_ ->]|(x & E & _)]; [exact Hq|congruence].
    + post_state. intros q' Hq'. left. split; [|exact Hq']. apply (queue_other _ _ _ _ _ Hwf Hfind); [|exact Hq'].
      destruct Hready as [E|[E _]]; rewrite E; discriminate.
  - (* CommitEv *)
    destruct (committing_bat_Some _ _ Hcb) as [Hin Hcm].
    pose proof (find_bat_of_In _ _ _ _ (wf_consec _ _ Hwf) Hin) as Hfind.
    eapply (wf_upd_plain c s _ (bseq b) _ b Hwf Hfind); [rewrite Hst; discriminate|reflexivity..|exact (eq_sym Hcm)].
  - (* CommitEnd: the oldest batch leaves *)
    destruct (wf_commit_end _ _ _ _ _ Hwf Hfind Hst) as (r & Hfl & Hdel & Hexr & _).
    destruct Hwf as [L1 L2 L3 L4 L5 L6 L7]. rewrite Hfl in *. cbn [map consec length] in *.
    constructor; rewrite ?Hlo; post_state; rewrite ?Hdel.
    + lia.
    + exact L2.
    + exact (proj2 L3).
    + intros x Hx E. rewrite (existsb_committing_true _ _ Hx E) in Hexr. discriminate.
    + intros x Hx. exact (L5 x (or_intror Hx)).
    + intros q' Hq'. destruct (L6 _ Hq') as (x & Hx & Hs). exists x. split; [|exact Hs].
      cbn [find_bat] in Hx. destruct (bseq b =? q'); [congruence|exact Hx].
    + unfold cur_count in *. post_state. lia.
Qed.

Lemma wf_reach c ls s : run c (init c) ls = Some s -> WF c s.
Proof. intros Hr. exact (run_invariant c (WF c) (wf_step c) ls _ _ (wf_init c) Hr). Qed.

(* invariants proved on top of the structural one *)
Lemma run_invariant_wf (c : cfg) (P : st -> Prop) :
  (forall s l s', WF c s -> P s -> step c s l = Some s' -> P s') -> P (init c) ->
  forall ls s, run c (init c) ls = Some s -> P s.
Proof.
  intros Hstep Hi ls s Hr.
  refine (proj2 (run_invariant c (fun s => WF c s /\ P s) _ ls _ _ (conj (wf_init c) Hi) Hr)).
  intros s0 l s1 [Hw Hp] Hs. split; [exact (wf_step _ _ _ _ Hw Hs)|exact (Hstep _ _ _ Hw Hp Hs)].
Qed.

(* C08 6. the batches in flight are the interval [lo_seq, outSeq) *)

Lemma in_flight_is_interval c ls s :
  run c (init c) ls = Some s ->
  0 <= lo_seq s <= outSeq s /\
  map bseq (flight s) = zrange (lo_seq s) (Z.to_nat (outSeq s - lo_seq s)) /\
  NoDup (map bseq (flight s)) /\
  free s + Z.of_nat (length (flight s)) + cur_count s = workers c.
Proof.
  intros Hr. pose proof (wf_reach _ _ _ Hr) as Hwf. destruct Hwf as [L1 L2 L3 L4 L5 L6 L7].
  pose proof (consec_zrange _ _ _ L3) as Hz.
  split; [split; [exact L1|exact (proj1 (consec_bounds _ _ _ L3))]|].
  split; [exact Hz|]. split; [rewrite Hz; apply zrange_NoDup|exact L7].
Qed.

Lemma no_commit_deadlock c ls s :
  run c (init c) ls = Some s -> commitSeq s < outSeq s ->
  exists b, find_bat (flight s) (commitSeq s) = Some b /\ In b (flight s) /\ committing b = false.
Proof.
  intros Hr Hlt. pose proof (wf_reach _ _ _ Hr) as Hwf.
  pose proof (consec_zrange _ _ _ (wf_consec _ _ Hwf)) as Hz.
  pose proof (consec_bounds _ _ _ (wf_consec _ _ Hwf)) as [Hb _].
  assert (Hin : In (commitSeq s) (map bseq (flight s))).
  { rewrite Hz. apply In_zrange. unfold lo_seq in *. destruct (existsb committing (flight s)); lia. }
  apply in_map_iff in Hin. destruct Hin as (b & Hseq & Hin). exists b.
  pose proof (find_bat_of_In _ _ _ _ (wf_consec _ _ Hwf) Hin) as Hf. rewrite Hseq in Hf.
  split; [exact Hf|split; [exact Hin|]].
  destruct (committing b) eqn:E; [|reflexivity]. pose proof (wf_cmt _ _ Hwf _ Hin E) as E1.
  unfold lo_seq in *. rewrite (existsb_committing_true _ _ Hin E) in *. lia.
Qed.

(* C08 3. a batch enters its commit section only after its own OutFn returned *)

Definition inv_sent (s : st) : Prop :=
  (forall b, In b (flight s) -> bstage b = Sent \/ (committing b = true /\ has_iter (bevs b) = true) ->
             In (bseq b) (sent_hist s)) /\
  (forall q, In q (commit_batches s) ->
             exists evs, nth_error (rev (sealed_hist s)) (Z.to_nat q) = Some evs /\
                         (has_iter evs = true -> In q (sent_hist s))).

Lemma inv_sent_step c s l s' : WF c s -> inv_sent s -> step c s l = Some s' -> inv_sent s'.
Proof.
  intros Hwf [I1 I2] H. apply step_Step in H.
  destruct H; unfold inv_sent; post_state; try (split; assumption);
    (* a batch moves to a stage before Sent *)
    try (split; [|exact I2]; apply (upd_bat_frame I1); intros b0 _ [Hp|[Hp _]]; discriminate Hp).
  - (* Seal *) split.
    + intros x Hx Hp. in_snoc Hx; [exact (I1 _ Hx Hp)|destruct Hp as [Hp|[Hp _]]; discriminate Hp].
    + intros q' Hq'. destruct (I2 _ Hq') as (evs & He & Hs). exists evs. split; [|exact Hs].
      cbn [rev]. apply nth_error_snoc_Some. exact He.
  - (* OutEnd *) split.
    + apply (upd_bat_frame_at Hfind (fun x Hx Hp => or_intror (I1 x Hx Hp))).
      intros _. left. symmetry. exact (proj2 (find_bat_In _ _ _ Hfind)).
    + intros q' Hq'. destruct (I2 _ Hq') as (evs & He & Hs). exists evs. split; [exact He|]. intros Hi. right. auto.
  - (* CommitBegin: Sent, or nothing to send *)
    destruct (find_bat_In _ _ _ Hfind) as [Hin Hseq]. rewrite <- Hseq.
    assert (Hb : has_iter (bevs b) = true -> In (bseq b) (sent_hist s)).
    { intros Hi. apply (I1 _ Hin). left. destruct Hready as [E|[_ E]]; [exact E|congruence]. }
    split.
    + rewrite Hseq. apply (upd_bat_frame_at Hfind I1). intros [Hp|[_ Hp]]; [discriminate Hp|exact (Hb Hp)].
    + intros q' [<-|Hq']; [|exact (I2 _ Hq')]. exists (bevs b). split; [exact (wf_evs _ _ Hwf _ Hin)|exact Hb].
  - (* CommitEv *)
    destruct (committing_bat_Some _ _ Hcb) as [Hin Hcm]. split; [|exact I2].
    apply (upd_bat_frame_at (find_bat_of_In _ _ _ _ (wf_consec _ _ Hwf) Hin) I1).
    intros [Hp|[_ Hp]]; [discriminate Hp|]. apply (I1 _ Hin). right. split; [exact Hcm|exact Hp].
  - (* CommitEnd *) split; [|exact I2]. intros x Hx. exact (I1 x (In_del_bat _ _ _ Hx)).
Qed.

Lemma inv_sent_init c : inv_sent (init c).
Proof. split; cbn; intros; contradiction. Qed.

Lemma sent_reach c ls s : run c (init c) ls = Some s -> inv_sent s.
Proof. exact (run_invariant_wf c inv_sent (inv_sent_step c) (inv_sent_init c) ls s). Qed.

Lemma commit_after_own_send c ls s :
  run c (init c) ls = Some s ->
  forall q evs, In q (commit_batches s) -> nth_error (rev (sealed_hist s)) (Z.to_nat q) = Some evs ->
                has_iter evs = true -> In q (sent_hist s).
Proof.
  intros Hr q evs Hq He Hi. destruct (proj2 (sent_reach c ls s Hr) _ Hq) as (evs' & He' & Hs).
  rewrite He in He'. injection He' as <-. exact (Hs Hi).
Qed.

Lemma commit_batches_sealed c ls s :
  run c (init c) ls = Some s ->
  forall q, In q (commit_batches s) -> exists evs, nth_error (rev (sealed_hist s)) (Z.to_nat q) = Some evs.
Proof.
  intros Hr q Hq. destruct (proj2 (sent_reach c ls s Hr) _ Hq) as (evs' & He' & _). exists evs'. exact He'.
Qed.

(* C09 A. give-up only after retry+2 failed calls *)

Definition fseq (f : Z * Z * bool * list ev) : Z := fst (fst (fst f)).

Definition res_upto (s : st) (q t : Z) : Prop := forall k, 0 <= k < t -> In (q, k, false) (result_hist s).

Definition retry_stage_ok (s : st) (b : bat) : Prop :=
  match bstage b with
  | Sending t PIdle => t = 0
  | Sending t PCalling => 0 <= t /\ res_upto s (bseq b) t
  | Sending t PFailed => 0 <= t /\ res_upto s (bseq b) (t + 1)
  | _ => True
  end.

Definition inv_retry (c : cfg) (s : st) : Prop :=
  (forall b, In b (flight s) -> retry_stage_ok s b) /\
  (forall q t evs, In (q, t, false, evs) (failed_hist s) -> 0 <= retry c /\ retry c < t /\ res_upto s q (t + 1)).

Lemma inv_retry_step c s l s' : inv_retry c s -> step c s l = Some s' -> inv_retry c s'.
Proof.
  intros [J1 J2] H. apply step_Step in H.
  destruct H; unfold inv_retry, retry_stage_ok, res_upto in *; post_state; try (split; assumption);
    (* a batch moves to a stage outside the retry loop, or to its entry *)
    try (split; [|exact J2]; apply (upd_bat_frame J1); intros b0 _; first [exact I|reflexivity]).
  - (* Seal *) split; [|exact J2]. intros x Hx. in_snoc Hx; [exact (J1 _ Hx)|exact I].
  - (* CommitEnd *) split; [|exact J2]. intros x Hx. exact (J1 x (In_del_bat _ _ _ Hx)).
  - (* the first call *) split; [|exact J2]. apply (upd_bat_frame_at Hfind J1).
    pose proof (J1 _ (proj1 (find_bat_In _ _ _ Hfind))) as Hb. rewrite Hst in Hb. cbn [bstage set_stage]. split; [lia|intros k Hk; lia].
  - (* another call: one more failed result is on record *) split; [|exact J2]. apply (upd_bat_frame_at Hfind J1).
    pose proof (J1 _ (proj1 (find_bat_In _ _ _ Hfind))) as Hb. rewrite Hst in Hb. cbn [bstage set_stage bseq].
    split; [lia|exact (proj2 Hb)].
  - (* RetryResult *)
    destruct (find_bat_In _ _ _ Hfind) as [Hin Hseq]. split.
    + apply (upd_bat_frame_at Hfind).
      * intros x Hx. specialize (J1 _ Hx). destruct (bstage x) as [| | |t' [| | |]| |]; cbn [In]; intuition.
      * specialize (J1 _ Hin). rewrite Hst in J1. cbn [bstage set_stage bseq In]. destruct ok; [exact I|].
        split; [lia|]. intros k Hk. destruct (Z.eq_dec k t) as [->|Hne]; [left; rewrite Hseq; reflexivity|right; apply J1; lia].
    + intros q' t' evs Hq'. destruct (J2 _ _ _ Hq') as (R1 & R2 & R3). cbn [In]. auto.
  - (* RetryGiveUp *)
    pose proof (J1 _ (proj1 (find_bat_In _ _ _ Hfind))) as Hb. rewrite Hst in Hb. split.
    + apply (upd_bat_frame J1). intros b0 _. exact I.
    + intros q' t' evs [Hq'|Hq']; [|exact (J2 _ _ _ Hq')]. injection Hq' as <- <- -> <-.
      rewrite (proj2 (find_bat_In _ _ _ Hfind)) in Hb. cbn [orb] in Hover. split; [lia|split; [lia|exact (proj2 Hb)]].
Qed.

Lemma inv_retry_init c : inv_retry c (init c).
Proof. split; cbn; intros; contradiction. Qed.

Lemma retries_at_least c ls s :
  run c (init c) ls = Some s ->
  forall q t evs, In (q, t, false, evs) (failed_hist s) ->
    0 <= retry c /\ retry c < t /\ forall k, 0 <= k <= t -> In (q, k, false) (result_hist s).
Proof.
  intros Hr q t evs Hq.
  destruct (run_invariant c (inv_retry c) (inv_retry_step c) ls _ _ (inv_retry_init c) Hr) as [_ J2].
  destruct (J2 _ _ _ Hq) as (R1 & R2 & R3). split; [exact R1|split; [exact R2|]]. intros k Hk. apply R3. lia.
Qed.

(* C09 C. a batch is given up at most once *)

Definition done_stage (b : bat) : Prop :=
  match bstage b with Sending _ PDone | Sent | Committing _ => True | _ => False end.

Definition inv_once (s : st) : Prop :=
  NoDup (map fseq (failed_hist s)) /\
  (forall q, In q (map fseq (failed_hist s)) -> q < outSeq s) /\
  (forall b, In b (flight s) -> In (bseq b) (map fseq (failed_hist s)) -> done_stage b).

Lemma inv_once_step c s l s' : WF c s -> inv_once s -> step c s l = Some s' -> inv_once s'.
Proof.
  intros Hwf (K1 & K2 & K3) H. apply step_Step in H.
  destruct H; unfold inv_once; post_state; try (split; [assumption|split; assumption]);
    (* a batch moves to a stage after the retry loop *)
    try (split; [exact K1|split; [exact K2|]]; apply (upd_bat_frame K3); intros b0 _ _; exact I);
    (* a batch inside or before the retry loop has no give-up on record (Take: the batch in the channel is a queued one) *)
    try (destruct (wf_queue _ _ Hwf _ Hq) as (b & Hfind & Hst));
    try (split; [exact K1|split; [exact K2|]]; apply (upd_bat_frame_at Hfind K3); intros Hgu;
         specialize (K3 b (proj1 (find_bat_In _ _ _ Hfind)) Hgu); unfold done_stage in K3; rewrite Hst in K3; destruct K3).
  - (* Seal: no give-up of a batch that does not exist yet *) split; [exact K1|split].
    + intros q' Hq'. specialize (K2 _ Hq'). lia.
    + intros x Hx Hq'. in_snoc Hx; [exact (K3 _ Hx Hq')|]. cbn [bseq] in Hq'. specialize (K2 _ Hq'). lia.
  - (* CommitEnd *) split; [exact K1|split; [exact K2|]]. intros x Hx. exact (K3 x (In_del_bat _ _ _ Hx)).
  - (* RetryGiveUp: the batch was inside the retry loop, so this is its first give-up *)
    destruct (find_bat_In _ _ _ Hfind) as [Hin Hseq]. cbn [map fseq fst].
    assert (Hnew : ~ In q (map fseq (failed_hist s))).
    { intros Hq'. rewrite <- Hseq in Hq'. pose proof (K3 _ Hin Hq') as Hd. unfold done_stage in Hd. rewrite Hst in Hd. exact Hd. }
    split; [constructor; assumption|split].
    + intros q' [<-|Hq']; [|exact (K2 _ Hq')].
      pose proof (proj2 (consec_bounds _ _ _ (wf_consec _ _ Hwf)) _ (in_map bseq _ _ Hin)). lia.
    + intros x Hx Hq'. destruct (In_upd_bat_strong _ _ _ _ _ _ _ (wf_consec _ _ Hwf) Hfind Hx) as [[Hx1 Hne]| ->]; [|exact I].
      destruct Hq' as [Hq'|Hq']; [congruence|exact (K3 _ Hx1 Hq')].
Qed.

Lemma inv_once_init c : inv_once (init c).
Proof. split; [constructor|split]; cbn; intros; contradiction. Qed.

Lemma giveup_once c ls s : run c (init c) ls = Some s -> NoDup (map fseq (failed_hist s)).
Proof. intros Hr. exact (proj1 (run_invariant_wf c inv_once (inv_once_step c) (inv_once_init c) ls s Hr)). Qed.

(* C09 B. no commit section while a retry is pending *)

Definition settled (s : st) (q : Z) : Prop :=
  (exists t, In (q, t, true) (result_hist s)) \/ In q (map fseq (failed_hist s)).

(* in the retriable frame the retry loop ended, one way or the other, for every batch that left it or left OutFn *)
Definition inv_settled (s : st) : Prop :=
  (forall b t, In b (flight s) -> bstage b = Sending t PDone -> settled s (bseq b)) /\
  (forall q, In q (sent_hist s) -> settled s q).

Lemma inv_settled_step c s l s' : retriable c = true -> inv_settled s -> step c s l = Some s' -> inv_settled s'.
Proof.
  intros Hre [I1 I2] H. apply step_Step in H.
  destruct H; unfold inv_settled; post_state; try (split; assumption);
    (* a batch moves to a stage other than the end of the retry loop *)
    try (split; [|exact I2]; intros x t' Hx Hs; in_upd Hx; [exact (I1 _ _ Hx Hs)|discriminate Hs]).
  - (* Seal *) split; [|exact I2]. intros x t' Hx Hs. in_snoc Hx; [exact (I1 _ _ Hx Hs)|discriminate Hs].
  - (* OutEnd: from the end of the retry loop *) split.
    + intros x t' Hx Hs. in_upd Hx; [exact (I1 _ _ Hx Hs)|discriminate Hs].
    + intros q' [<-|Hq']; [|exact (I2 _ Hq')]. rewrite Hre in Hph. destruct ph; try discriminate Hph.
      destruct (find_bat_In _ _ _ Hfind) as [Hin <-]. exact (I1 _ _ Hin Hst).
  - (* CommitEnd *) split; [|exact I2]. intros x t' Hx. exact (I1 x t' (In_del_bat _ _ _ Hx)).
  - (* RetryResult: a success settles the batch *)
    assert (Hmono : forall q', settled s q' -> settled (log_result (q, t, ok) s) q').
    { intros q' [[t' Ht]|Hq']; [left; exists t'; right; exact Ht|right; exact Hq']. }
    split; [|exact (fun q' Hq' => Hmono _ (I2 _ Hq'))]. intros x t' Hx Hs.
    destruct (In_upd_bat_found _ _ _ _ _ Hfind Hx) as [Hx'| ->]; [exact (Hmono _ (I1 _ _ Hx' Hs))|].
    destruct ok; [|discriminate Hs]. left. exists t. left. rewrite bseq_set_stage, (proj2 (find_bat_In _ _ _ Hfind)). reflexivity.
  - (* RetryGiveUp settles it as well *)
    assert (Hmono : forall q', settled s q' -> settled (log_failed (q, t, stopbo, bevs b) s) q').
    { intros q' [Ht|Hq']; [left; exact Ht|right; right; exact Hq']. }
    split; [|exact (fun q' Hq' => Hmono _ (I2 _ Hq'))]. intros x t' Hx Hs.
    destruct (In_upd_bat_found _ _ _ _ _ Hfind Hx) as [Hx'| ->]; [exact (Hmono _ (I1 _ _ Hx' Hs))|].
    right. left. symmetry. exact (proj2 (find_bat_In _ _ _ Hfind)).
Qed.

Lemma inv_settled_init c : inv_settled (init c).
Proof. split; cbn; intros; contradiction. Qed.

Lemma settled_reach c ls s : retriable c = true -> run c (init c) ls = Some s -> inv_settled s.
Proof.
  intros Hret. exact (run_invariant c inv_settled (fun s0 l s1 => inv_settled_step c s0 l s1 Hret) ls _ _ (inv_settled_init c)).
Qed.

Lemma no_commit_while_retrying c ls s :
  retriable c = true -> run c (init c) ls = Some s ->
  forall q evs, In q (commit_batches s) -> nth_error (rev (sealed_hist s)) (Z.to_nat q) = Some evs ->
                has_iter evs = true ->
                (exists t, In (q, t, true) (result_hist s)) \/ In q (map fseq (failed_hist s)).
Proof.
  intros Hret Hr q evs Hq He Hi.
  exact (proj2 (settled_reach c ls s Hret Hr) q (commit_after_own_send c ls s Hr q evs Hq He Hi)).
Qed.

(* C08 5 / C09 D. what has been committed: whole batches in sequence order, a given-up batch with a dead queue
   contributing nothing, plus a prefix of the batch inside its commit section *)

Definition emptied (c : cfg) (s : st) (q : Z) : bool :=
  deadq c && existsb (fun f => fseq f =? q) (failed_hist s).

Fixpoint eff_concat (em : Z -> bool) (i : Z) (l : list (list ev)) : list ev :=
  match l with [] => [] | b :: r => (if em i then [] else b) ++ eff_concat em (i + 1) r end.

Definition part_of (b : bat) : list ev :=
  match bstage b with Committing k => if bemptied b then [] else firstn k (bevs b) | _ => [] end.
Definition partial_of (fl : list bat) : list ev := match fl with b :: _ => part_of b | [] => [] end.

Lemma eff_concat_app em l1 : forall i l2,
  eff_concat em i (l1 ++ l2) = eff_concat em i l1 ++ eff_concat em (i + Z.of_nat (length l1)) l2.
Proof.
  induction l1 as [|b r IH]; intros i l2; cbn [eff_concat app length].
  - replace (i + Z.of_nat 0) with i by lia. reflexivity.
  - rewrite IH, <- app_assoc. do 3 f_equal. lia.
Qed.

Lemma eff_concat_ext em em' l : forall i,
  (forall j, i <= j < i + Z.of_nat (length l) -> em j = em' j) -> eff_concat em i l = eff_concat em' i l.
Proof.
  induction l as [|b r IH]; intros i H; cbn [eff_concat]; [reflexivity|].
  rewrite (H i) by (cbn [length]; lia). f_equal. apply IH. intros j Hj. apply H. cbn [length]. lia.
Qed.

Lemma eff_concat_false l : forall i, eff_concat (fun _ => false) i l = concat l.
Proof. induction l as [|b r IH]; intros i; cbn [eff_concat concat]; [reflexivity|]. rewrite IH. reflexivity. Qed.

Lemma firstn_snoc_nth {A} (l : list A) : forall n x, nth_error l n = Some x -> firstn (S n) l = firstn n l ++ [x].
Proof.
  induction l as [|y r IH]; intros [|n] x H; cbn [nth_error] in H; try discriminate.
  - inversion H; subst. reflexivity.
  - cbn [firstn app]. f_equal. rewrite <- IH by exact H. reflexivity.
Qed.

Lemma eff_concat_firstn_S em L k B :
  nth_error L k = Some B ->
  eff_concat em 0 (firstn (S k) L) = eff_concat em 0 (firstn k L) ++ (if em (Z.of_nat k) then [] else B).
Proof.
  intros H. rewrite (firstn_snoc_nth _ _ _ H), eff_concat_app. cbn [eff_concat].
  rewrite firstn_length_le by (apply Nat.lt_le_incl, nth_error_Some; rewrite H; discriminate).
  rewrite app_nil_r. reflexivity.
Qed.

Lemma partial_upd fl q f b0 :
  find_bat fl q = Some b0 -> part_of (f b0) = part_of b0 -> partial_of (upd_bat fl q f) = partial_of fl.
Proof.
  destruct fl as [|x r]; [discriminate|]. cbn [find_bat upd_bat]. intros Hf Hp.
  destruct (bseq x =? q); [|reflexivity]. inversion Hf; subst x. exact Hp.
Qed.

Lemma partial_app fl x : part_of x = [] -> partial_of (fl ++ [x]) = partial_of fl.
Proof. intros Hp. destruct fl as [|y r]; [exact Hp|reflexivity]. Qed.

Lemma part_of_noncommitting b : committing b = false -> part_of b = [].
Proof. unfold committing, part_of. destruct (bstage b); [reflexivity..|discriminate]. Qed.

Lemma partial_noncommitting fl : existsb committing fl = false -> partial_of fl = [].
Proof.
  destruct fl as [|x r]; [reflexivity|]. cbn [existsb partial_of]. intros H. apply orb_false_iff in H.
  apply part_of_noncommitting. exact (proj1 H).
Qed.

Definition inv_shape (c : cfg) (s : st) : Prop :=
  (forall b, In b (flight s) -> bemptied b = emptied c s (bseq b)) /\
  (forall f, In f (failed_hist s) -> fseq f < outSeq s) /\
  rev (committed s) =
    eff_concat (emptied c s) 0 (firstn (Z.to_nat (lo_seq s)) (rev (sealed_hist s))) ++ partial_of (flight s).

Lemma existsb_fseq_In q fh : existsb (fun f => fseq f =? q) fh = true <-> In q (map fseq fh).
Proof.
  rewrite existsb_exists, in_map_iff. split; intros (f & H1 & H2); exists f; split; try assumption; lia.
Qed.

(* moving a batch to another stage does not touch its emptied flag *)
Lemma emptied_upd_stage (E : Z -> bool) fl q g :
  (forall b, In b fl -> bemptied b = E (bseq b)) ->
  forall b, In b (upd_bat fl q (set_stage g)) -> bemptied b = E (bseq b).
Proof. intros J. apply (upd_bat_frame J). intros b0 Hf. exact (J _ (proj1 (find_bat_In _ _ _ Hf))). Qed.

(* a step that only moves a batch between two stages outside the commit section *)
Lemma shape_upd_plain c s s' q g b0 :
  inv_shape c s -> find_bat (flight s) q = Some b0 -> committing b0 = false ->
  match g with Committing _ => False | _ => True end ->
  flight s' = upd_bat (flight s) q (set_stage g) -> commitSeq s' = commitSeq s ->
  sealed_hist s' = sealed_hist s -> outSeq s' = outSeq s -> committed s' = committed s ->
  failed_hist s' = failed_hist s -> inv_shape c s'.
Proof.
  intros (J1 & J2 & J3) Hf Hc Hg Hfl Hcs Hsh Hos Hcm Hfh.
  assert (Hc' : committing (set_stage g b0) = false) by (unfold committing; cbn [bstage set_stage]; destruct g; tauto).
  unfold inv_shape, emptied in *. rewrite (lo_seq_upd _ _ _ _ _ Hf Hfl Hcs), Hfl, Hsh, Hos, Hcm, Hfh by congruence.
  rewrite (partial_upd _ _ _ _ Hf) by (rewrite !part_of_noncommitting by assumption; reflexivity).
  split; [exact (emptied_upd_stage (emptied c s) _ _ _ J1)|split; assumption].
Qed.

Lemma inv_shape_step c s l s' : WF c s -> inv_shape c s -> step c s l = Some s' -> inv_shape c s'.
Proof.
  intros Hwf Hinv H. pose proof (lo_seq_step _ _ _ _ Hwf H) as Hlo. apply step_Step in H.
  destruct H; try exact Hinv;
    (* Take: the batch in the channel is a queued one *)
    try (destruct (wf_queue _ _ Hwf _ Hq) as (b & Hfind & Hst));
    try (eapply (shape_upd_plain c s _ q _ b Hinv Hfind); [unfold committing; rewrite Hst; reflexivity| |reflexivity..];
         exact I);
    destruct Hinv as (J1 & J2 & J3); unfold inv_shape; rewrite Hlo; post_state.
  - (* Seal: the whole batches committed so far end before the new one *)
    pose proof (proj1 (consec_bounds _ _ _ (wf_consec _ _ Hwf))) as Hle.
    pose proof (wf_lo _ _ Hwf) as Hlo0. pose proof (wf_len _ _ Hwf) as Hlen.
    unfold emptied in *. post_state. rewrite partial_app by reflexivity. split; [|split].
    + intros x Hx. in_snoc Hx; [exact (J1 _ Hx)|]. cbn [bemptied bseq]. symmetry. apply andb_false_intro2.
      apply not_true_iff_false. rewrite existsb_fseq_In, in_map_iff. intros (f & E & Hf). specialize (J2 _ Hf). lia.
    + intros f Hf. specialize (J2 _ Hf). lia.
    + cbn [rev]. rewrite firstn_app.
      replace (Z.to_nat _ - length (rev (sealed_hist s)))%nat with O by (rewrite rev_length; lia).
      cbn [firstn]. rewrite app_nil_r. exact J3.
  - (* CommitBegin: one more batch counts as inside, none of its events yet *)
    rewrite (partial_upd _ _ _ _ Hfind).
    2:{ unfold part_of. cbn [bstage set_stage bemptied]. destruct Hready as [E|[E _]]; rewrite E; destruct (bemptied b); reflexivity. }
    split; [exact (emptied_upd_stage (emptied c s) _ _ _ J1)|split; assumption].
  - (* CommitEv: one more event of the oldest batch *)
    destruct (committing_bat_Some _ _ Hcb) as [Hin Hcm].
    destruct (wf_committing_head _ _ _ Hwf Hin Hcm) as [r Hfl].
    split; [exact (emptied_upd_stage (emptied c s) _ _ _ J1)|split; [exact J2|]].
    change (emptied c _) with (emptied c s).
    rewrite Hfl in *. cbn [upd_bat]. rewrite Z.eqb_refl. cbn [partial_of] in *.
    cbn [rev]. rewrite J3, <- app_assoc. f_equal. unfold part_of. cbn [bstage set_stage bemptied bevs].
    rewrite Hst, Hfull. symmetry. apply firstn_snoc_nth. exact Hnth.
  - (* CommitEnd: the oldest batch is whole *)
    destruct (wf_commit_end _ _ _ _ _ Hwf Hfind Hst) as (r & Hfl & Hdel & Hexr & Hb).
    pose proof (proj1 (find_bat_In _ _ _ Hfind)) as Hin. pose proof (wf_lo _ _ Hwf) as Hlo0.
    pose proof (wf_evs _ _ Hwf _ Hin) as Hevs. rewrite Hb in Hevs.
    rewrite Hdel. split; [|split; [exact J2|]].
    + intros x Hx. apply (J1 x). rewrite Hfl. right. exact Hx.
    + change (emptied c _) with (emptied c s). replace (Z.to_nat (lo_seq s + 1)) with (S (Z.to_nat (lo_seq s))) by lia.
      rewrite (eff_concat_firstn_S _ _ _ _ Hevs), (partial_noncommitting _ Hexr), app_nil_r, J3, Hfl, Z2Nat.id, <- Hb, <- (J1 _ Hin)
        by exact Hlo0.
      cbn [partial_of]. f_equal. unfold part_of. rewrite Hst. destruct (bemptied b); [reflexivity|].
      replace k with (length (bevs b)) by lia. apply firstn_all.
  - (* RetryGiveUp: a record for a batch that is not among the whole ones *)
    destruct (find_bat_In _ _ _ Hfind) as [Hin Hseq].
    pose proof (consec_bounds _ _ _ (wf_consec _ _ Hwf)) as [Hle Hbd]. specialize (Hbd _ (in_map bseq _ _ Hin)).
    pose proof (wf_lo _ _ Hwf) as Hlo0. rewrite Hseq in Hbd.
    assert (Hem : forall j, emptied c (log_failed (q, t, stopbo, bevs b) s) j = deadq c && (q =? j) || emptied c s j).
    { intros j. apply andb_orb_distrib_r. }
    change (emptied c _) with (emptied c (log_failed (q, t, stopbo, bevs b) s)). split; [|split].
    + intros x Hx. rewrite Hem. destruct (In_upd_bat_strong _ _ _ _ _ _ _ (wf_consec _ _ Hwf) Hfind Hx) as [[Hx1 Hne]| ->].
      * rewrite (proj2 (Z.eqb_neq q (bseq x))), andb_false_r by congruence. exact (J1 _ Hx1).
      * cbn [bemptied bseq]. rewrite Hseq, Z.eqb_refl, andb_true_r. unfold emptied. destruct (deadq c); reflexivity.
    + intros f [<-|Hf]; [exact (proj2 Hbd)|exact (J2 _ Hf)].
    + rewrite (partial_upd _ _ _ _ Hfind) by (unfold part_of; cbn [bstage]; rewrite Hst; reflexivity).
      rewrite J3. f_equal. apply eff_concat_ext. intros j Hj. rewrite Hem.
      pose proof (firstn_le_length (Z.to_nat (lo_seq s)) (rev (sealed_hist s))) as Hl.
      rewrite (proj2 (Z.eqb_neq q j)), andb_false_r by (clear - Hbd Hj Hl Hlo0; lia). reflexivity.
Qed.

Lemma inv_shape_init c : inv_shape c (init c).
Proof. split; [|split]; cbn; intros; try contradiction. reflexivity. Qed.

Lemma shape_reach c ls s : run c (init c) ls = Some s -> inv_shape c s.
Proof. exact (run_invariant_wf c (inv_shape c) (inv_shape_step c) (inv_shape_init c) ls s). Qed.

(* the general form: k whole batches (k = lo_seq s), given-up ones skipped when there is a dead queue,
   then the first j events of batch k (the one inside its commit section, if any) *)
Lemma committed_shape c ls s :
  run c (init c) ls = Some s ->
  exists j,
    rev (committed s) =
      eff_concat (emptied c s) 0 (firstn (Z.to_nat (lo_seq s)) (rev (sealed_hist s))) ++
      firstn j (if emptied c s (lo_seq s) then [] else nth (Z.to_nat (lo_seq s)) (rev (sealed_hist s)) []).
Proof.
  intros Hr. pose proof (wf_reach _ _ _ Hr) as Hwf. destruct (shape_reach _ _ _ Hr) as (J1 & J2 & J3).
  rewrite J3. destruct (flight s) as [|b r] eqn:Hfl; cbn [partial_of]; [exists O; reflexivity|].
  assert (Hin : In b (flight s)) by (rewrite Hfl; left; reflexivity). rewrite <- Hfl in J1.
  unfold part_of. destruct (bstage b) as [| | | | |k] eqn:Est; try (exists O; reflexivity).
  assert (Hcm : committing b = true) by (unfold committing; rewrite Est; reflexivity).
  rewrite <- (wf_cmt _ _ Hwf _ Hin Hcm), <- (J1 _ Hin). exists k. f_equal.
  destruct (bemptied b); [rewrite firstn_nil; reflexivity|].
  rewrite (nth_error_nth _ _ _ (wf_evs _ _ Hwf _ Hin)). reflexivity.
Qed.

(* non-retriable frame: nothing is ever given up *)
Definition inv_plain (s : st) : Prop :=
  failed_hist s = [] /\ forall b t ph, In b (flight s) -> bstage b = Sending t ph -> ph = PIdle.

Lemma inv_plain_step c s l s' : retriable c = false -> inv_plain s -> step c s l = Some s' -> inv_plain s'.
Proof.
  intros Hret [P1 P2] H. apply step_Step in H.
  destruct H; unfold inv_plain; post_state; try (split; assumption); try congruence;
    (* a batch moves to a stage outside OutFn, or to its entry *)
    try (split; [exact P1|]; intros x tx phx Hx Hs; in_upd Hx; [exact (P2 _ _ _ Hx Hs)|];
         cbn [bstage set_stage] in Hs; congruence).
  - (* Seal *) split; [exact P1|]. intros x tx phx Hx Hs. in_snoc Hx; [exact (P2 _ _ _ Hx Hs)|discriminate Hs].
  - (* CommitEnd *) split; [exact P1|]. intros x tx phx Hx. exact (P2 x tx phx (In_del_bat _ _ _ Hx)).
  - (* RetryResult *) discriminate (P2 _ _ _ (proj1 (find_bat_In _ _ _ Hfind)) Hst).
  - (* RetryGiveUp *) discriminate (P2 _ _ _ (proj1 (find_bat_In _ _ _ Hfind)) Hst).
Qed.

Lemma inv_plain_init c : inv_plain (init c).
Proof. split; cbn; [reflexivity|intros; contradiction]. Qed.

Lemma inv_plain_reach c ls s : retriable c = false -> run c (init c) ls = Some s -> inv_plain s.
Proof.
  intros Hret. exact (run_invariant c inv_plain (fun s0 l s1 Hp => inv_plain_step c s0 l s1 Hret Hp) ls _ _ (inv_plain_init c)).
Qed.

Lemma plain_reach c ls s : retriable c = false -> run c (init c) ls = Some s -> failed_hist s = [].
Proof. intros Hret Hr. exact (proj1 (inv_plain_reach c ls s Hret Hr)). Qed.

Lemma committed_shape_plain c ls s :
  (retriable c = false \/ deadq c = false) -> run c (init c) ls = Some s ->
  exists j,
    rev (committed s) =
      concat (firstn (Z.to_nat (lo_seq s)) (rev (sealed_hist s))) ++
      firstn j (nth (Z.to_nat (lo_seq s)) (rev (sealed_hist s)) []).
Proof.
  intros Hc Hr. destruct (committed_shape _ _ _ Hr) as [j Hj]. exists j.
  assert (Hem : forall q, emptied c s q = false).
  { intros q. unfold emptied. destruct Hc as [Hc|Hc]; [rewrite (plain_reach _ _ _ Hc Hr), andb_false_r|rewrite Hc]; reflexivity. }
  rewrite Hem in Hj. rewrite Hj. f_equal.
  rewrite <- (eff_concat_false _ 0). apply eff_concat_ext. intros; apply Hem.
Qed.

Lemma concat_split_prefix (L : list (list ev)) : forall k j,
  exists rest, concat L = concat (firstn k L) ++ firstn j (nth k L []) ++ rest.
Proof.
  induction L as [|B L' IH]; intros k j.
  - exists []. destruct k; cbn; rewrite firstn_nil; reflexivity.
  - destruct k as [|k]; cbn [firstn nth concat app].
    + exists (skipn j B ++ concat L'). rewrite app_assoc, firstn_skipn. reflexivity.
    + destruct (IH k j) as [rest Hrest]. exists rest. rewrite Hrest, <- app_assoc. reflexivity.
Qed.

Lemma committed_prefix_of_added c ls s :
  (retriable c = false \/ deadq c = false) -> run c (init c) ls = Some s ->
  exists rest, rev (added s) = rev (committed s) ++ rest.
Proof.
  intros Hc Hr. destruct (committed_shape_plain _ _ _ Hc Hr) as [j Hj].
  rewrite (added_is_sealed_plus_current _ _ _ Hr), Hj.
  destruct (concat_split_prefix (rev (sealed_hist s)) (Z.to_nat (lo_seq s)) j) as [rest Hrest].
  exists (rest ++ rev (cur_list s)). rewrite Hrest, <- !app_assoc. reflexivity.
Qed.

(* nothing in flight: every sealed batch is among the whole ones *)
Lemma lo_seq_quiescent c s : WF c s -> flight s = [] -> Z.to_nat (lo_seq s) = length (rev (sealed_hist s)).
Proof.
  intros Hwf Hfl. pose proof (wf_consec _ _ Hwf) as Hcs. rewrite Hfl in Hcs. cbn [map consec] in Hcs.
  rewrite rev_length. pose proof (wf_len _ _ Hwf). lia.
Qed.

Lemma exactly_once_at_quiescence c ls s :
  (retriable c = false \/ deadq c = false) -> run c (init c) ls = Some s ->
  flight s = [] -> cur_list s = [] -> rev (committed s) = rev (added s).
Proof.
  intros Hc Hr Hfl Hcu. destruct (committed_shape_plain _ _ _ Hc Hr) as [j Hj].
  rewrite (added_is_sealed_plus_current _ _ _ Hr), Hcu, Hj, (lo_seq_quiescent c s (wf_reach _ _ _ Hr) Hfl).
  rewrite firstn_all, nth_overflow, firstn_nil by lia. reflexivity.
Qed.

(* dead queue: the batch inside its commit section when an event is committed was not given up *)
Lemma deadqueue_no_commit_event c ls s e s' :
  deadq c = true -> run c (init c) ls = Some s -> step c s (LCommitEv e) = Some s' ->
  exists b, committing_bat (flight s) = Some b /\ ~ In (bseq b) (map fseq (failed_hist s)).
Proof.
  intros Hdq Hr H. destruct (shape_reach _ _ _ Hr) as (J1 & _ & _). step_inv H.
  exists b. split; [assumption|]. rewrite (J1 _ (proj1 (committing_bat_Some _ _ Hcb))) in Hfull.
  unfold emptied in Hfull. rewrite Hdq in Hfull. cbn [andb] in Hfull. rewrite <- existsb_fseq_In, Hfull. discriminate.
Qed.

(* ... and the length announced by the CommitBegin of a given-up batch is 0 *)
Lemma deadqueue_commit_begin_zero c ls s q n s' :
  deadq c = true -> run c (init c) ls = Some s -> step c s (LCommitBegin q n) = Some s' ->
  In q (map fseq (failed_hist s)) -> n = 0.
Proof.
  intros Hdq Hr H Hq. destruct (shape_reach _ _ _ Hr) as (J1 & _ & _). step_inv H.
  destruct (find_bat_In _ _ _ Hfind) as [Hin Hseq]. rewrite (J1 _ Hin), Hseq. unfold emptied.
  rewrite Hdq, (proj2 (existsb_fseq_In _ _) Hq). reflexivity.
Qed.

(* corollaries in the form Properties/C08.v and C09.v quote them *)

Lemma batch_bounds_count c ls s :
  0 < maxCount c -> 0 <= maxBytes c -> run c (init c) ls = Some s ->
  forall b, In b (sealed_hist s) -> 0 < Z.of_nat (length b) <= maxCount c.
Proof.
  intros Hc Hb Hr b Hin. pose proof (batch_bounds c ls s (Z.lt_le_incl _ _ Hc) Hb Hr b Hin) as Hok.
  split; [|exact (batch_ok_count _ _ Hok Hc)]. destruct Hok as [Hne _]. destruct b; [contradiction|cbn [length]; lia].
Qed.

Lemma batch_bounds_bytes c ls s :
  0 <= maxCount c -> 0 < maxBytes c -> run c (init c) ls = Some s ->
  forall b, In b (sealed_hist s) ->
    bytes_of b < maxBytes c \/ exists b0 e, b = b0 ++ [e] /\ bytes_of b0 < maxBytes c.
Proof.
  intros Hc Hb Hr b Hin. exact (batch_ok_bytes _ _ (batch_bounds c ls s Hc (Z.lt_le_incl _ _ Hb) Hr b Hin) Hb).
Qed.

Lemma stop_no_unsent_commit c ls s :
  run c (init c) ls = Some s -> stopped s = true ->
  forall q evs, In q (commit_batches s) -> nth_error (rev (sealed_hist s)) (Z.to_nat q) = Some evs ->
                has_iter evs = true -> In q (sent_hist s).
Proof. intros Hr _. exact (commit_after_own_send c ls s Hr). Qed.

Lemma never_given_up_when_retry_negative c ls s :
  retry c < 0 -> run c (init c) ls = Some s ->
  forall q t stopbo evs, In (q, t, stopbo, evs) (failed_hist s) -> stopbo = true.
Proof.
  intros Hneg Hr q t stopbo evs Hin. destruct stopbo; [reflexivity|].
  destruct (retries_at_least c ls s Hr _ _ _ Hin) as [H0 _]. lia.
Qed.

Lemma giveup_once_entries c ls s :
  run c (init c) ls = Some s ->
  forall f1 f2, In f1 (failed_hist s) -> In f2 (failed_hist s) -> fseq f1 = fseq f2 -> f1 = f2.
Proof.
  intros Hr. pose proof (giveup_once c ls s Hr) as Hnd. induction (failed_hist s) as [|f r IH]; [intros ? ? []|].
  cbn [map] in Hnd. inversion Hnd as [|? ? Hnin Hnd']; subst. intros f1 f2 [<-|H1] [<-|H2] Heq.
  - reflexivity.
  - exfalso. apply Hnin. rewrite Heq. exact (in_map fseq _ _ H2).
  - exfalso. apply Hnin. rewrite <- Heq. exact (in_map fseq _ _ H1).
  - exact (IH Hnd' _ _ H1 H2 Heq).
Qed.

(* C01: a commit of an event implies that the output acknowledged it *)
(* the send of batch q was acknowledged - plain batcher: its OutFn returned (it cannot fail); retry frame: a call of outFn
   returned success.  A give-up is NOT an acknowledgement, whatever its cause (attempts used up or backoff.Stop with attempts
   remaining / unlimited): with a dead queue the events belong to the dead queue from then on and this batcher commits none of
   them; without one the batch is the output's reported loss (onRetryError ran), and is committed as such. *)
Lemma commit_event_acknowledged c ls s e s' :
  run c (init c) ls = Some s -> step c s (LCommitEv e) = Some s' ->
  exists b k, committing_bat (flight s) = Some b /\ bstage b = Committing k /\ nth_error (bevs b) k = Some e /\
              (has_iter (bevs b) = true ->
                 (if retriable c then exists t, In (bseq b, t, true) (result_hist s) else In (bseq b) (sent_hist s)) \/
                 (retriable c = true /\ deadq c = false /\ In (bseq b) (map fseq (failed_hist s)))).
Proof.
  intros Hr H. pose proof H as H0. step_inv H. destruct (committing_bat_Some _ _ Hcb) as [Hin Hcm].
  exists b, k. split; [assumption|]. split; [assumption|]. split; [assumption|]. intros Hi.
  pose proof (proj1 (sent_reach c ls s Hr)) as S1.
  destruct (retriable c) eqn:Hret.
  - destruct (settled_reach c ls s Hret Hr) as [_ I2].
    destruct (I2 _ (S1 _ Hin (or_intror (conj Hcm Hi)))) as [Hok|Hf]; [left; exact Hok|].
    right. split; [reflexivity|split; [|exact Hf]].
    destruct (deadq c) eqn:Hdq; [|reflexivity].
    destruct (deadqueue_no_commit_event c ls s e _ Hdq Hr H0) as (b1 & Hb1 & Hn).
    rewrite Hcb in Hb1. injection Hb1 as <-. destruct (Hn Hf).
  - left. exact (S1 _ Hin (or_intror (conj Hcm Hi))).
Qed.

(* hence: with a dead queue, a batch the retry loop gave up - for EITHER cause - commits nothing, and whatever is committed
   was acknowledged by this output *)
Lemma deadqueue_commit_event_acknowledged c ls s e s' :
  retriable c = true -> deadq c = true -> run c (init c) ls = Some s -> step c s (LCommitEv e) = Some s' ->
  exists b, committing_bat (flight s) = Some b /\ In e (bevs b) /\ ~ In (bseq b) (map fseq (failed_hist s)) /\
            (has_iter (bevs b) = true -> exists t, In (bseq b, t, true) (result_hist s)).
Proof.
  intros Hret Hdq Hr H. destruct (commit_event_acknowledged c ls s e s' Hr H) as (b & k & Hb & _ & Hn & Ha).
  destruct (deadqueue_no_commit_event c ls s e s' Hdq Hr H) as (b1 & Hb1 & Hnf).
  rewrite Hb in Hb1. inversion Hb1; subst b1. exists b. split; [exact Hb|]. split; [exact (nth_error_In _ _ Hn)|].
  split; [exact Hnf|]. intros Hi. destruct (Ha Hi) as [Hk|(_ & Hd & _)].
  - rewrite Hret in Hk. exact Hk.
  - congruence.
Qed.

(* a give-up by backoff.Stop on the FIRST failure with attempts remaining (retry 3) and a dead queue: accepted by the LTS, the
   batch comes back from Out empty (OutEnd 0 / status 3; the kept batch - OutEnd 1 / status 1 - is rejected), its commit section
   commits nothing (CommitEv rejected) *)
Definition cfg_stop_dq : cfg :=
  {| workers := 1; maxCount := 1; maxBytes := 0; retriable := true; retry := 3; deadq := true; atomic_push := true |}.
Definition stop_giveup_run : list label :=
  [LFree; LAdd ev1; LSeal 0 1 1 1; LPush 0; LTake 0; LOutBegin 0 1; LRetryCall 0 0; LRetryResult 0 0 false;
   LRetryGiveUp 0 0 1 true true].
Lemma giveup_by_stop_nonvacuous :
  (exists s, run cfg_stop_dq (init cfg_stop_dq) (stop_giveup_run ++ [LOutEnd 0 0 3; LCommitBegin 0 0]) = Some s /\
             failed_hist s = [(0, 0, true, [ev1])] /\ step cfg_stop_dq s (LCommitEv ev1) = None /\
             exists s', step cfg_stop_dq s (LCommitEnd 0 3) = Some s' /\ committed s' = [] /\ flight s' = []) /\
  run cfg_stop_dq (init cfg_stop_dq) (stop_giveup_run ++ [LOutEnd 0 1 1]) = None /\
  run cfg_stop_dq (init cfg_stop_dq) (stop_giveup_run ++ [LOutEnd 0 0 3; LCommitBegin 0 1]) = None.
Proof.
  split; [|split; vm_compute; reflexivity].
  eexists. split; [vm_compute; reflexivity|]. split; [reflexivity|]. split; [vm_compute; reflexivity|].
  eexists. split; [vm_compute; reflexivity|]. split; reflexivity.
Qed.
