(* Proofs about the histories with maintenance of Model/Worker.v (h_pass, h_maint, h_step, h_run).
   [consumed]: the job has [reached] (Proofs/Worker.v) its state by consuming a prefix of what the file holds behind the
   start offset; it survives an append, and a pass makes the prefix everything. The invariant [HInv] says that this holds
   after ANY history of appends, worker passes, maintenance ticks and renames; the theorems read off what [reached] says.
   Then the compressed (lz4) jobs; last, outside the section, the exact form without size limit ([hist_offsets_exact]) and
   the boolean relations of the history predicate ([hist_pred_holds]). *)
From Verif Require Import Base.Sx Base.GoSem Model.Worker Proofs.GoSemFacts Proofs.ListFacts Proofs.Worker.
From Coq Require Import Lia ZifyBool.

(* the pieces a pass reads concatenate to what is behind the read position *)
Definition rd_sound (rd : nat -> bytes -> list bytes) : Prop := forall n b, concat (rd n b) = b.

Lemma chunk_go_concat n : (0 < n)%nat -> forall b k rc, (0 < k)%nat ->
  concat (chunk_go n k rc b) = rev rc ++ b.
Proof.
  intros Hn. induction b as [|x b IH]; intros k rc Hk.
  - cbn [chunk_go]. destruct rc as [|y rc]; [reflexivity|].
    cbn [concat]. rewrite rev_fast_rev. reflexivity.
  - destruct k as [|[|k']]; cbn [chunk_go]; [lia| |].
    + cbn [concat]. rewrite rev_fast_rev, (IH n [] Hn). cbn [rev app]. rewrite <- app_assoc. reflexivity.
    + rewrite IH by lia. cbn [rev]. rewrite <- app_assoc. reflexivity.
Qed.

(* the read shape of an os.File (bufsz-sized pieces + remainder) is one sound way to read *)
Theorem chunks_concat n b : (0 < n)%nat -> concat (chunks n b) = b.
Proof. intros Hn. apply (chunk_go_concat n Hn b n []). exact Hn. Qed.

Lemma take_drop k (b : bytes) : take k b ++ drop k b = b.
Proof. apply firstn_skipn. Qed.

Lemma len_take k (b : bytes) : 0 <= k <= len b -> len (take k b) = k.
Proof. intros H. unfold take. rewrite len_firstn. lia. Qed.

Lemma len_drop k (b : bytes) : 0 <= k <= len b -> len (drop k b) = len b - k.
Proof. intros H. unfold drop. rewrite len_skipn. lia. Qed.

Lemma take_len (b : bytes) : take (len b) b = b.
Proof. apply firstn_len. Qed.

Lemma take_app_len (b rest : bytes) : take (len b) (b ++ rest) = b.
Proof. apply firstn_len_app. Qed.

Lemma drop_app_le k (f a : bytes) : 0 <= k <= len f -> drop k (f ++ a) = drop k f ++ a.
Proof.
  intros H. unfold drop. rewrite skipn_app.
  replace (Z.to_nat k - length f)%nat with 0%nat by (unfold len in *; lia). reflexivity.
Qed.

Lemma take_app_ge k (f a : bytes) : len f <= k -> take k (f ++ a) = f ++ take (k - len f) a.
Proof.
  intros H. unfold take. rewrite firstn_app, firstn_all2 by (unfold len in *; lia).
  do 2 f_equal. unfold len. lia.
Qed.

Lemma drop_app_ge k (f a : bytes) : len f <= k -> drop k (f ++ a) = drop (k - len f) a.
Proof.
  intros H. unfold drop. rewrite skipn_app, skipn_all2 by (unfold len in *; lia).
  cbn [app]. f_equal. unfold len. lia.
Qed.

Lemma drop_split o (f b rest : bytes) : 0 <= o -> drop o f = b ++ rest -> drop (o + len b) f = rest.
Proof.
  unfold drop. intros Ho H.
  pose proof (len_nonneg b). rewrite Z2Nat.inj_add, <- skipn_plus, H by lia. apply skipn_len_app.
Qed.

Lemma drop_beyond k (b : bytes) : len b <= k -> drop k b = [].
Proof. intros H. apply skipn_all2. unfold len in *. lia. Qed.

Lemma appended_app ops1 ops2 : appended (ops1 ++ ops2) = appended ops1 ++ appended ops2.
Proof.
  induction ops1 as [|op r IH]; [reflexivity|].
  destruct op; cbn [app appended]; rewrite IH; try reflexivity. apply app_assoc.
Qed.

Lemma h_run_app c rd ops1 : forall hs ops2,
  h_run c rd hs (ops1 ++ ops2) =
  let '(e1, h1) := h_run c rd hs ops1 in let '(e2, h2) := h_run c rd h1 ops2 in (e1 ++ e2, h2).
Proof.
  induction ops1 as [|op r IH]; intros hs ops2; cbn [app h_run].
  - destruct (h_run c rd hs ops2). reflexivity.
  - destruct (h_step c rd op hs) as [[x e0] h0]. rewrite IH.
    destruct (h_run c rd h0 r) as [e1 h1]. destruct (h_run c rd h1 ops2) as [e2 h2].
    rewrite app_assoc. reflexivity.
Qed.

(* histories in which the writer never truncates the file *)
Definition no_trunc (ops : list hop) : Prop :=
  Forall (fun op => match op with HTrunc _ => False | _ => True end) ops.

(* a write notification on a file that was not truncated below the read position is a plain pass *)
Theorem notify_is_pass c rd hs n : cur (h_job hs) <= len (h_file hs) ->
  h_step c rd (HNotify n) hs = h_step c rd (HPass n) hs.
Proof.
  intros H. cbn [h_step]. unfold h_untrunc.
  replace (cur (h_job hs) >? len (h_file hs)) with false by lia. reflexivity.
Qed.

(* what a step without truncation does to the job and the file: it leaves the job alone (an append, a rename, a tick or
   notification that finds nothing to do, anything on a deleted job), or it is a worker pass *)
Lemma h_step_shape c rd op hs : cur (h_job hs) <= len (h_file hs) ->
  match op with HTrunc _ => False | _ => True end ->
  let '(_, es, hs') := h_step c rd op hs in
  (es = [] /\ h_job hs' = h_job hs /\ h_file hs' = h_file hs ++ appended [op])
  \/ (appended [op] = [] /\ exists n, h_pass c rd n hs = (es, hs')).
Proof.
  intros Hle Hop.
  destruct op as [a|n|n|k| |n|n]; [| | |contradiction| |rewrite (notify_is_pass c rd hs n Hle)|];
    cbn [h_step appended]; rewrite app_nil_r; try (destruct (h_deleted hs); [now left|]).
  - now left.
  - destruct (h_pass c rd n hs) as [es hs'] eqn:Hp. right. eauto.
  - unfold h_maint. destruct (negb (h_done hs)); [now left|].
    destruct (negb (len (h_file hs) =? cur (h_job hs))).
    + destruct (h_pass c rd n hs) as [es hs'] eqn:Hp. right. eauto.
    + destruct (h_moved hs); now left.
  - now left.
  - destruct (h_pass c rd n hs) as [es hs'] eqn:Hp. right. eauto.
  - unfold h_maint_exp. destruct (negb (h_done hs)); [now left|].
    destruct (negb (len (h_file hs) =? cur (h_job hs))); [|now left].
    destruct (h_pass c rd n hs) as [es hs'] eqn:Hp. right. eauto.
Qed.

(* a job started at offset [o] of a file, in state [st], has consumed a prefix [b] of what [file] holds behind [o];
   [rest] is written but not read yet *)
Definition consumed c o sk0 (file : bytes) (E : list emit) (st : wst) : Prop :=
  0 <= o <= len file /\ exists b rest, drop o file = b ++ rest /\ reached c o sk0 b E st.

Lemma consumed_start c o sk0 file : 0 <= o <= len file -> consumed c o sk0 file [] (st_at o sk0).
Proof. intros H. split; [exact H|]. exists [], (drop o file). split; [reflexivity|apply reached_start]. Qed.

(* the prefix consumed is determined by the position: the first cur st - o bytes behind o *)
Lemma consumed_final c o sk0 file E st : consumed c o sk0 file E st ->
  let b := take (cur st - o) (drop o file) in reached c o sk0 b E st /\ o <= cur st <= len file.
Proof.
  intros (Ho & b & rest & Hd & R). pose proof R as (_ & Hc & _).
  assert (Hlen : len file - o = len b + len rest).
  { rewrite <- (len_drop o file) by lia. rewrite Hd. apply len_app. }
  cbv zeta. replace (cur st - o) with (len b) by lia. rewrite Hd, take_app_len.
  split; [exact R|]. pose proof (len_nonneg b). pose proof (len_nonneg rest). lia.
Qed.

Lemma consumed_app c o sk0 file a E st : consumed c o sk0 file E st -> consumed c o sk0 (file ++ a) E st.
Proof.
  intros (Ho & b & rest & Hd & R). unfold consumed. rewrite len_app. pose proof (len_nonneg a).
  split; [lia|]. exists b, (rest ++ a). split; [|exact R].
  rewrite drop_app_le, Hd by exact Ho. symmetry. apply app_assoc.
Qed.

(* a pass reads everything the file holds behind the position *)
Lemma consumed_pass c o sk0 file E st reads : 0 <= wmax c -> consumed c o sk0 file E st ->
  concat reads = drop (cur st) file ->
  let '(es, st1) := round c st reads in
  consumed c o sk0 file (E ++ es) st1 /\ reached c o sk0 (drop o file) (E ++ es) st1 /\ cur st1 = len file.
Proof.
  intros Hm (Ho & b & rest & Hd & R) Hr. pose proof R as (_ & Hc & _).
  rewrite Hc, (drop_split o _ b rest (proj1 Ho) Hd) in Hr.
  apply (reached_round c o sk0 b E st reads Hm) in R. rewrite Hr, <- Hd in R.
  destruct (round c st reads) as [es st1].
  split; [split; [exact Ho|]; exists (drop o file), []; split; [symmetry; apply app_nil_r|exact R]|].
  split; [exact R|]. destruct R as (_ & -> & _). rewrite len_drop; lia.
Qed.

Section Hist.
Variable c : wcfg.
Variable rd : nat -> bytes -> list bytes.
Hypothesis Hm : 0 <= wmax c.
Hypothesis Hrd : rd_sound rd.
Variable o : Z.            (* the job's start offset *)
Variable sk0 : bool.       (* its initial shouldSkip *)

Definition HInv (E : list emit) (hs : hst) : Prop := consumed c o sk0 (h_file hs) E (h_job hs).

(* a worker pass: the truncation branch is not taken *)
Lemma h_pass_inv E hs n es hs' : HInv E hs -> h_pass c rd n hs = (es, hs') ->
  HInv (E ++ es) hs' /\ h_file hs' = h_file hs /\ cur (h_job hs') = len (h_file hs') /\ h_done hs' = true.
Proof.
  intros HI Hp. unfold h_pass in Hp.
  generalize (consumed_pass c o sk0 _ E _ _ Hm HI (Hrd n (drop (cur (h_job hs)) (h_file hs)))).
  destruct (round c (h_job hs) _) as [es1 st1]. intros (HI1 & _ & Hpos).
  replace (cur st1 >? len (h_file hs)) with false in Hp by lia.
  injection Hp as <- <-. split; [exact HI1|repeat split; exact Hpos].
Qed.

Lemma h_step_inv E hs op : HInv E hs -> match op with HTrunc _ => False | _ => True end ->
  let '(_, es, hs') := h_step c rd op hs in
  HInv (E ++ es) hs' /\ h_file hs' = h_file hs ++ appended [op].
Proof.
  intros HI Hop. generalize (h_step_shape c rd op hs (proj2 (proj2 (consumed_final _ _ _ _ _ _ HI))) Hop).
  destruct (h_step c rd op hs) as [[r es] hs']. intros [(-> & Hj & Hf)|(Ha & n & Hp)].
  - rewrite app_nil_r. split; [|exact Hf]. unfold HInv. rewrite Hj, Hf. apply consumed_app, HI.
  - rewrite Ha, app_nil_r. destruct (h_pass_inv E hs n es hs' HI Hp) as (H1 & H2 & _). split; assumption.
Qed.

Lemma h_run_inv : forall ops E0 hs, HInv E0 hs -> no_trunc ops ->
  let '(E, hs') := h_run c rd hs ops in HInv (E0 ++ E) hs' /\ h_file hs' = h_file hs ++ appended ops.
Proof.
  induction ops as [|op r IH]; intros E0 hs HI Hn; cbn [h_run].
  - cbn [appended]. rewrite !app_nil_r. split; [exact HI|reflexivity].
  - inversion Hn as [|x l Hop Hr]; subst x l.
    generalize (h_step_inv E0 hs op HI Hop). destruct (h_step c rd op hs) as [[x e1] h1]. intros [HI1 Hf1].
    generalize (IH _ _ HI1 Hr). destruct (h_run c rd h1 r) as [e2 h2]. intros [HI2 Hf2].
    split; [rewrite app_assoc; exact HI2|].
    rewrite Hf2, Hf1. change (op :: r) with ([op] ++ r). rewrite appended_app. symmetry. apply app_assoc.
Qed.

Definition h_start (fc0 : bytes) (d0 : bool) : hst :=
  {| h_job := st_at o sk0; h_done := d0; h_deleted := false; h_moved := false; h_file := fc0 |}.

Lemma h_run_start fc0 d0 ops : 0 <= o <= len fc0 -> no_trunc ops ->
  let '(E, hs) := h_run c rd (h_start fc0 d0) ops in HInv E hs /\ h_file hs = fc0 ++ appended ops.
Proof. intros Ho Hn. exact (h_run_inv ops [] (h_start fc0 d0) (consumed_start c o sk0 fc0 Ho) Hn). Qed.

(* after ANY history of appends, passes, ticks and renames: what was delivered is the spec of the bytes consumed,
   the position is the number of bytes consumed, the tail is the unterminated remainder of the bytes consumed *)
Theorem hist_general fc0 d0 ops : 0 <= o <= len fc0 -> no_trunc ops ->
  let '(E, hs) := h_run c rd (h_start fc0 d0) ops in
  let b := take (cur (h_job hs) - o) (drop o (h_file hs)) in
  h_file hs = fc0 ++ appended ops
  /\ o <= cur (h_job hs) <= len (h_file hs)
  /\ Forall2 (emitR c) E (spec_emits c sk0 o b)
  /\ skip (h_job hs) = sk0 && negb (has_line b)
  /\ accR c (snd (split_lines b)) (tail (h_job hs)).
Proof.
  intros Ho Hn. generalize (h_run_start fc0 d0 ops Ho Hn).
  destruct (h_run c rd (h_start fc0 d0) ops) as [E hs]. intros [HI Hf].
  destruct (consumed_final _ _ _ _ _ _ HI) as [(HF & _ & Hs & Ha) Hb]. repeat split; try assumption; apply Hb.
Qed.

(* everything written, [F], is read: what is handed over is [spec_emits] of F behind o (its lines but the first in tail
   mode and those over max_event_size without cut-off), the tail is its unterminated remainder *)
Definition read_all (F : bytes) (E : list emit) (hs : hst) : Prop :=
  let b := drop o F in
  h_file hs = F
  /\ cur (h_job hs) = len F
  /\ Forall2 (emitR c) E (spec_emits c sk0 o b)
  /\ skip (h_job hs) = sk0 && negb (has_line b)
  /\ accR c (snd (split_lines b)) (tail (h_job hs)).

Lemma HInv_read_all E hs F : HInv E hs -> h_file hs = F -> cur (h_job hs) = len (h_file hs) -> read_all F E hs.
Proof.
  intros HI Hf Hc. pose proof (consumed_final _ _ _ _ _ _ HI) as [(HF & _ & Hs & Ha) _]. cbv zeta in *.
  destruct HI as [Ho _]. rewrite Hc, <- len_drop, take_len, Hf in * by exact Ho.
  repeat split; assumption.
Qed.

(* a history that ends with a worker pass: every line written at any time that [spec_emits] keeps is delivered once,
   whole, in order, with its end offset; ticks anywhere in between change nothing *)
Theorem hist_every_line_once fc0 d0 ops n : 0 <= o <= len fc0 -> no_trunc ops ->
  let '(E, hs) := h_run c rd (h_start fc0 d0) (ops ++ [HPass n]) in
  h_deleted hs = false -> read_all (fc0 ++ appended ops) E hs.
Proof.
  intros Ho Hn. rewrite h_run_app. generalize (h_run_start fc0 d0 ops Ho Hn).
  destruct (h_run c rd (h_start fc0 d0) ops) as [E1 h1]. intros [HI Hf].
  cbn [h_run h_step]. destruct (h_deleted h1) eqn:Hdel.
  - intros Hx. congruence.
  - destruct (h_pass c rd n h1) as [es h2] eqn:Hp. rewrite app_nil_r. intros _.
    destruct (h_pass_inv E1 h1 n es h2 HI Hp) as (HI2 & Hf2 & Hc2 & _).
    apply HInv_read_all; [exact HI2|congruence|exact Hc2].
Qed.

(* the same when the last reader is a maintenance tick on an idle (done) job: it resumes the job when the file
   grew, so nothing written stays unread behind an idle job that still exists *)
Theorem hist_tick_reads_all fc0 d0 ops n : 0 <= o <= len fc0 -> no_trunc ops ->
  h_done (snd (h_run c rd (h_start fc0 d0) ops)) = true ->
  let '(E, hs) := h_run c rd (h_start fc0 d0) (ops ++ [HMaint n]) in
  h_deleted hs = false -> read_all (fc0 ++ appended ops) E hs.
Proof.
  intros Ho Hn. rewrite h_run_app. generalize (h_run_start fc0 d0 ops Ho Hn).
  destruct (h_run c rd (h_start fc0 d0) ops) as [E1 h1]. intros [HI Hf] Hdone. cbn [snd] in Hdone.
  cbn [h_run h_step]. destruct (h_deleted h1) eqn:Hdel.
  - intros Hx. congruence.
  - unfold h_maint. rewrite Hdone. cbn [negb].
    destruct (len (h_file h1) =? cur (h_job h1)) eqn:Heq; cbn [negb].
    + destruct (h_moved h1); rewrite app_nil_r; [discriminate|]. intros _.
      apply HInv_read_all; [exact HI|exact Hf|lia].
    + destruct (h_pass c rd n h1) as [es h2] eqn:Hp. rewrite app_nil_r. intros _.
      destruct (h_pass_inv E1 h1 n es h2 HI Hp) as (HI2 & Hf2 & Hc2 & _).
      apply HInv_read_all; [exact HI2|congruence|exact Hc2].
Qed.

(* a tick on an idle job whose file is unchanged and still in place (the re-open + seek of maintenanceJob) delivers
   nothing and changes nothing: position, held-back tail and shouldSkip are those of before *)
Theorem maint_idle_changes_nothing hs n :
  h_done hs = true -> h_deleted hs = false -> h_moved hs = false -> len (h_file hs) = cur (h_job hs) ->
  h_step c rd (HMaint n) hs = (Some 4, [], hs).
Proof.
  intros Hd Hx Hv Hl. cbn [h_step]. rewrite Hx. unfold h_maint. rewrite Hd, Hv, Hl, Z.eqb_refl. reflexivity.
Qed.

(* truncation below the read position: the next pass that does not check for truncation first (HPass, or the resume by
   a tick HMaint) delivers nothing and restarts the job at offset 0 WITHOUT the tail held back from the old content.
   (A write notification HNotify checks first and re-reads in the same pass: hist_truncation_notify_rereads below.) *)
Theorem hist_truncation_restarts hs n : h_deleted hs = false -> len (h_file hs) < cur (h_job hs) ->
  let hs' := {| h_job := st_at 0 (skip (h_job hs)); h_done := true; h_deleted := false; h_moved := h_moved hs;
                h_file := h_file hs |} in
  h_step c rd (HPass n) hs = (None, [], hs')
  /\ (h_done hs = true -> h_step c rd (HMaint n) hs = (Some 2, [], hs')).
Proof.
  intros Hx Hl hs'.
  assert (Hp : h_pass c rd n hs = ([], hs')).
  { unfold h_pass. rewrite drop_beyond by lia.
    generalize (round_no_bytes c (h_job hs) (rd n []) (Hrd n [])).
    destruct (round c (h_job hs) (rd n [])) as [es st1]. intros (-> & Hc & Hs).
    replace (cur st1 >? len (h_file hs)) with true by lia.
    rewrite Hx, Hs. reflexivity. }
  split.
  - cbn [h_step]. rewrite Hx, Hp. reflexivity.
  - intros Hd. cbn [h_step]. rewrite Hx. unfold h_maint. rewrite Hd. cbn [negb].
    replace (len (h_file hs) =? cur (h_job hs)) with false by lia. cbn [negb]. rewrite Hp. reflexivity.
Qed.

(* remove_after expired: the tick deletes an idle job (and removes its file) whether or not a tail is held back;
   a job that is not done, or whose file changed size, is treated as by the ordinary tick *)
Theorem maint_exp_removes_idle hs n :
  h_done hs = true -> h_deleted hs = false -> len (h_file hs) = cur (h_job hs) ->
  h_step c rd (HMaintExp n) hs =
  (Some 3, [], {| h_job := h_job hs; h_done := true; h_deleted := true; h_moved := h_moved hs; h_file := h_file hs |}).
Proof.
  intros Hd Hx Hl. cbn [h_step]. rewrite Hx. unfold h_maint_exp. rewrite Hd, Hl, Z.eqb_refl. reflexivity.
Qed.

Theorem maint_exp_reads_first hs n :
  h_done hs = false \/ len (h_file hs) <> cur (h_job hs) ->
  h_step c rd (HMaintExp n) hs = h_step c rd (HMaint n) hs.
Proof.
  intros H. cbn [h_step]. unfold h_maint_exp, h_maint.
  destruct (h_done hs); cbn [negb]; [|reflexivity].
  destruct H as [H|H]; [discriminate|].
  replace (len (h_file hs) =? cur (h_job hs)) with false by lia. reflexivity.
Qed.

End Hist.

(* truncation below the read position seen by a WRITE NOTIFICATION (refreshFile -> checkFileWasTruncated): the job
   restarts at 0 without the old tail and the same pass already delivers the new content: the specification of the
   whole file from offset 0 *)
Theorem hist_truncation_notify_rereads c rd hs n : 0 <= wmax c -> rd_sound rd ->
  h_deleted hs = false -> len (h_file hs) < cur (h_job hs) ->
  let '(r, E, hs') := h_step c rd (HNotify n) hs in
  let sk := skip (h_job hs) in
  r = None /\ h_file hs' = h_file hs /\ h_done hs' = true
  /\ cur (h_job hs') = len (h_file hs)
  /\ Forall2 (emitR c) E (spec_emits c sk 0 (h_file hs))
  /\ skip (h_job hs') = sk && negb (has_line (h_file hs))
  /\ accR c (snd (split_lines (h_file hs))) (tail (h_job hs')).
Proof.
  intros Hm Hrd Hx Hl. cbn [h_step]. rewrite Hx. unfold h_untrunc.
  replace (cur (h_job hs) >? len (h_file hs)) with true by lia.
  destruct (h_pass c rd n _) as [es hs'] eqn:Hp.
  apply (h_pass_inv c rd Hm Hrd 0 (skip (h_job hs)) []) in Hp;
    [|exact (consumed_start c 0 _ _ (conj (Z.le_refl 0) (len_nonneg _)))].
  destruct Hp as (HI' & Hf & Hc & Hd). cbn [h_file] in Hf.
  destruct (HInv_read_all c 0 _ es hs' _ HI' Hf Hc) as (_ & Hc' & HF & Hs & Ha).
  split; [reflexivity|]. repeat split; assumption.
Qed.

(* the skip loop stops at a position L that is not behind the minimum saved offset m, and what it leaves to the pass is
   exactly the content from L on - provided m lies inside the content. Z.max 0 m, not m: so stated the bound holds at the
   start (pre = []) for every m; for m <= 0 the loop does not move. *)
Lemma lz4_skip_spec n m : 1 <= n -> forall fuel pre rest,
  (length rest < fuel)%nat -> len pre <= Z.max 0 m -> m <= len pre + len rest ->
  exists pre' rest', lz4_skip fuel n m (len pre) rest = (len pre', rest')
                     /\ pre ++ rest = pre' ++ rest' /\ len pre' <= Z.max 0 m.
Proof.
  intros Hn. induction fuel as [|f IH]; intros pre rest Hf Hp Hm; [inversion Hf|].
  cbn [lz4_skip]. destruct (len pre + n <? m) eqn:Hlt; [|exists pre, rest; repeat split; exact Hp].
  replace (n <=? len rest) with true by lia.
  assert (Hlt_ : len (take n rest) = n) by (apply len_take; lia).
  assert (Hld : len (drop n rest) = len rest - n) by (apply len_drop; lia).
  specialize (IH (pre ++ take n rest) (drop n rest)). rewrite len_app, Hlt_ in IH.
  destruct IH as (pre' & rest' & H1 & H2 & H3); [unfold len in *; lia|lia|lia|].
  exists pre', rest'. split; [exact H1|]. split; [|exact H3].
  rewrite <- H2, <- app_assoc, take_drop. reflexivity.
Qed.

Lemma split_tail_nil_right a b : snd (split_lines (a ++ b)) = [] -> snd (split_lines b) = [].
Proof.
  induction a as [|x a IH]; intros H; [exact H|]. cbn [app split_lines] in H.
  destruct (split_lines (a ++ b)) as [ls t]. apply IH.
  destruct (N.eqb x NL); [exact H|]. destruct ls; [discriminate H|exact H].
Qed.

Lemma filter_with_off_le (m : Z) ls : forall base, base + len (concat ls) <= m ->
  filter (fun e : emit => m <? fst e) (with_off base ls) = [].
Proof.
  induction ls as [|l ls IH]; intros base H; cbn [with_off filter]; [reflexivity|].
  cbn [concat] in H. rewrite len_app in H. pose proof (len_nonneg (concat ls)). cbn [fst].
  replace (m <? base + len l) with false by lia. apply IH. lia.
Qed.

Lemma filter_with_off_gt (m : Z) ls : Forall is_line ls -> forall base, m <= base ->
  filter (fun e : emit => m <? fst e) (with_off base ls) = with_off base ls.
Proof.
  intros Hl. induction Hl as [|l ls [l0 [-> _]] _ IH]; intros base H; cbn [with_off filter]; [reflexivity|].
  cbn [fst]. rewrite len_app. pose proof (len_nonneg l0). change (len [NL]) with 1.
  replace (m <? base + (len l0 + 1)) with true by lia. f_equal. apply IH. lia.
Qed.

(* resume of a compressed job: the pass starts at ANY position L = len pre1 that is not behind the saved offset
   m = len (pre1 ++ pre2), m a line end of the file. What it hands over with an offset behind m is exactly the list of
   the lines of the whole file that end behind m, each with its offset in the decompressed stream; together with the
   lines up to m (delivered before the restart) this is the line list of the whole file. Every split into reads. *)
Theorem lz4_resume_exact pre1 pre2 b reads :
  snd (split_lines (pre1 ++ pre2)) = [] -> concat reads = pre2 ++ b ->
  let m := len (pre1 ++ pre2) in
  let E := fst (round nolimit (st_at (len pre1) false) reads) in
  filter (fun e : emit => m <? fst e) E = with_off m (fst (split_lines b))
  /\ with_off 0 (fst (split_lines (pre1 ++ pre2 ++ b)))
     = with_off 0 (fst (split_lines (pre1 ++ pre2))) ++ with_off m (fst (split_lines b)).
Proof.
  intros Hend Hreads m E.
  assert (H2 : snd (split_lines pre2) = []) by (apply (split_tail_nil_right pre1); exact Hend).
  generalize (reached_round nolimit (len pre1) false [] [] _ reads (Z.le_refl 0) (reached_start _ _ _)).
  destruct (round nolimit (st_at (len pre1) false) reads) as [es st]. intros R.
  apply reached_nolimit in R. destruct R as [He _]. cbn [app drop_first] in He. rewrite Hreads in He.
  subst E. cbn [fst]. rewrite He.
  split; [|rewrite app_assoc; exact (with_off_split 0 _ b Hend)].
  unfold m. rewrite len_app, (with_off_split _ pre2 b H2), filter_app.
  rewrite filter_with_off_le by (rewrite (split_lines_whole pre2 H2); lia).
  apply filter_with_off_gt; [apply split_lines_spec|lia].
Qed.

(* the model of the pass (skip loop included) on a file whose saved offset m is a line end inside the content
   (here [o :: offs] is the non-empty list of saved stream offsets and m its minimum: [o] is not a start offset) *)
Theorem lz4_pass_exact n content offs (o : Z) :
  (0 < n)%nat -> let m := min_list o offs in
  0 <= m <= len content -> snd (split_lines (take m content)) = [] ->
  let k := {| z_cfg := nolimit; z_offs := o :: offs; z_frames := [content]; z_n := n |} in
  let '(L, es, st) := z_pass k in
  0 <= L <= m
  /\ filter (fun e : emit => m <? fst e) es = with_off m (fst (split_lines (drop m content)))
  /\ with_off 0 (fst (split_lines content))
     = with_off 0 (fst (split_lines (take m content))) ++ with_off m (fst (split_lines (drop m content))).
Proof.
  intros Hn m Hm Hend k. unfold z_pass, z_content, z_min. cbn [k z_frames z_offs z_cfg z_n concat].
  rewrite app_nil_r. fold m.
  destruct (lz4_skip_spec (Z.of_nat n) m ltac:(lia) (S (length content)) [] content) as (pre' & rest' & Hsk & Hsp & Hle);
    [lia|rewrite len_nil; lia..|].
  rewrite len_nil in Hsk. rewrite Hsk. cbn [app] in Hsp. subst content.
  (* the content is pre' ++ pre2 ++ b, where pre' ++ pre2 are its first m bytes *)
  rewrite len_app in Hm. pose proof (len_nonneg pre'). rewrite take_app_ge, drop_app_ge in * by lia.
  pose proof (lz4_resume_exact pre' (take (m - len pre') rest') (drop (m - len pre') rest') (chunks n rest') Hend) as HT.
  rewrite chunks_concat, take_drop, len_app, len_take in HT by (assumption || lia).
  specialize (HT eq_refl). cbv zeta in HT. replace (len pre' + (m - len pre')) with m in HT by lia.
  destruct (round nolimit _ (chunks n rest')) as [es st]. split; [lia|exact HT].
Qed.

(* no size limit: exact equality — whatever ticks and renames are interleaved, a history that ends with a pass
   has delivered exactly the complete lines of everything written, each with its end offset; the tail is exactly
   the unterminated remainder *)
Theorem hist_offsets_exact rd o fc0 d0 ops n : rd_sound rd -> 0 <= o <= len fc0 -> no_trunc ops ->
  let '(E, hs) := h_run nolimit rd (h_start o false fc0 d0) (ops ++ [HPass n]) in
  h_deleted hs = false ->
  let b := drop o (fc0 ++ appended ops) in
  E = with_off o (fst (split_lines b))
  /\ h_job hs = {| cur := len (fc0 ++ appended ops); tail := snd (split_lines b); skip := false |}.
Proof.
  intros Hrd Ho Hn.
  pose proof (hist_every_line_once nolimit rd (Z.le_refl 0) Hrd o false fc0 d0 ops n Ho Hn) as H.
  destruct (h_run nolimit rd (h_start o false fc0 d0) (ops ++ [HPass n])) as [E hs].
  intros Hx. specialize (H Hx). cbv zeta in *. destruct H as (_ & Hc & HF & Hs & Ha).
  assert (Hl : len (fc0 ++ appended ops) = o + len (drop o (fc0 ++ appended ops))).
  { rewrite len_drop; [lia|]. rewrite len_app. pose proof (len_nonneg (appended ops)). lia. }
  rewrite Hl in *. exact (reached_nolimit o false _ E (h_job hs) (conj HF (conj Hc (conj Hs Ha)))).
Qed.

(* the boolean relations the history predicate [hpred] evaluates (delivered vs. specification, saved tail vs. true
   remainder) hold after every truncation-free history of the model *)
Theorem hist_pred_holds c rd o sk0 fc0 d0 ops : 0 <= wmax c -> rd_sound rd -> 0 <= o <= len fc0 -> no_trunc ops ->
  let '(E, hs) := h_run c rd (h_start o sk0 fc0 d0) ops in
  let b := take (cur (h_job hs) - o) (drop o (h_file hs)) in
  forall2b (emit_okb c) (map (fun e => (e, None)) E) (spec_emits c sk0 o b) = true
  /\ tail_relb c (tail (h_job hs)) (snd (split_lines b)) = true
  /\ cur (h_job hs) = o + len b.
Proof.
  intros Hm Hrd Ho Hn. generalize (h_run_start c rd Hm Hrd o sk0 fc0 d0 ops Ho Hn).
  destruct (h_run c rd (h_start o sk0 fc0 d0) ops) as [E hs]. intros [HI _].
  destruct (consumed_final _ _ _ _ _ _ HI) as [R _]. cbv zeta in *.
  destruct (reached_pred c o sk0 _ E _ R) as [H1 H2]. split; [exact H1|]. split; [exact H2|apply R].
Qed.
