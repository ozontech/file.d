(* NO-WEDGE theorem of the batcher model (Model/Batcher.v): from every reachable, not stopped, not crashed
   state the heartbeat and the workers alone (no new Add, no Stop), with an output that eventually
   succeeds, can flush and commit everything that was added.

   Method: an explicit scheduler [next] (always works on the OLDEST batch in flight, then on the
   critical section / current batch), a progress lemma (the label chosen by the scheduler is enabled in
   every reachable live state and strictly decreases a natural-number measure), so that the scheduler runs
   until it rests ([Lts.sched_rests]), and the description of the states in which it has nothing left to do. *)
From Verif Require Import Base.Sx Model.Batcher Proofs.Batcher.
From Verif Require Proofs.Lts.
From Coq Require Import Lia ZifyBool Bool List ZArith.
Import ListNotations.
Local Open Scope Z_scope.

Definition internal (l : label) : Prop :=
  match l with LAdd _ | LStop | LPanic => False | _ => True end.

Definition reach (c : cfg) (s : st) : Prop := exists ls, run c (init c) ls = Some s.

Lemma reach_run c s ls s' : reach c s -> run c s ls = Some s' -> reach c s'.
Proof. intros [ls0 H0] H. exists (ls0 ++ ls). rewrite run_app, H0. exact H. Qed.

Lemma reach_step c s l s' : reach c s -> step c s l = Some s' -> reach c s'.
Proof. intros Hr H. apply (reach_run c s [l] s' Hr). cbn [run]. rewrite H. reflexivity. Qed.

(* freeBatches never holds a negative number of batches *)
Definition inv_free (s : st) : Prop := 0 <= free s.

Lemma inv_free_step c s l s' : inv_free s -> step c s l = Some s' -> inv_free s'.
Proof.
  unfold inv_free. intros H0 H. apply step_Step in H. destruct H; post_state; try exact H0; lia.
Qed.

(* a batch in stage Queued really is in the channel (converse of wf_queue) *)
Definition inv_queued (s : st) : Prop :=
  forall b, In b (flight s) -> bstage b = Queued -> In (bseq b) (queue s).

Lemma inv_queued_step c s l s' : WF c s -> inv_queued s -> step c s l = Some s' -> inv_queued s'.
Proof.
  unfold inv_queued. intros Hwf Q H. apply step_Step in H.
  destruct H; post_state; try exact Q;
    (* a batch moves to a stage other than Queued *)
    try (intros x Hx Hs; in_upd Hx; [exact (Q _ Hx Hs)|discriminate Hs]).
  - (* Seal *) intros x Hx Hs. in_snoc Hx; [exact (Q _ Hx Hs)|discriminate Hs].
  - (* Push *) intros x Hx Hs. apply in_or_app. in_upd Hx; [left; exact (Q _ Hx Hs)|].
    right. left. symmetry. exact (proj2 (find_bat_In _ _ _ Hf)).
  - (* Take *) destruct (wf_queue _ _ Hwf _ Hq) as (b & Hfind & Hst). intros x Hx Hs.
    destruct (In_upd_bat_strong _ _ _ _ _ _ _ (wf_consec _ _ Hwf) Hfind Hx) as [[Hx1 Hne]| ->]; [|discriminate Hs].
    apply filter_In. split; [exact (Q _ Hx1 Hs)|]. apply negb_true_iff, Z.eqb_neq. exact Hne.
  - (* CommitEnd *) intros x Hx. exact (Q x (In_del_bat _ _ _ Hx)).
Qed.

(* position inside the commit section: an emptied batch commits nothing, another at most its events *)
Definition inv_cpos (s : st) : Prop :=
  forall b k, In b (flight s) -> bstage b = Committing k ->
    if bemptied b then k = O else (k <= length (bevs b))%nat.

Lemma inv_cpos_step c s l s' : WF c s -> inv_cpos s -> step c s l = Some s' -> inv_cpos s'.
Proof.
  unfold inv_cpos. intros Hwf Q H. apply step_Step in H.
  destruct H; post_state; try exact Q;
    (* a batch moves to a stage outside the commit section *)
    try (intros x j Hx Hs; in_upd Hx; [exact (Q _ _ Hx Hs)|discriminate Hs]).
  - (* Seal *) intros x j Hx Hs. in_snoc Hx; [exact (Q _ _ Hx Hs)|discriminate Hs].
  - (* CommitBegin *) intros x j Hx Hs. in_upd Hx; [exact (Q _ _ Hx Hs)|].
    injection Hs as <-. cbn [bemptied bevs set_stage]. destruct (bemptied b0); [reflexivity|lia].
  - (* CommitEv: the event committed is one of the batch *) intros x j Hx Hs.
    pose proof (find_bat_of_In _ _ _ _ (wf_consec _ _ Hwf) (proj1 (committing_bat_Some _ _ Hcb))) as Hfind.
    destruct (In_upd_bat_found _ _ _ _ _ Hfind Hx) as [Hx'| ->]; [exact (Q _ _ Hx' Hs)|].
    injection Hs as <-. cbn [bemptied bevs set_stage]. rewrite Hfull. apply nth_error_Some. congruence.
  - (* CommitEnd *) intros x j Hx. exact (Q x j (In_del_bat _ _ _ Hx)).
Qed.

(* what onRetryError was handed is exactly the content of the sealed batch of that sequence number *)
Definition inv_failed (s : st) : Prop :=
  forall f, In f (failed_hist s) -> nth_error (rev (sealed_hist s)) (Z.to_nat (fseq f)) = Some (snd f).

Lemma inv_failed_step c s l s' : WF c s -> inv_failed s -> step c s l = Some s' -> inv_failed s'.
Proof.
  unfold inv_failed. intros Hwf Q H. apply step_Step in H. destruct H; post_state; try exact Q.
  - (* Seal *) intros f Hf. cbn [rev]. apply nth_error_snoc_Some. exact (Q _ Hf).
  - (* RetryGiveUp *) intros f [<-|Hf]; [|exact (Q _ Hf)]. cbn [fseq fst snd].
    destruct (find_bat_In _ _ _ Hfind) as [Hin <-]. exact (wf_evs _ _ Hwf _ Hin).
Qed.

Record Extra (c : cfg) (s : st) : Prop := {
  ex_free : inv_free s;
  ex_queued : inv_queued s;
  ex_cpos : inv_cpos s;
  ex_failed : inv_failed s
}.

Lemma extra_reach c s : 0 <= workers c -> reach c s -> Extra c s.
Proof.
  intros Hw [ls Hr].
  apply (run_invariant_wf c (Extra c)) with (ls := ls); [| |exact Hr].
  - intros s0 l s1 Hwf [E1 E2 E3 E4] H. constructor.
    + exact (inv_free_step _ _ _ _ E1 H).
    + exact (inv_queued_step _ _ _ _ Hwf E2 H).
    + exact (inv_cpos_step _ _ _ _ Hwf E3 H).
    + exact (inv_failed_step _ _ _ _ Hwf E4 H).
  - constructor; unfold inv_free, inv_queued, inv_cpos, inv_failed; cbn; intros; try contradiction. exact Hw.
Qed.

Lemma plain_full_reach c s :
  retriable c = false -> reach c s -> forall b t ph, In b (flight s) -> bstage b = Sending t ph -> ph = PIdle.
Proof. intros Hret [ls Hr]. exact (proj2 (inv_plain_reach c ls s Hret Hr)). Qed.

(* what the worker holding the OLDEST batch in flight does next; every call of outFn succeeds,
   a batch found after a failed call is retried unless the attempt bound forces the give-up *)
Definition head_label (c : cfg) (b : bat) : label :=
  let n := Z.of_nat (length (bevs b)) in
  let n' := if bemptied b then 0 else n in
  let st' := if bemptied b then 3 else bstatus b in
  match bstage b with
  | Pending => LPush (bseq b)
  | Queued => LTake (bseq b)
  | Taken => if has_iter (bevs b) then LOutBegin (bseq b) n else LCommitBegin (bseq b) n'
  | Sending t PIdle => if retriable c then LRetryCall (bseq b) t else LOutEnd (bseq b) n' st'
  | Sending t PCalling => LRetryResult (bseq b) t true
  | Sending t PFailed =>
      if (0 <=? retry c) && (retry c <? t) then LRetryGiveUp (bseq b) t n (deadq c) false
      else LRetryCall (bseq b) (t + 1)
  | Sending t PDone => LOutEnd (bseq b) n' st'
  | Sent => LCommitBegin (bseq b) n'
  | Committing k =>
      match (if bemptied b then None else nth_error (bevs b) k) with
      | Some e => LCommitEv e
      | None => LCommitEnd (bseq b) st'
      end
  end.

(* nothing in flight: the heartbeat finishes the open critical section, then seals what is left *)
Definition next (c : cfg) (s : st) : option label :=
  match flight s with
  | b :: _ => Some (head_label c b)
  | [] =>
      match cur s with
      | None => if deciding s then Some LFree else None
      | Some [] => if deciding s then Some (LNotReady 0 0 0 0) else None
      | Some (e :: t) =>
          if deciding s
          then let n := Z.of_nat (length (e :: t)) in
               let by_ := bytes_of (e :: t) in
               Some (LSeal (outSeq s) n (if size_ready c n by_ then 1 else 2) by_)
          else Some LTick
      end
  end.

(* the weight of a batch of n events falls with every step of its worker and stays below n + 10; sealing a current batch
   of n events (n + 10 with the section open, n + 11 before the tick that opens it) puts a batch of weight n + 9 in flight *)
Definition wstage (n : nat) (g : stage) : nat :=
  match g with
  | Pending => n + 9
  | Queued => n + 8
  | Taken => n + 7
  | Sending _ PIdle => n + 6
  | Sending _ PFailed => n + 5
  | Sending _ PCalling => n + 4
  | Sending _ PDone => n + 3
  | Sent => n + 2
  | Committing k => 1 + (n - k)
  end%nat.
Definition wbat (b : bat) : nat := wstage (length (bevs b)) (bstage b).
Fixpoint wflight (fl : list bat) : nat := match fl with [] => O | b :: r => (wbat b + wflight r)%nat end.
Definition wcur (s : st) : nat :=
  match cur s with
  | None => if deciding s then 2 else 0
  | Some [] => if deciding s then 1 else 0
  | Some (e :: t) => if deciding s then length (e :: t) + 10 else length (e :: t) + 11
  end%nat.
Definition measure (s : st) : nat := (wflight (flight s) + wcur s)%nat.

Lemma head_find s b r : flight s = b :: r -> find_bat (flight s) (bseq b) = Some b.
Proof. intros ->. cbn [find_bat]. rewrite Z.eqb_refl. reflexivity. Qed.

Lemma head_lo c s b r : WF c s -> flight s = b :: r -> bseq b = lo_seq s.
Proof. intros Hwf Hfl. pose proof (wf_consec _ _ Hwf) as H. rewrite Hfl in H. cbn [map consec] in H. exact (proj1 H). Qed.

Lemma find_none_of_existsb {A} (f : A -> bool) l : existsb f l = false -> find f l = None.
Proof.
  induction l as [|x r IH]; [reflexivity|]. cbn [existsb find]. intros H. apply orb_false_iff in H.
  destruct H as [H1 H2]. rewrite H1. exact (IH H2).
Qed.

Lemma head_nocommit c s b r :
  WF c s -> flight s = b :: r -> committing b = false ->
  committing_bat (flight s) = None /\ bseq b = commitSeq s.
Proof.
  intros Hwf Hfl Hc. pose proof (wf_tail_noncommitting _ _ _ _ Hwf Hfl) as Hr.
  assert (Hex : existsb committing (flight s) = false) by (rewrite Hfl; cbn [existsb]; rewrite Hc, Hr; reflexivity).
  split.
  - unfold committing_bat. apply (find_none_of_existsb committing). exact Hex.
  - rewrite (head_lo _ _ _ _ Hwf Hfl). unfold lo_seq. rewrite Hex. lia.
Qed.

Lemma head_committing s b r k :
  flight s = b :: r -> bstage b = Committing k -> committing_bat (flight s) = Some b.
Proof. intros -> Hst. unfold committing_bat. cbn [find]. rewrite Hst. reflexivity. Qed.

Lemma filter_len_le {A} (f : A -> bool) l : (length (filter f l) <= length l)%nat.
Proof. induction l as [|x r IH]; cbn [filter length]; [lia|]. destruct (f x); cbn [length]; lia. Qed.

Lemma head_queued_busy c s b r :
  WF c s -> inv_free s -> flight s = b :: r -> bstage b = Queued -> busy_workers (flight s) < workers c.
Proof.
  intros Hwf Hfr Hfl Hst. pose proof (wf_count _ _ Hwf) as Hn. unfold inv_free in Hfr.
  rewrite Hfl in *. unfold busy_workers. cbn [filter]. rewrite Hst. cbn [length] in Hn.
  pose proof (filter_len_le (fun b0 => match bstage b0 with Pending | Queued => false | _ => true end) r) as Hle.
  unfold cur_count in Hn. destruct (cur s); lia.
Qed.

(* stopped / crashed / added are not touched by an internal label - the send on a closed channel aside *)
Lemma internal_keeps c s l s' :
  internal l -> step c s l = Some s' -> (stopped s = true -> forall q, l <> LPush q) ->
  stopped s' = stopped s /\ crashed s' = false /\ added s' = added s.
Proof.
  intros Hi H Hp. pose proof (step_live _ _ _ _ H) as Hc. apply step_Step in H.
  destruct H; try destruct Hi; try (split; [reflexivity|split; [exact Hc|reflexivity]]).
  destruct (Hp Hstop q eq_refl).
Qed.

Lemma internal_live c s l s' :
  internal l -> step c s l = Some s' -> stopped s = false -> crashed s = false ->
  stopped s' = false /\ crashed s' = false /\ added s' = added s.
Proof.
  intros Hi H Hs _. destruct (internal_keeps c s l s' Hi H) as (H1 & H2 & H3); [congruence|].
  split; [congruence|split; assumption].
Qed.

(* a rule of the worker that holds the oldest batch makes the batches in flight lighter *)
Lemma head_step c s l s' :
  crashed s = false -> Step c s l s' -> cur s' = cur s -> deciding s' = deciding s ->
  (wflight (flight s') < wflight (flight s))%nat ->
  exists s', step c s l = Some s' /\ (measure s' < measure s)%nat.
Proof.
  intros Hcr HS Hc Hd Hw. exists s'. split; [exact (Step_step _ _ _ _ Hcr HS)|].
  unfold measure, wcur. rewrite Hc, Hd. lia.
Qed.

(* ... the oldest batch [Hfl], in the stage [Hst], is rewritten or leaves *)
Ltac lighter Hfl Hst :=
  post_state; rewrite Hfl; cbn [upd_bat del_bat]; rewrite Z.eqb_refl; cbn [wflight]; unfold wbat;
  cbn [bstage bevs set_stage]; rewrite Hst; cbn [wstage]; clear - Hst; lia.

(* what [head_label] picks is never a call from outside, and is the send only for a Pending batch *)
Lemma head_label_kind c b :
  match head_label c b with LAdd _ | LStop | LPanic => False | LPush _ => bstage b = Pending | _ => True end.
Proof.
  unfold head_label. destruct (bstage b) as [| | |t ph| |k]; cbv zeta; try exact I.
  - reflexivity.
  - destruct (has_iter _); exact I.
  - destruct ph; try exact I; [destruct (retriable c)|destruct (_ && _)]; exact I.
  - destruct (if bemptied b then None else nth_error (bevs b) k); exact I.
Qed.

Lemma head_label_internal c b : internal (head_label c b).
Proof. pose proof (head_label_kind c b) as H. destruct (head_label c b); try exact I; exact H. Qed.

(* the step of the worker that holds the OLDEST batch in flight is enabled and decreases the measure, stopped or not -
   except the send of a Pending batch, which needs a batcher that is not stopped *)
Lemma head_progress c s b r :
  0 < workers c -> reach c s -> crashed s = false -> flight s = b :: r -> (bstage b = Pending -> stopped s = false) ->
  internal (head_label c b) /\ exists s', step c s (head_label c b) = Some s' /\ (measure s' < measure s)%nat.
Proof.
  intros Hw Hr Hcr Hfl Hpend. split; [apply head_label_internal|].
  pose proof (extra_reach c s ltac:(lia) Hr) as [E1 E2 E3 _].
  destruct Hr as [ls0 Hr0]. pose proof (wf_reach _ _ _ Hr0) as Hwf.
  pose proof (head_find _ _ _ Hfl) as Hfb.
  assert (Hinb : In b (flight s)) by (rewrite Hfl; left; reflexivity).
  (* outside its commit section it is the batch the commit order waits for *)
  pose proof (head_nocommit _ _ _ _ Hwf Hfl) as Hnext.
  unfold head_label, committing in *. destruct (bstage b) as [| | |t ph| |k] eqn:Hst.
  - (* Pending: send into the channel *)
    eapply (head_step c s _ _ Hcr (SPush c s _ b Hfb Hst (Hpend eq_refl))); [reflexivity..|lighter Hfl Hst].
  - (* Queued: a worker is idle and receives it *)
    eapply (head_step c s _ _ Hcr (STake c s _ (E2 _ Hinb Hst) (head_queued_busy _ _ _ _ Hwf E1 Hfl Hst)));
      [reflexivity..|lighter Hfl Hst].
  - (* Taken: into OutFn, or - no iterable event - straight into the commit section *)
    destruct (has_iter (bevs b)) eqn:Hhi;
      [eapply (head_step c s _ _ Hcr (SOutBegin c s _ b Hfb Hst Hhi))
      |eapply (head_step c s _ _ Hcr (SCommitBegin c s _ b Hfb (proj1 (Hnext eq_refl)) (or_intror (conj Hst Hhi)) (proj2 (Hnext eq_refl))))];
      try reflexivity; lighter Hfl Hst.
  - (* Sending: the retry frame goes through the phases, the plain one has none *)
    destruct (retriable c) eqn:Hre; [destruct ph|].
    + (* before a call: the retry frame calls outFn *)
      eapply (head_step c s _ _ Hcr (SRetryFirst c s _ b t Hfb Hst Hre)); [reflexivity..|lighter Hfl Hst].
    + (* inside outFn: it succeeds *)
      eapply (head_step c s _ _ Hcr (SRetryResult c s _ b t true Hfb Hst)); [reflexivity..|lighter Hfl Hst].
    + (* after a failed call: another one, unless the attempts are used up *)
      destruct ((0 <=? retry c) && (retry c <? t)) eqn:Hgu;
        [eapply (head_step c s _ _ Hcr (SGiveUp c s _ b t false Hfb Hst Hgu))
        |eapply (head_step c s _ _ Hcr (SRetryAgain c s _ b t Hfb Hst Hre Hgu))];
        try reflexivity; lighter Hfl Hst.
    + (* the retry frame is done *)
      eapply (head_step c s _ _ Hcr (SOutEnd c s _ b t PDone Hfb Hst Hre)); [reflexivity..|lighter Hfl Hst].
    + (* the plain frame is one call of outFn, and it is done *)
      pose proof (plain_full_reach c s Hre (ex_intro _ ls0 Hr0) b t ph Hinb Hst) as ->.
      eapply (head_step c s _ _ Hcr (SOutEnd c s _ b t PIdle Hfb Hst (f_equal negb Hre))); [reflexivity..|lighter Hfl Hst].
  - (* Sent: it is the batch the commit order waits for *)
    eapply (head_step c s _ _ Hcr (SCommitBegin c s _ b Hfb (proj1 (Hnext eq_refl)) (or_introl Hst) (proj2 (Hnext eq_refl)))); [reflexivity..|lighter Hfl Hst].
  - (* inside the commit section: the next event, or the end *)
    destruct (if bemptied b then None else nth_error (bevs b) k) as [e|] eqn:Hnth.
    + assert (He : bemptied b = false /\ nth_error (bevs b) k = Some e) by (destruct (bemptied b); [discriminate|auto]).
      assert (Hlt : (k < length (bevs b))%nat) by (apply nth_error_Some; destruct He; congruence).
      eapply (head_step c s _ _ Hcr (SCommitEv c s e b k (head_committing _ _ _ _ Hfl Hst) Hst (proj1 He) (proj2 He)));
        [reflexivity..|revert Hlt; lighter Hfl Hst].
    + assert (Hk : Z.of_nat k = if bemptied b then 0 else Z.of_nat (length (bevs b))).
      { pose proof (E3 _ _ Hinb Hst) as Hk. destruct (bemptied b); [subst k; reflexivity|].
        apply nth_error_None in Hnth. lia. }
      eapply (head_step c s _ _ Hcr (SCommitEnd c s _ b k Hfb Hst Hk)); [reflexivity..|lighter Hfl Hst].
Qed.

Lemma next_progress c s l :
  0 < workers c -> reach c s -> stopped s = false -> crashed s = false -> next c s = Some l ->
  internal l /\ exists s', step c s l = Some s' /\ (measure s' < measure s)%nat.
Proof.
  intros Hw Hr Hstop Hcr Hn. unfold next in Hn. destruct (flight s) as [|b r] eqn:Hfl.
  2:{ injection Hn as <-. exact (head_progress c s b r Hw Hr Hcr Hfl (fun _ => Hstop)). }
  (* nothing in flight: the heartbeat *)
  destruct Hr as [ls0 Hr0]. pose proof (wf_count _ _ (wf_reach _ _ _ Hr0)) as Hcnt.
  unfold cur_count in Hcnt. rewrite Hfl in Hcnt.
  destruct (cur s) as [[|e t]|] eqn:Hcu; destruct (deciding s) eqn:Hd; try discriminate Hn; injection Hn as <-;
    (split; [exact I|]); eexists; (split; [apply (Step_step _ _ _ _ Hcr)|]).
  - (* empty current batch, open section *) exact (SNotReady c s 0 0 [] Hcu Hd eq_refl).
  - unfold measure, wcur. post_state. rewrite Hfl, Hcu, Hd. cbn [wflight]. clear. lia.
  - (* non-empty current batch, open section: seal it (max size or time-out) *)
    exact (SSeal c s (e :: t) Hcu Hd ltac:(cbn [length]; clear; lia)).
  - unfold measure, wcur. post_state. rewrite Hfl, Hcu, Hd. cbn [app wflight]. unfold wbat. cbn [bstage bevs wstage].
    rewrite rev_length. cbn [length]. clear. lia.
  - (* non-empty current batch, no open section: the heartbeat ticks *) exact (STick c s Hstop Hd).
  - unfold measure, wcur. post_state. rewrite Hfl, Hcu, Hd. cbn [length]. clear. lia.
  - (* no current batch, open section: getBatch *) apply SFree; [exact Hcu|cbn [length] in Hcnt; clear - Hw Hcnt; lia].
  - unfold measure, wcur. post_state. rewrite Hfl, Hcu, Hd. cbn [wflight]. clear. lia.
Qed.

(* the scheduler [next], run from a live state with fuel above the measure, rests ([Lts.sched_rests]) *)
Lemma drain_loop c : 0 < workers c ->
  forall n s, (measure s < n)%nat -> reach c s -> stopped s = false -> crashed s = false ->
  exists ls' s', Forall internal ls' /\ run c s ls' = Some s' /\ next c s' = None /\
                 stopped s' = false /\ crashed s' = false /\ added s' = added s.
Proof.
  intros Hw n s Hm Hr Hstop Hcr.
  destruct (Lts.sched_rests (step c) (next c) measure
              (fun x => reach c x /\ stopped x = false /\ crashed x = false /\ added x = added s) internal)
    with (fuel := n) (s := s) as (s' & Hrun & Hint & Hnx & _ & Hlive); [|exact Hm|auto|].
  { intros x l (Hx & Hs & Hc & Ha) Hn. destruct (next_progress c x l Hw Hx Hs Hc Hn) as (Hi & x1 & Hx1 & Hlt).
    exists x1. destruct (internal_live c x l x1 Hi Hx1 Hs Hc) as (Hs1 & Hc1 & Ha1).
    repeat split; try assumption; [exact (reach_step c x l x1 Hx Hx1)|congruence]. }
  rewrite <- run_lts in Hrun. eexists _, s'. repeat (split; [eassumption|]). exact Hlive.
Qed.

Lemma next_none c s :
  next c s = None -> flight s = [] /\ deciding s = false /\ cur_list s = [].
Proof.
  unfold next, cur_list. destruct (flight s) as [|b r]; [|discriminate].
  destruct (cur s) as [[|e t]|]; destruct (deciding s); try discriminate; intros _; repeat split; reflexivity.
Qed.

Lemma In_concat_eff em e L : forall i,
  In e (concat L) ->
  In e (eff_concat em i L) \/ exists k B, nth_error L k = Some B /\ In e B /\ em (i + Z.of_nat k) = true.
Proof.
  induction L as [|B L' IH]; intros i Hin; cbn [concat eff_concat] in *; [contradiction|].
  apply in_app_or in Hin. destruct Hin as [Hin|Hin].
  - destruct (em i) eqn:Ei.
    + right. exists O, B. split; [reflexivity|]. split; [exact Hin|]. replace (i + Z.of_nat 0) with i by lia. exact Ei.
    + left. apply in_or_app. left. exact Hin.
  - destruct (IH (i + 1) Hin) as [H|(k & B' & Hk & HB & He)].
    + left. apply in_or_app. right. exact H.
    + right. exists (S k), B'. split; [exact Hk|]. split; [exact HB|].
      replace (i + Z.of_nat (S k)) with (i + 1 + Z.of_nat k) by lia. exact He.
Qed.

(* nothing in flight: every sealed batch went through its commit section, and each of its events is committed or was
   handed to onRetryError (whatever is in the current batch aside) *)
Lemma flight_empty_sealed_accounted c s :
  0 <= workers c -> reach c s -> flight s = [] ->
  queue s = [] /\ commitSeq s = outSeq s /\
  forall evs e, In evs (sealed_hist s) -> In e evs -> In e (committed s) \/ exists f, In f (failed_hist s) /\ In e (snd f).
Proof.
  intros Hw Hr Hfl. destruct (extra_reach c s Hw Hr) as [_ _ _ E4]. destruct Hr as [ls Hr].
  pose proof (wf_reach _ _ _ Hr) as Hwf. destruct (shape_reach _ _ _ Hr) as (_ & _ & J3).
  pose proof (wf_consec _ _ Hwf) as Hcs. pose proof (wf_len _ _ Hwf) as Hlen.
  rewrite Hfl in Hcs. cbn [map consec] in Hcs.
  split; [|split].
  - destruct (queue s) as [|q qs] eqn:Hq; [reflexivity|].
    destruct (wf_queue _ _ Hwf q) as (b & Hb & _); [rewrite Hq; left; reflexivity|]. rewrite Hfl in Hb. discriminate Hb.
  - unfold lo_seq in Hcs. rewrite Hfl in Hcs. cbn [existsb] in Hcs. lia.
  - intros evs e Hevs He.
    assert (Hc : In e (concat (rev (sealed_hist s)))) by (apply in_concat; exists evs; split; [apply -> in_rev; exact Hevs|exact He]).
    rewrite Hfl, (lo_seq_quiescent c s Hwf Hfl), firstn_all in J3. cbn [partial_of] in J3. rewrite app_nil_r in J3.
    destruct (In_concat_eff (emptied c s) e _ 0 Hc) as [H|(k & B & Hk & HB & Hem)].
    + left. apply in_rev. rewrite J3. exact H.
    + right. unfold emptied in Hem. apply andb_true_iff in Hem. destruct Hem as [_ Hem].
      apply existsb_exists in Hem. destruct Hem as (f & Hf & Hfk). apply Z.eqb_eq in Hfk.
      exists f. split; [exact Hf|]. pose proof (E4 _ Hf) as Hnth.
      replace (Z.to_nat (fseq f)) with k in Hnth by lia. rewrite Hk in Hnth. inversion Hnth; subst B. exact HB.
Qed.

Lemma quiescent_all_accounted c s :
  0 <= workers c -> reach c s -> flight s = [] -> cur_list s = [] ->
  queue s = [] /\ commitSeq s = outSeq s /\
  forall e, In e (added s) -> In e (committed s) \/ exists f, In f (failed_hist s) /\ In e (snd f).
Proof.
  intros Hw Hr Hfl Hcu. destruct (flight_empty_sealed_accounted c s Hw Hr Hfl) as (Hq & Hseq & Hall).
  split; [exact Hq|split; [exact Hseq|]]. intros e He. destruct Hr as [ls Hr].
  apply in_rev in He. rewrite (added_is_sealed_plus_current _ _ _ Hr), Hcu, app_nil_r in He.
  apply in_concat in He. destruct He as (evs & Hevs & He). apply in_rev in Hevs. exact (Hall evs e Hevs He).
Qed.

Lemma drain_core c ls s :
  0 < workers c -> run c (init c) ls = Some s -> stopped s = false -> crashed s = false ->
  exists ls' s', Forall internal ls' /\ run c s ls' = Some s' /\ run c (init c) (ls ++ ls') = Some s' /\
    stopped s' = false /\ crashed s' = false /\ added s' = added s /\
    flight s' = [] /\ queue s' = [] /\ deciding s' = false /\ cur_list s' = [] /\ commitSeq s' = outSeq s' /\
    (forall e, In e (added s') -> In e (committed s') \/ exists f, In f (failed_hist s') /\ In e (snd f)).
Proof.
  intros Hw Hr Hstop Hcr.
  destruct (drain_loop c Hw (S (measure s)) s ltac:(lia) (ex_intro _ ls Hr) Hstop Hcr)
    as (ls' & s' & Hint & Hrun & Hnx & Hstop' & Hcr' & Hadd').
  destruct (next_none c s' Hnx) as (Hfl & Hdec & Hcu).
  assert (Hr' : run c (init c) (ls ++ ls') = Some s') by (rewrite run_app, Hr; exact Hrun).
  destruct (quiescent_all_accounted c s' ltac:(lia) (ex_intro _ _ Hr') Hfl Hcu) as (Hq & Hseq & Hall).
  exists ls', s'. repeat (split; [assumption|]). exact Hall.
Qed.

Theorem batcher_can_always_drain :
  forall c ls s, 0 < workers c ->
    run c (init c) ls = Some s -> stopped s = false -> crashed s = false ->
    exists ls' s', Forall internal ls' /\ run c s ls' = Some s' /\
      crashed s' = false /\ flight s' = [] /\ queue s' = [] /\ deciding s' = false /\
      cur_list s' = [] /\ commitSeq s' = outSeq s' /\
      (forall e, In e (added s') -> In e (committed s') \/ exists f, In f (failed_hist s') /\ In e (snd f)).
Proof.
  intros c ls s Hw Hr Hstop Hcr.
  destruct (drain_core c ls s Hw Hr Hstop Hcr)
    as (ls' & s' & Hint & Hrun & _ & _ & Hcr' & _ & Hfl & Hq & Hdec & Hcu & Hseq & Hall).
  exists ls', s'. repeat (split; [assumption|]). exact Hall.
Qed.

(* the drain adds nothing and does not stop the batcher: what is accounted for is exactly what had
   been added before it *)
Theorem batcher_can_always_drain_strong :
  forall c ls s, 0 < workers c ->
    run c (init c) ls = Some s -> stopped s = false -> crashed s = false ->
    exists ls' s', Forall internal ls' /\ run c s ls' = Some s' /\
      stopped s' = false /\ crashed s' = false /\ added s' = added s /\
      flight s' = [] /\ queue s' = [] /\ deciding s' = false /\ cur_list s' = [] /\ commitSeq s' = outSeq s' /\
      (forall e, In e (added s) -> In e (committed s') \/ exists f, In f (failed_hist s') /\ In e (snd f)).
Proof.
  intros c ls s Hw Hr Hstop Hcr.
  destruct (drain_core c ls s Hw Hr Hstop Hcr)
    as (ls' & s' & Hint & Hrun & _ & Hstop' & Hcr' & Hadd & Hfl & Hq & Hdec & Hcu & Hseq & Hall).
  exists ls', s'. repeat (split; [assumption|]). rewrite <- Hadd. exact Hall.
Qed.

(* no dead queue in play: the drained state has committed exactly what was added, in order *)
Corollary batcher_drain_exactly_once :
  forall c ls s, 0 < workers c -> (retriable c = false \/ deadq c = false) ->
    run c (init c) ls = Some s -> stopped s = false -> crashed s = false ->
    exists ls' s', Forall internal ls' /\ run c s ls' = Some s' /\
      crashed s' = false /\ flight s' = [] /\ queue s' = [] /\ deciding s' = false /\
      cur_list s' = [] /\ commitSeq s' = outSeq s' /\ added s' = added s /\
      rev (committed s') = rev (added s').
Proof.
  intros c ls s Hw Hc Hr Hstop Hcr.
  destruct (drain_core c ls s Hw Hr Hstop Hcr)
    as (ls' & s' & Hint & Hrun & Hr' & _ & Hcr' & Hadd & Hfl & Hq & Hdec & Hcu & Hseq & _).
  exists ls', s'. repeat (split; [assumption|]).
  exact (exactly_once_at_quiescence c (ls ++ ls') s' Hc Hr' Hfl Hcu).
Qed.

Lemma step_LAdd_ready c b e : crashed b = false -> stopped b = false -> deciding b = false -> cur b = Some [] ->
  exists b', step c b (LAdd e) = Some b' /\ stopped b' = false /\ crashed b' = false.
Proof.
  intros Hcr Hst Hdec Hcur. unfold step. rewrite Hcr, Hcur, Hst, Hdec.
  eexists. split; [reflexivity|]. split; [reflexivity|exact Hcr].
Qed.

(* the scheduler as a program: the labels it emits with a given fuel *)
Fixpoint sched (c : cfg) (fuel : nat) (s : st) : list label :=
  match fuel with
  | O => []
  | S k => match next c s with
           | Some l => match step c s l with Some s' => l :: sched c k s' | None => [] end
           | None => []
           end
  end.

Definition mkev (i : Z) : ev := {| eid := i; esrc := 0; esize := 1; ekind := 0 |}.

(* A. three batch objects, retry frame with one retry allowed, no dead queue.
   Reached state: batch 0 inside OutFn after a FAILED call (Sending 0 PFailed), batch 1 sealed and
   queued, current batch [e5] with the critical section of its Add still open (deciding = true). *)
Definition cfgA : cfg :=
  {| workers := 3; maxCount := 2; maxBytes := 0; retriable := true; retry := 1; deadq := false; atomic_push := true |}.
Definition traceA : list label :=
  [LFree; LAdd (mkev 1); LNotReady 1 1 0 1; LAdd (mkev 2); LSeal 0 2 1 2; LPush 0; LTake 0; LOutBegin 0 2;
   LRetryCall 0 0; LRetryResult 0 0 false;
   LFree; LAdd (mkev 3); LNotReady 1 1 0 1; LAdd (mkev 4); LSeal 1 2 1 2; LPush 1;
   LFree; LAdd (mkev 5)].
Definition drainA : list label :=
  [LRetryCall 0 1; LRetryResult 0 1 true; LOutEnd 0 2 1; LCommitBegin 0 2; LCommitEv (mkev 1); LCommitEv (mkev 2);
   LCommitEnd 0 1;
   LTake 1; LOutBegin 1 2; LRetryCall 1 0; LRetryResult 1 0 true; LOutEnd 1 2 1; LCommitBegin 1 2;
   LCommitEv (mkev 3); LCommitEv (mkev 4); LCommitEnd 1 1;
   LSeal 2 1 2 1; LPush 2; LTake 2; LOutBegin 2 1; LRetryCall 2 0; LRetryResult 2 0 true; LOutEnd 2 1 2;
   LCommitBegin 2 1; LCommitEv (mkev 5); LCommitEnd 2 2].

Example drain_nonvacuous :
  exists s s',
    run cfgA (init cfgA) traceA = Some s /\
    map bstage (flight s) = [Sending 0 PFailed; Queued] /\ queue s = [1] /\
    cur s = Some [mkev 5] /\ deciding s = true /\ free s = 0 /\ stopped s = false /\ crashed s = false /\
    Forall internal drainA /\ run cfgA s drainA = Some s' /\
    crashed s' = false /\ flight s' = [] /\ queue s' = [] /\ deciding s' = false /\ cur_list s' = [] /\
    commitSeq s' = outSeq s' /\ added s' = added s /\
    rev (committed s') = [mkev 1; mkev 2; mkev 3; mkev 4; mkev 5] /\
    sched cfgA 100 s = drainA.
Proof.
  eexists. eexists. split; [vm_compute; reflexivity|].
  do 7 (split; [vm_compute; reflexivity|]).
  split; [repeat constructor|].
  split; [vm_compute; reflexivity|].
  repeat split; vm_compute; reflexivity.
Qed.

(* the same with a give-up: no retry allowed and a dead queue, the failed batch 0 is handed to
   onRetryError and commits nothing, the rest is committed *)
Definition cfgA' : cfg :=
  {| workers := 3; maxCount := 2; maxBytes := 0; retriable := true; retry := 0; deadq := true; atomic_push := true |}.
Definition traceA' : list label :=
  [LFree; LAdd (mkev 1); LNotReady 1 1 0 1; LAdd (mkev 2); LSeal 0 2 1 2; LPush 0; LTake 0; LOutBegin 0 2;
   LRetryCall 0 0; LRetryResult 0 0 false; LRetryCall 0 1; LRetryResult 0 1 false;
   LFree; LAdd (mkev 3); LNotReady 1 1 0 1; LAdd (mkev 4); LSeal 1 2 1 2; LPush 1;
   LFree; LAdd (mkev 5)].
Definition drainA' : list label :=
  [LRetryGiveUp 0 1 2 true false; LOutEnd 0 0 3; LCommitBegin 0 0; LCommitEnd 0 3;
   LTake 1; LOutBegin 1 2; LRetryCall 1 0; LRetryResult 1 0 true; LOutEnd 1 2 1; LCommitBegin 1 2;
   LCommitEv (mkev 3); LCommitEv (mkev 4); LCommitEnd 1 1;
   LSeal 2 1 2 1; LPush 2; LTake 2; LOutBegin 2 1; LRetryCall 2 0; LRetryResult 2 0 true; LOutEnd 2 1 2;
   LCommitBegin 2 1; LCommitEv (mkev 5); LCommitEnd 2 2].

Example drain_nonvacuous_giveup :
  exists s s',
    run cfgA' (init cfgA') traceA' = Some s /\
    map bstage (flight s) = [Sending 1 PFailed; Queued] /\ cur s = Some [mkev 5] /\ deciding s = true /\
    stopped s = false /\ crashed s = false /\
    Forall internal drainA' /\ run cfgA' s drainA' = Some s' /\
    flight s' = [] /\ queue s' = [] /\ deciding s' = false /\ cur_list s' = [] /\ commitSeq s' = outSeq s' /\
    rev (committed s') = [mkev 3; mkev 4; mkev 5] /\
    failed_hist s' = [(0, 1, false, [mkev 1; mkev 2])] /\
    sched cfgA' 100 s = drainA'.
Proof.
  eexists. eexists. split; [vm_compute; reflexivity|].
  do 5 (split; [vm_compute; reflexivity|]).
  split; [repeat constructor|].
  split; [vm_compute; reflexivity|].
  repeat split; vm_compute; reflexivity.
Qed.

(* B. two batch objects: both in flight (one inside OutFn, one queued), and the heartbeat sits inside
   its critical section waiting in getBatch (deciding = true, no current batch, no free batch).
   The workers free a batch, the heartbeat takes it and closes the section with NotReady. *)
Definition cfgB : cfg :=
  {| workers := 2; maxCount := 1; maxBytes := 0; retriable := false; retry := 0; deadq := false; atomic_push := true |}.
Definition traceB : list label :=
  [LFree; LAdd (mkev 1); LSeal 0 1 1 1; LPush 0; LTake 0; LOutBegin 0 1;
   LFree; LAdd (mkev 2); LSeal 1 1 1 1; LPush 1; LTick].
Definition drainB : list label :=
  [LOutEnd 0 1 1; LCommitBegin 0 1; LCommitEv (mkev 1); LCommitEnd 0 1;
   LTake 1; LOutBegin 1 1; LOutEnd 1 1 1; LCommitBegin 1 1; LCommitEv (mkev 2); LCommitEnd 1 1;
   LFree; LNotReady 0 0 0 0].

Example drain_nonvacuous_two_workers :
  exists s s',
    run cfgB (init cfgB) traceB = Some s /\
    map bstage (flight s) = [Sending 0 PIdle; Queued] /\ cur s = None /\ deciding s = true /\ free s = 0 /\
    stopped s = false /\ crashed s = false /\
    Forall internal drainB /\ run cfgB s drainB = Some s' /\
    flight s' = [] /\ queue s' = [] /\ deciding s' = false /\ cur_list s' = [] /\ commitSeq s' = outSeq s' /\
    rev (committed s') = [mkev 1; mkev 2] /\
    sched cfgB 100 s = drainB.
Proof.
  eexists. eexists. split; [vm_compute; reflexivity|].
  do 6 (split; [vm_compute; reflexivity|]).
  split; [repeat constructor|].
  split; [vm_compute; reflexivity|].
  repeat split; vm_compute; reflexivity.
Qed.

(* with TWO batch objects the state "one batch in OutFn + one queued + a current batch" does not exist:
   two batches in flight leave no batch object for a current one (that is why example A has three) *)
Lemma two_in_flight_no_current c ls s :
  workers c = 2 -> run c (init c) ls = Some s -> (2 <= length (flight s))%nat -> cur s = None /\ free s = 0.
Proof.
  intros Hw Hr Hlen. pose proof (wf_count _ _ (wf_reach _ _ _ Hr)) as Hn.
  destruct (extra_reach c s ltac:(lia) (ex_intro _ ls Hr)) as [E1 _ _ _]. unfold inv_free in E1.
  unfold cur_count in Hn. destruct (cur s); [lia|]. split; [reflexivity|lia].
Qed.

Print Assumptions batcher_can_always_drain_strong.
Print Assumptions batcher_drain_exactly_once.
Print Assumptions drain_nonvacuous.
Print Assumptions batcher_can_always_drain.
