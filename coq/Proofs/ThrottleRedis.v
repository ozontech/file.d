(* The redis composite of Model/Throttle.v (rl_allow, sync_one, rrun): one limiter without distribution, ONE process,
   syncs between events, a clock that does not step back.  The pair (increment limiter, total limiter) over the redis
   counters then takes exactly the decisions of the reference semantics of the in-memory backend.  Each limiter is in
   relation [R] (Proofs/Throttle.v) with a history of its own: a sync drops a bucket id from the increment limiter's history
   (R_drop) and puts the counter's new value into the total limiter's (R_put); [agree] says how the three histories and
   the redis counters account for one another. *)
From Verif Require Import Base.Sx Base.GoSem Model.Throttle Proofs.GoSemFacts Proofs.Throttle.
From Coq Require Import Lia ZifyBool.

Definition h_drop (id : Z) (h : list charge) : list charge := filter (fun x => negb (c_id x =? id)) h.
Definition s_drop (id : Z) (s : spec) : spec := {| s_hi := s_hi s; s_hist := h_drop id (s_hist s) |}.
Definition s_put (id v : Z) (s : spec) : spec :=
  {| s_hi := s_hi s; s_hist := {| c_id := id; c_slot := 0; c_val := v; c_pass := true |} :: h_drop id (s_hist s) |}.

(* a charge to slot 0, the only slot of a limiter without distribution *)
Definition charge0 (id v : Z) (p : bool) : charge := {| c_id := id; c_slot := 0; c_val := v; c_pass := p |}.

Lemma ctr_charge0 id v p h id' : ctr (charge0 id v p :: h) id' 0 = (if id =? id' then v else 0) + ctr h id' 0.
Proof. cbn [ctr charge0]. unfold in_cell. cbn [c_id c_slot c_val Z.eqb]. rewrite andb_true_r. reflexivity. Qed.

Lemma ctr_drop h id id' slot : ctr (h_drop id h) id' slot = if id' =? id then 0 else ctr h id' slot.
Proof.
  induction h as [|x r IH]; cbn [h_drop filter ctr]; [destruct (id' =? id); reflexivity|].
  fold (h_drop id r).
  destruct (Z.eqb_spec (c_id x) id) as [E|E]; cbn [negb ctr]; rewrite IH; unfold in_cell;
    destruct (Z.eqb_spec id' id) as [E'|E'].
  - reflexivity.
  - replace (c_id x =? id') with false by lia. reflexivity.
  - replace (c_id x =? id') with false by lia. reflexivity.
  - reflexivity.
Qed.

Lemma hist_bounded_drop c hi id h : hist_bounded c hi h -> hist_bounded c hi (h_drop id h).
Proof. intros Hb x Hx. apply filter_In in Hx. apply Hb. tauto. Qed.

Lemma reset_row_ok n m l i :
  wf_ring n m (ring l) -> 0 <= i < Z.of_nat n ->
  exists l', reset_row l i = Ok l' /\ minID l' = minID l /\ maxID l' = maxID l /\ wf_ring n m (ring l') /\
    (forall i' j', 0 <= i' -> 0 <= j' -> cellr (ring l') i' j' = if i' =? i then 0 else cellr (ring l) i' j') /\
    (forall k, k <> Z.to_nat i -> nth k (ring l') [] = nth k (ring l) []).
Proof.
  intros Hwf Hi. unfold reset_row.
  rewrite (idx_ok (ring l) i []) by (destruct Hwf; unfold len; lia). cbn [bind].
  destruct (ring_upd n m (ring l) i (map (fun _ => 0) (nth (Z.to_nat i) (ring l) [])) Hwf Hi) as (b & E & Hwf' & Hrows).
  { rewrite map_length. apply (wf_ring_row n m); [exact Hwf|lia]. }
  rewrite E. cbn [bind]. eexists. split; [reflexivity|]. unfold with_ring. cbn [minID maxID ring].
  split; [reflexivity|]. split; [reflexivity|]. split; [exact Hwf'|]. split.
  - intros i' j' Hi' _. unfold cellr at 1. rewrite Hrows by exact Hi'. destruct (i' =? i); [apply nth_zero_row|reflexivity].
  - intros k Hne. rewrite <- (Nat2Z.id k), Hrows by lia. replace (Z.of_nat k =? i) with false by lia. reflexivity.
Qed.

Lemma set_row1_ok n b i v :
  wf_ring n 1 b -> 0 <= i < Z.of_nat n ->
  exists b', set_row b i 0 [v] = Ok b' /\ wf_ring n 1 b' /\
    (forall i' j', 0 <= i' -> 0 <= j' -> cellr b' i' j' = if (i' =? i) && (j' =? 0) then v else cellr b i' j').
Proof.
  intros Hwf Hi. cbn [set_row].
  assert (Hrow : length (nth (Z.to_nat i) b []) = 1%nat) by (apply (wf_ring_row n 1); [exact Hwf|lia]).
  rewrite (idx_ok b i []) by (destruct Hwf; unfold len; lia). cbn [bind].
  destruct (upd_ok (nth (Z.to_nat i) b []) 0 v) as (row' & E & Hlen & Hnth); [unfold len; lia|].
  rewrite E. cbn [bind].
  destruct (ring_upd n 1 b i row' Hwf Hi) as (b' & E' & Hwf' & Hrows); [lia|].
  rewrite E'. cbn [bind]. exists b'. split; [reflexivity|]. split; [exact Hwf'|].
  intros i' j' Hi' Hj'. unfold cellr at 1. rewrite Hrows by exact Hi'.
  destruct (i' =? i) eqn:Ei; [|reflexivity]. apply Z.eqb_eq in Ei. subst i'. rewrite Hnth by exact Hj'. reflexivity.
Qed.

Lemma row1 (row : list Z) : length row = 1%nat -> row = [nth 0 row 0].
Proof. destruct row as [|x [|y r]]; cbn; intros H; try discriminate; reflexivity. Qed.

Fixpoint c_get (cs : ctrs) (k : ckey) : Z :=
  match cs with [] => 0 | (k', v) :: r => if ckey_eqb k' k then v else c_get r k end.

Lemma ckey_eqb_eq a b : ckey_eqb a b = true <-> a = b.
Proof.
  destruct a as [[k i] d], b as [[k' i'] d']. unfold ckey_eqb. rewrite !andb_true_iff, bytes_eqb_eq, !Z.eqb_eq.
  split; [intros [[-> ->] ->]; reflexivity|intros H; injection H; auto].
Qed.

Lemma ckey_eqb_refl k : ckey_eqb k k = true.
Proof. apply ckey_eqb_eq. reflexivity. Qed.

Lemma ckey_eqb_id k i i' d : ckey_eqb (k, i, d) (k, i', d) = (i =? i').
Proof. unfold ckey_eqb. rewrite bytes_eqb_refl. lia. Qed.

Lemma ckey_eqb_sym a b : ckey_eqb a b = ckey_eqb b a.
Proof. apply eq_true_iff_eq. rewrite !ckey_eqb_eq. split; auto. Qed.

Lemma ckey_eqb_trans a b c : ckey_eqb a b = true -> ckey_eqb a c = ckey_eqb b c.
Proof. intros H. apply ckey_eqb_eq in H. subst b. reflexivity. Qed.

(* INCRBY returns the new value of the counter and touches no other *)
Lemma ctr_add_spec cs k x :
  snd (ctr_add cs k x) = c_get cs k + x /\
  forall k', c_get (fst (ctr_add cs k x)) k' = if ckey_eqb k k' then c_get cs k + x else c_get cs k'.
Proof.
  induction cs as [|[k0 v0] r IH]; cbn [ctr_add c_get].
  - cbn [fst snd c_get]. split; [lia|]. intros k'. destruct (ckey_eqb k k'); lia.
  - destruct (ckey_eqb k0 k) eqn:E.
    + apply ckey_eqb_eq in E. subst k0. cbn [fst snd c_get]. split; [reflexivity|]. intros k'.
      destruct (ckey_eqb k k'); reflexivity.
    + destruct (ctr_add r k x) as [r' n]. cbn [fst snd c_get] in *. destruct IH as [IH1 IH2].
      split; [exact IH1|]. intros k'. rewrite IH2.
      destruct (ckey_eqb k0 k') eqn:E0; [|reflexivity]. apply ckey_eqb_eq in E0. subst k'.
      destruct (ckey_eqb k k0) eqn:E1; [|reflexivity].
      apply ckey_eqb_eq in E1. subst k0. rewrite ckey_eqb_refl in E. discriminate.
Qed.

Lemma R_live_inv c l s hi :
  R c l s -> s_hi s = Some hi ->
  maxID l = hi /\ minID l = hi - count c + 1 /\ 0 < minID l /\ wf_lim c l /\
  (forall id slot, minID l <= id <= hi -> 0 <= slot < Z.of_nat (nslots c) -> cell l id slot = ctr (s_hist s) id slot) /\
  hist_bounded c hi (s_hist s).
Proof.
  intros [Hs _ _|hi' Hs Hmax Hmin Hpos Hwf Hcell Hb] E; rewrite E in Hs; [discriminate|]. injection Hs as <-.
  exact (conj Hmax (conj Hmin (conj Hpos (conj Hwf (conj Hcell Hb))))).
Qed.

(* a sync drops a bucket id from the increment limiter's history ... *)
Lemma R_drop c l s hi id :
  R c l s -> s_hi s = Some hi -> minID l <= id <= hi ->
  exists l', reset_row l (id - minID l) = Ok l' /\ R c l' (s_drop id s) /\
    (forall k, k <> Z.to_nat (id - minID l) -> nth k (ring l') [] = nth k (ring l) []).
Proof.
  intros HR Hhi Hid. destruct (R_live_inv c l s hi HR Hhi) as (Hmax & Hmin & Hpos & Hwf & Hcell & Hb).
  destruct (reset_row_ok _ _ l (id - minID l) Hwf) as (l' & E & Hmn & Hmx & Hwf' & Hcells & Hrows); [lia|].
  exists l'. split; [exact E|]. split; [|exact Hrows].
  apply (R_live _ _ _ hi); cbn [s_drop s_hi s_hist]; try lia; [exact Hhi|exact Hwf'| |apply hist_bounded_drop; exact Hb].
  intros id' slot Hid' Hslot. rewrite cell_cellr, Hmn, Hcells, eqb_shift, ctr_drop by lia.
  destruct (id' =? id); [reflexivity|]. apply Hcell; lia.
Qed.

(* ... and puts the counter's new value into the total limiter's *)
Lemma R_put c l s hi id v :
  nslots c = 1%nat -> R c l s -> s_hi s = Some hi -> minID l <= id <= hi ->
  exists b, set_row (ring l) (id - minID l) 0 [v] = Ok b /\ R c (with_ring l b) (s_put id v s).
Proof.
  intros Hn1 HR Hhi Hid. destruct (R_live_inv c l s hi HR Hhi) as (Hmax & Hmin & Hpos & Hwf & Hcell & Hb).
  unfold wf_lim in Hwf. rewrite Hn1 in Hwf.
  destruct (set_row1_ok _ (ring l) (id - minID l) v Hwf) as (b & E & Hwf' & Hcells); [lia|].
  exists b. split; [exact E|].
  apply (R_live _ _ _ hi); unfold with_ring, wf_lim; rewrite ?Hn1; cbn [s_put s_hi s_hist minID maxID ring]; try assumption.
  - intros id' slot Hid' Hslot. assert (slot = 0) as -> by lia.
    rewrite cell_cellr. cbn [ring minID]. rewrite Hcells, eqb_shift by lia.
    rewrite (ctr_charge0 id v true), ctr_drop, (Z.eqb_sym id id').
    destruct (id' =? id); [cbn [andb Z.eqb]; lia|]. rewrite <- cell_cellr. apply Hcell; lia.
  - apply hist_bounded_cons; [apply hist_bounded_drop; exact Hb|cbn; lia|cbn; lia].
Qed.

Section Simple.
Variable c : cfg.
Hypothesis Hc : wf_cfg c = true.
Hypothesis Hs : shares c = [].
Hypothesis Hl : 0 <= limit c.

Lemma nslots1 : nslots c = 1%nat.
Proof. unfold nslots. rewrite Hs. reflexivity. Qed.

Definition step_val (o : op) : Z := if size_kind c then o_size o else 1.

Lemma s_step_simple s o :
  s_step c s o =
  let e := s_eid c (s_window c s (o_now o)) (o_ts o) in
  let p := ctr (s_hist s) e 0 + step_val o <=? limit c in
  ({| s_hi := Some (s_window c s (o_now o));
      s_hist := {| c_id := e; c_slot := 0; c_val := step_val o; c_pass := p |} :: s_hist s |}, p).
Proof using Hc Hs Hl.
  rewrite s_step_nonneg by exact Hl. unfold s_charge, s_slot, cell_limit. rewrite Hs. reflexivity.
Qed.

Lemma tid_mono n n' : 0 <= n <= n' -> time_to_id c n <= time_to_id c n'.
Proof. intros H. unfold time_to_id. unfold wf_cfg in Hc. apply Z.quot_le_mono; lia. Qed.

Definition hi_le (s : spec) (t : Z) : Prop := match s_hi s with None => True | Some h => h <= t end.

Lemma hi_le_mono s t t' : hi_le s t -> t <= t' -> hi_le s t'.
Proof. unfold hi_le. destruct (s_hi s); [lia|auto]. Qed.

Lemma window_cur s t n : hi_le s t -> t <= time_to_id c n -> s_window c s n = time_to_id c n.
Proof. unfold hi_le, s_window. destruct (s_hi s); [lia|reflexivity]. Qed.

(* the redis counters of throttle key k and the histories of the increment and the total limiter account for the
   reference history: counter + increment = reference total; the total limiter knows the reference total of every
   bucket the increment limiter has not closed *)
Definition agree (k : bytes) (cs : ctrs) (href hinc htot : list charge) : Prop :=
  (forall id, ctr href id 0 = c_get cs (k, id, 0) + ctr hinc id 0) /\
  (forall id, ctr hinc id 0 <= limit c -> ctr htot id 0 = ctr href id 0) /\
  (forall id, 0 <= c_get cs (k, id, 0) /\ 0 <= ctr hinc id 0).

(* t: a bucket id that none of the three has gone past; the last three conjuncts are [agree] of the three histories *)
Definition Inv (k : bytes) (t : Z) (inc tot : lim) (cs : ctrs) (sref : spec) : Prop :=
  exists sinc stot,
    R c inc sinc /\ R c tot stot /\ hi_le sinc t /\ hi_le stot t /\ hi_le sref t /\
    (forall id, ctr (s_hist sref) id 0 = c_get cs (k, id, 0) + ctr (s_hist sinc) id 0) /\
    (forall id, ctr (s_hist sinc) id 0 <= limit c -> ctr (s_hist stot) id 0 = ctr (s_hist sref) id 0) /\
    (forall id, 0 <= c_get cs (k, id, 0) /\ 0 <= ctr (s_hist sinc) id 0).

Lemma Inv_intro k W inc tot cs sref hinc stot :
  R c inc {| s_hi := Some W; s_hist := hinc |} -> R c tot stot -> hi_le stot W -> hi_le sref W ->
  agree k cs (s_hist sref) hinc (s_hist stot) -> Inv k W inc tot cs sref.
Proof.
  intros HRi HRt Hht Hhr HA. eexists _, stot. split; [exact HRi|]. split; [exact HRt|].
  split; [exact (Z.le_refl W)|]. split; [exact Hht|]. split; [exact Hhr|exact HA].
Qed.

(* an event charged to all three histories; the total limiter sees it only if the increment limiter lets it pass *)
Lemma agree_event k cs href hinc htot e v pr pi pt :
  agree k cs href hinc htot -> 0 <= v ->
  agree k cs (charge0 e v pr :: href) (charge0 e v pi :: hinc)
        (if ctr hinc e 0 + v <=? limit c then charge0 e v pt :: htot else htot).
Proof.
  intros (HB & HC & HD) Hv.
  split; [|split]; intros id; rewrite !ctr_charge0; specialize (HB id); specialize (HC id); specialize (HD id).
  - lia.
  - destruct (Z.leb_spec (ctr hinc e 0 + v) (limit c)); [rewrite ctr_charge0|]; destruct (Z.eqb_spec e id); subst; lia.
  - destruct (e =? id); lia.
Qed.

(* a sync of bucket id0: the increment moves into the counter, the total limiter takes the counter's new value *)
Lemma agree_sync k cs cs' href hinc htot id0 v :
  agree k cs href hinc htot -> v = c_get cs (k, id0, 0) + ctr hinc id0 0 ->
  (forall id, c_get cs' (k, id, 0) = if id =? id0 then v else c_get cs (k, id, 0)) ->
  agree k cs' href (h_drop id0 hinc) (charge0 id0 v true :: h_drop id0 htot).
Proof.
  (* lia would draw the section's 0 <= limit c into the proof and so into the statement *)
  clear Hl. intros (HB & HC & HD) -> Hget.
  pose proof (HB id0). pose proof (HD id0).
  split; [|split]; intros id; rewrite ?ctr_charge0, ?Hget, !ctr_drop, ?(Z.eqb_sym id0 id);
    specialize (HB id); specialize (HC id); specialize (HD id); destruct (Z.eqb_spec id id0) as [->|Hne]; lia.
Qed.

(* isAllowed of one of the two limiters when the clock is at or past everything it has seen *)
Lemma allow_simple l s o t :
  R c l s -> hi_le s t -> t <= time_to_id c (o_now o) -> count c * interval c <= o_now o ->
  let e := s_eid c (time_to_id c (o_now o)) (o_ts o) in
  let p := ctr (s_hist s) e 0 + step_val o <=? limit c in
  exists l', allow c l (o_now o) (o_ts o) (o_size o) None = Ok (l', p) /\
             R c l' {| s_hi := Some (time_to_id c (o_now o));
                       s_hist := charge0 e (step_val o) p :: s_hist s |}.
Proof.
  intros HR Hhi Ht Hnow.
  destruct (allow_R c l s {| o_now := o_now o; o_ts := o_ts o; o_size := o_size o; o_dv := None |} Hc)
    as (l' & E & HR'); [unfold timed; cbn; lia|reflexivity|exact HR|].
  rewrite s_step_simple in E, HR'. cbn [o_now o_ts o_size o_dv] in E, HR'.
  rewrite (window_cur s t _ Hhi Ht) in E, HR'. exists l'. split; [exact E|exact HR'].
Qed.

(* a limiter without distribution has no groups to look a distribution value up in *)
Lemma group_idx_nil id i : group_idx [] id i = None.
Proof. reflexivity. Qed.

Lemma ev_step k t inc tot cs sref o :
  Inv k t inc tot cs sref -> t <= time_to_id c (o_now o) -> count c * interval c <= o_now o -> 0 <= o_size o ->
  exists inc' tot',
    rl_allow c [] inc tot (o_now o) (o_ts o) (o_size o) (o_dv o) = Ok (inc', tot', snd (s_step c sref o)) /\
    Inv k (time_to_id c (o_now o)) inc' tot' cs (fst (s_step c sref o)).
Proof.
  intros (sinc & stot & HRi & HRt & Hhi & Hht & Hhr & HA) Ht Hnow Hsz.
  unfold rl_allow. replace (match o_dv o with None => None | Some id => group_idx [] id 0 end) with (@None Z)
    by (destruct (o_dv o); reflexivity).
  destruct (allow_simple inc sinc o t HRi Hhi Ht Hnow) as (inc' & Ei & HRi'). rewrite Ei. cbn [bind].
  rewrite (s_step_simple sref o), (window_cur sref t _ Hhr Ht). cbn [fst snd].
  set (W := time_to_id c (o_now o)) in *. set (e := s_eid c W (o_ts o)) in *. set (v := step_val o) in *.
  assert (Hv : 0 <= v) by (unfold v, step_val; destruct (size_kind c); lia).
  pose proof (agree_event k cs _ _ _ e v (ctr (s_hist sref) e 0 + v <=? limit c) (ctr (s_hist sinc) e 0 + v <=? limit c)
                (ctr (s_hist stot) e 0 + v <=? limit c) HA Hv) as HA'. cbv zeta in HA'.
  destruct HA as (HB & HC & HD). specialize (HB e). specialize (HC e). specialize (HD e).
  destruct (Z.leb_spec (ctr (s_hist sinc) e 0 + v) (limit c)) as [Hle|Hgt].
  - (* the increment limiter lets the event through: the total limiter decides, on the reference total *)
    destruct (allow_simple tot stot o t HRt Hht Ht Hnow) as (tot' & Et & HRt'). rewrite Et. cbn [bind]. fold W e v in HRt' |- *.
    exists inc', tot'. split; [rewrite HC by lia; reflexivity|].
    apply (Inv_intro k W _ _ cs _ _ _ HRi' HRt'); [exact (Z.le_refl W)|exact (Z.le_refl W)|exact HA'].
  - (* rejected by the increment limiter: the reference total is at least the increment total *)
    cbn [bind]. exists inc', tot. split; [replace (ctr (s_hist sref) e 0 + v <=? limit c) with false by lia; reflexivity|].
    apply (Inv_intro k W _ _ cs _ _ stot HRi' HRt (hi_le_mono stot t W Hht Ht)); [exact (Z.le_refl W)|exact HA'].
Qed.

Lemma R_row1 l s hi j :
  R c l s -> s_hi s = Some hi -> (j < length (ring l))%nat -> nth j (ring l) [] = [ctr (s_hist s) (minID l + Z.of_nat j) 0].
Proof.
  intros HR Hhi Hj. destruct (R_live_inv c l s hi HR Hhi) as (Hmax & Hmin & Hpos & Hwf & Hcell & Hb).
  pose proof Hwf as [Hn _]. unfold wf_lim in Hwf. rewrite nslots1 in Hwf.
  rewrite (row1 (nth j (ring l) [])) by (apply (wf_ring_row _ _ _ _ Hwf); lia). f_equal.
  rewrite <- Hcell by (rewrite ?nslots1; lia). rewrite cell_cellr. unfold cellr.
  replace (minID l + Z.of_nat j - minID l) with (Z.of_nat j) by lia. rewrite Nat2Z.id. reflexivity.
Qed.

(* [Inv] inside one sync, as the invariant of the loop sync_rows: both limiters have been rebuilt to window W (s_hi exactly Some W,
   not hi_le), nothing is asked of s_hi sref, and the two specs are parameters: each pushed bucket changes them (s_drop, s_put) *)
Definition InvW (k : bytes) (W : Z) (inc tot : lim) (cs : ctrs) (sref : spec) (sinc stot : spec) : Prop :=
  R c inc sinc /\ R c tot stot /\ s_hi sinc = Some W /\ s_hi stot = Some W /\
  (forall id, ctr (s_hist sref) id 0 = c_get cs (k, id, 0) + ctr (s_hist sinc) id 0) /\
  (forall id, ctr (s_hist sinc) id 0 <= limit c -> ctr (s_hist stot) id 0 = ctr (s_hist sref) id 0) /\
  (forall id, 0 <= c_get cs (k, id, 0) /\ 0 <= ctr (s_hist sinc) id 0).

(* [snap] is what is left of the snapshot of the increment ring: the rows from index i on, which no push has touched yet
   (pushing a bucket resets that bucket's row only) *)
Lemma sync_rows_ok k W sref : forall snap i inc tot cs sinc stot,
  InvW k W inc tot cs sref sinc stot ->
  0 <= i -> Z.of_nat (length snap) = count c - i ->
  (forall j, (j < length snap)%nat -> nth j snap [] = nth (Z.to_nat i + j) (ring inc) []) ->
  exists inc' tot' cs' sinc' stot',
    sync_rows c [] k (W - count c + 1) W i snap inc tot cs None None = Ok (inc', tot', cs', None) /\
    InvW k W inc' tot' cs' sref sinc' stot'.
Proof.
  clear Hl. induction snap as [|row snap IH]; intros i inc tot cs sinc stot HI Hi Hlen Hsnap.
  - exists inc, tot, cs, sinc, stot. split; [reflexivity|exact HI].
  - pose proof HI as (HRi & HRt & Hhi & Hht & HA). cbn [length] in Hlen.
    destruct (R_live_inv c inc sinc W HRi Hhi) as (Hmaxi & Hmini & _ & [Hn _] & _).
    destruct (R_live_inv c tot stot W HRt Hht) as (Hmaxt & Hmint & _).
    set (id0 := W - count c + 1 + i).
    assert (Hrow : row = [ctr (s_hist sinc) id0 0]).
    { pose proof (Hsnap 0%nat (Nat.lt_0_succ _)) as H0. cbn [nth] in H0.
      rewrite H0, Nat.add_0_r, (R_row1 _ _ _ _ HRi Hhi) by lia. do 2 f_equal. lia. }
    assert (Htail : forall inc1, (forall j, j <> Z.to_nat i -> nth j (ring inc1) [] = nth j (ring inc) []) ->
                      forall j, (j < length snap)%nat -> nth j snap [] = nth (Z.to_nat (i + 1) + j) (ring inc1) []).
    { intros inc1 Hrows j Hj. pose proof (Hsnap (S j)) as HS. cbn [nth length] in HS.
      rewrite Hrows, HS by lia. f_equal. lia. }
    cbn [sync_rows]. unfold row_empty. rewrite Hs, Hrow. cbn [forallb]. rewrite andb_true_r.
    set (x := ctr (s_hist sinc) id0 0) in *.
    destruct (Z.eqb_spec x 0) as [Hx0|Hx0].
    + (* nothing arrived in this bucket since the last sync *)
      apply (IH (i + 1) inc tot cs sinc stot HI); [lia|lia|apply Htail; reflexivity].
    + cbn [push_row]. destruct (ctr_add_spec cs (k, id0, 0) x) as [Hv Hget]. fold id0.
      destruct (ctr_add cs (k, id0, 0) x) as [cs1 v]. cbn [fst snd] in Hv, Hget. cbn [bind]. unfold actualize.
      rewrite Hmaxi, Hmaxt, Z.eqb_refl.
      destruct (R_drop c inc sinc W id0 HRi Hhi) as (inc1 & Ereset & HRi1 & Hrows); [lia|].
      destruct (R_put c tot stot W id0 v nslots1 HRt Hht) as (b & Eset & HRt1); [lia|].
      replace (id0 - minID inc) with i in Ereset, Hrows by lia. replace (id0 - minID tot) with i in Eset by lia.
      rewrite Ereset. cbn [bind]. rewrite Eset. cbn [bind].
      apply (IH (i + 1) inc1 (with_ring tot b) cs1 (s_drop id0 sinc) (s_put id0 v stot)); [|lia|lia|exact (Htail inc1 Hrows)].
      split; [exact HRi1|]. split; [exact HRt1|]. split; [exact Hhi|]. split; [exact Hht|].
      apply (agree_sync k cs cs1 _ _ _ id0 v HA Hv). intros id. rewrite Hget, ckey_eqb_id, Hv, (Z.eqb_sym id0 id). reflexivity.
Qed.

Lemma far_eid W n : 0 <= n <= FAR -> W = time_to_id c n -> s_eid c W FAR = W.
Proof.
  intros Hn ->. pose proof (tid_mono n FAR Hn). unfold s_eid.
  destruct ((time_to_id c n - count c + 1 <=? time_to_id c FAR) && (time_to_id c FAR <=? time_to_id c n)) eqn:E; lia.
Qed.

Lemma sync_step k t r cs sref n :
  rl_c r = c -> rl_gs r = [] -> rl_tkey r = k ->
  Inv k t (rl_inc r) (rl_tot r) cs sref -> t <= time_to_id c n -> count c * interval c <= n -> n <= FAR ->
  exists r' cs' f,
    sync_one false n [] cs r None = Ok (r', cs', f) /\ rl_c r' = c /\ rl_gs r' = [] /\ rl_tkey r' = k /\
    Inv k (time_to_id c n) (rl_inc r') (rl_tot r') cs' sref.
Proof.
  clear Hl. intros Ec Eg Ek (sinc & stot & HRi & HRt & Hhi & Hht & Hhr & HA) Ht Hnow Hfar.
  assert (Hn0 : 0 <= n) by (unfold wf_cfg in Hc; nia).
  unfold sync_one. rewrite Ec, Eg, Ek.
  destruct (rebuild_R c (rl_inc r) sinc n FAR Hc Hnow HRi) as (inc1 & Ei & HLi).
  destruct (rebuild_R c (rl_tot r) stot n FAR Hc Hnow HRt) as (tot1 & Et & HLt).
  rewrite (window_cur sinc t n Hhi Ht) in *. rewrite (window_cur stot t n Hht Ht) in *.
  set (W := time_to_id c n) in *.
  rewrite (far_eid W n) in Ei, Et by (auto; lia).
  rewrite Ei. cbn [bind]. rewrite Et. cbn [bind]. rewrite (live_min _ _ _ _ HLt).
  destruct (sync_rows_ok k W sref (ring inc1) 0 inc1 tot1 cs _ _
              (conj (live_R _ _ _ _ HLi) (conj (live_R _ _ _ _ HLt) (conj eq_refl (conj eq_refl HA)))))
    as (inc2 & tot2 & cs2 & sinc2 & stot2 & Esync & HRi2 & HRt2 & Hhi2 & Hht2 & HA2); [lia| |intros j _; reflexivity|].
  { destruct (live_wf _ _ _ _ HLi) as [Hn _]. rewrite Hn. unfold wf_cfg in Hc. lia. }
  rewrite Esync. cbn [bind a_get].
  eexists _, cs2, None. split; [reflexivity|]. cbn [rl_c rl_gs rl_tkey rl_inc rl_tot].
  split; [reflexivity|]. split; [reflexivity|]. split; [reflexivity|].
  exists sinc2, stot2. unfold hi_le at 1 2. rewrite Hhi2, Hht2.
  exact (conj HRi2 (conj HRt2 (conj (Z.le_refl W) (conj (Z.le_refl W) (conj (hi_le_mono sref t W Hhr Ht) HA2))))).
Qed.

Lemma rtimed_cons last it its :
  rtimed c last (it :: its) = true ->
  last <= ritem_clock it /\ count c * interval c <= ritem_clock it <= FAR /\
  match it with REv o => 0 <= o_size o | RSync _ => True end /\ rtimed c (ritem_clock it) its = true.
Proof. cbn [rtimed]. destruct it; lia. Qed.

Lemma rrun_ok k : forall its r cs sref last,
  rl_c r = c -> rl_gs r = [] -> rl_tkey r = k ->
  Inv k (time_to_id c last) (rl_inc r) (rl_tot r) cs sref -> 0 <= last -> rtimed c last its = true ->
  rrun r cs its = Ok (snd (s_run c sref (r_events its))).
Proof.
  induction its as [|it its IH]; intros r cs sref last Ec Eg Ek HI Hlast Ht; [reflexivity|].
  apply rtimed_cons in Ht. destruct Ht as (Hmono & [Hnow Hfar] & Hsize & Ht).
  assert (Htid : time_to_id c last <= time_to_id c (ritem_clock it)) by (apply tid_mono; lia).
  pose proof (Z.le_trans _ _ _ Hlast Hmono) as Hlast'.
  destruct it as [o|n]; cbn [ritem_clock] in *; cbn [rrun r_events].
  - rewrite Ec, Eg, s_run_cons.
    destruct (ev_step k (time_to_id c last) (rl_inc r) (rl_tot r) cs sref o HI Htid Hnow Hsize) as (inc' & tot' & Hal & HI').
    rewrite Hal. cbn [bind snd].
    rewrite (IH _ cs (fst (s_step c sref o)) (o_now o)); cbn [rl_c rl_gs rl_tkey rl_inc rl_tot]; auto.
  - destruct (sync_step k (time_to_id c last) r cs sref n Ec Eg Ek HI Htid Hnow Hfar) as (r' & cs' & f & Hsync & Ec' & Eg' & Ek' & HI').
    rewrite Hsync. cbn [bind].
    apply (IH r' cs' sref n); auto.
Qed.

End Simple.

(* one redis limiter without distribution, one process, syncs between events, a clock that does not step back:
   never panics, and every decision is the one of the reference semantics of the in-memory backend *)
Theorem redis_single_process c k its :
  wf_cfg c = true -> shares c = [] -> 0 <= limit c -> rtimed c 0 its = true ->
  rrun (rl_fresh c k) [] its = Ok (snd (s_run c spec0 (r_events its))).
Proof.
  intros Hc Hs Hl Ht.
  apply (rrun_ok c Hc Hs Hl k its (rl_fresh c k) [] spec0 0); auto; [|lia].
  exists spec0, spec0. cbn [rl_fresh rl_inc rl_tot].
  split; [apply R_spec0|]. split; [apply R_spec0|].
  unfold hi_le. cbn [spec0 s_hi s_hist ctr c_get]. repeat split; auto; lia.
Qed.

(* the restriction to limiters WITHOUT distribution is needed: the two limiters run getDistrData on their own counters,
   the sync overwrites the total ring with the increment limiter's attribution, and a stolen charge vanishes from the
   listed slot.  Limit 10 = default share 9 + listed share 1, one bucket (id 2): 11 events pass. *)
Definition c_rd : cfg := {| count := 2; interval := 10; size_kind := false; limit := 10; deflimit := 9; shares := [1] |}.
Definition r_rd : rl :=
  {| rl_c := c_rd; rl_gs := [(10, [0])]; rl_tkey := []; rl_lkey := []; rl_inc := lim0 c_rd; rl_tot := lim0 c_rd |}.
Definition ev_rd (dv : option Z) : ritem := REv {| o_now := 25; o_ts := 25; o_size := 1; o_dv := dv |}.
Lemma redis_distribution_refuted :
  let its := repeat (ev_rd None) 9 ++ [RSync 25; ev_rd None; RSync 25; ev_rd (Some 0)] in
  rtimed c_rd 0 its = true /\ rrun r_rd [] its = Ok (repeat true 11) /\
  eids_from c_rd None (r_events its) = repeat 2 11 /\ deflimit c_rd + sumZ (shares c_rd) = 10.
Proof. vm_compute. repeat split. Qed.

(* non-vacuity of redis_single_process: limit 2, two buckets of 10ns; a sync between the second and the third event of
   bucket 2, a later bucket, a late event timed back into the full bucket *)
Lemma redis_single_process_nonvacuous :
  let c := {| count := 2; interval := 10; size_kind := false; limit := 2; deflimit := 0; shares := [] |} in
  let e := fun n t => REv {| o_now := n; o_ts := t; o_size := 1; o_dv := None |} in
  let its := [e 20 20; e 21 21; RSync 22; e 23 23; e 31 31; RSync 35; e 36 25; e 36 36] in
  wf_cfg c = true /\ rtimed c 0 its = true /\
  rrun (rl_fresh c []) [] its = Ok [true; true; false; true; false; true].
Proof. vm_compute. repeat split. Qed.
