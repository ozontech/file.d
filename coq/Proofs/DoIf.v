(* Proofs about Model/DoIf.v: the code's short-cuts compute the documented meaning ([check_eq_eval], under
   side conditions - on the lower-casing ([lower_hyp]) and on array / object fields, read through a placeholder
   byte ([cont_ok]) - that the examples at the end show to be needed); the decision depends
   neither on the order of operands or values nor on what was checked before. *)
From Verif Require Import Base.Sx Base.GoSem Base.Json Model.DoIf Proofs.GoSemFacts Proofs.ListFacts Proofs.JsonFacts.
From Coq Require Import Lia ZifyBool Permutation.

Lemma any_of_existsb {A} (f : A -> bool) l : any_of f l = existsb f l.
Proof. induction l as [|x r IH]; [reflexivity|]. cbn [any_of existsb]. rewrite IH. reflexivity. Qed.

(* fieldOpNode.Check looks the bucket valuesBySize[len] up first: an empty bucket is no match *)
Lemma any_of_match {A} (f : A -> bool) l :
  match l with [] => false | c :: b => any_of f (c :: b) end = any_of f l.
Proof. destruct l; reflexivity. Qed.

Lemma has_suffix_len l s : has_suffix l s = true -> len s <= len l.
Proof. unfold has_suffix. intros H. apply has_prefix_len in H. rewrite !len_rev in H. exact H. Qed.

Lemma contains_len l needle : contains l needle = true -> len needle <= len l.
Proof. unfold contains. intros H. destruct (index_sub_bounds l needle); lia. Qed.

Lemma has_prefix_firstn p : forall k l, (length p <= k)%nat -> has_prefix (firstn k l) p = has_prefix l p.
Proof.
  induction p as [|a p IH]; intros k l Hk; [destruct k, l; reflexivity|]. cbn [length] in Hk.
  destruct k as [|k]; [lia|]. destruct l as [|b l]; [reflexivity|]. cbn [firstn has_prefix].
  rewrite IH; [reflexivity|lia].
Qed.

Lemma has_suffix_lastn k l s : (length s <= k)%nat -> has_suffix (lastn k l) s = has_suffix l s.
Proof.
  intros Hk. unfold has_suffix, lastn. rewrite <- firstn_rev. apply has_prefix_firstn. rewrite rev_length. exact Hk.
Qed.

Lemma opt_eqb_iff a b : opt_eqb a b = true <-> a = b.
Proof.
  destruct a as [x|], b as [y|]; cbn [opt_eqb]; try (split; (reflexivity || discriminate)).
  rewrite bytes_eqb_eq. split; [intros ->; reflexivity|intros H; injection H as ->; reflexivity].
Qed.

(* minValLen / maxValLen are folds that keep the lower / the higher of two lengths ([fold_pick_*] of ListFacts) *)
Lemma min_len_le v0 vr v : In v (v0 :: vr) -> min_len v0 vr <= vlen v.
Proof. apply (fold_pick_least vlen Z.min Z.le Z.le_refl Z.le_trans Z.le_min_l Z.le_min_r). Qed.

Lemma max_len_ge v0 vr v : In v (v0 :: vr) -> vlen v <= max_len v0 vr.
Proof.
  apply (fold_pick_least vlen Z.max (fun a b => b <= a) Z.le_refl (fun a b c H1 H2 => Z.le_trans c b a H2 H1)
           Z.le_max_l Z.le_max_r).
Qed.

Lemma min_len_perm v0 vr w0 wr : Permutation (v0 :: vr) (w0 :: wr) -> min_len v0 vr = min_len w0 wr.
Proof.
  apply (fold_pick_perm vlen Z.min Z.le Z.le_refl Z.le_trans Z.le_antisymm Z.le_min_l Z.le_min_r Z.min_glb).
Qed.

Lemma max_len_perm v0 vr w0 wr : Permutation (v0 :: vr) (w0 :: wr) -> max_len v0 vr = max_len w0 wr.
Proof.
  apply (fold_pick_perm vlen Z.max (fun a b => b <= a) Z.le_refl (fun a b c H1 H2 => Z.le_trans c b a H2 H1)
           (fun a b H1 H2 => Z.le_antisymm a b H2 H1) Z.le_max_l Z.le_max_r Z.max_lub).
Qed.

(* the [node_ind] Coq derives has no induction hypothesis for the operands of [NAnd] / [NOr] *)
Section NodeInd.
  Variable P : node -> Prop.
  Hypothesis HField : forall op path cs v0 vr, P (NField op path cs v0 vr).
  Hypothesis HLen : forall op path c v, P (NLen op path c v).
  Hypothesis HTs : forall path format c mode shift, P (NTs path format c mode shift).
  Hypothesis HType : forall path types, P (NType path types).
  Hypothesis HAnd : forall ops, (forall x, In x ops -> P x) -> P (NAnd ops).
  Hypothesis HOr : forall ops, (forall x, In x ops -> P x) -> P (NOr ops).
  Hypothesis HNot : forall x, P x -> P (NNot x).
  Fixpoint node_ind' (n : node) : P n :=
    let all := fix go (l : list node) : Forall P l :=
                 match l with [] => Forall_nil P | x :: r => Forall_cons x (node_ind' x) (go r) end in
    match n with
    | NField op path cs v0 vr => HField op path cs v0 vr
    | NLen op path c v => HLen op path c v
    | NTs path format c mode shift => HTs path format c mode shift
    | NType path types => HType path types
    | NAnd ops => HAnd ops (proj1 (Forall_forall P ops) (all ops))
    | NOr ops => HOr ops (proj1 (Forall_forall P ops) (all ops))
    | NNot x => HNot x (node_ind' x)
    end.
End NodeInd.

Lemma len_bracket {A} (o c : A) (s : list A) : len (o :: s ++ [c]) = len s + 2.
Proof. rewrite len_cons, len_app, len_cons, len_nil. lia. Qed.

Lemma commas_cons {A} (x : A) l : commas (len (x :: l)) = len l.
Proof. unfold commas. rewrite len_cons. pose proof (len_nonneg l). destruct (len l + 1 =? 0) eqn:E; lia. Qed.

Lemma join_comma_len l : len (join_comma l) = len (concat l) + commas (len l).
Proof.
  induction l as [|x [|y r] IH]; [reflexivity| |]; rewrite commas_cons.
  - cbn [join_comma concat]. rewrite app_nil_r. change (len []) with 0. lia.
  - change (join_comma (x :: y :: r)) with (x ++ 44%N :: join_comma (y :: r)).
    change (concat (x :: y :: r)) with (x ++ concat (y :: r)).
    rewrite !len_app, len_cons, IH, commas_cons, len_cons. lia.
Qed.

(* the sizes [sz] and the texts [enc] of the members of a container, each computed by a loop of its own *)
Lemma parts_len {A} (one : A -> Z) (part : A -> bytes) (sz : list A -> Z) (enc : list A -> list bytes) :
  sz [] = 0 -> enc [] = [] ->
  (forall x r, sz (x :: r) = one x + sz r) -> (forall x r, enc (x :: r) = part x :: enc r) ->
  forall l, Forall (fun x => one x = len (part x)) l -> sz l + commas (len l) = len (join_comma (enc l)).
Proof.
  intros S0 E0 S1 E1 l H. rewrite join_comma_len.
  enough (sz l = len (concat (enc l)) /\ len (enc l) = len l) as [-> ->] by reflexivity.
  induction H as [|x r Hx _ [IH1 IH2]]; [rewrite S0, E0; split; reflexivity|].
  rewrite S1, E1. cbn [concat]. rewrite len_app, !len_cons, Hx, IH1, IH2. split; reflexivity.
Qed.

(* getNodeBytesSize computes the length of the compact text *)
Theorem byte_size_spec : forall j, byte_size j = len (encode j).
Proof.
  induction j as [| b | r | s | l IH | fs IH] using json_ind2; try reflexivity; cbn [byte_size encode];
    unfold quote; rewrite len_bracket.
  - (* string *) reflexivity.
  - (* array *)
    f_equal. apply (parts_len byte_size encode); try reflexivity. exact IH.
  - (* object *)
    f_equal.
    apply (parts_len (fun kv => len (fst kv) + 2 + 1 + byte_size (snd kv)) (fun kv => quote (fst kv) ++ 58%N :: encode (snd kv)));
      [reflexivity|reflexivity|intros [k v] r; reflexivity|intros [k v] r; reflexivity|].
    eapply Forall_impl; [|exact IH]. intros [k v] Hv. cbn [fst snd] in *.
    unfold quote. rewrite len_app, len_bracket, len_cons, Hv. lia.
Qed.

Lemma jtype_eqb_eq a b : jtype_eqb a b = true -> a = b.
Proof. destruct a, b; cbn [jtype_eqb]; intros H; try reflexivity; discriminate. Qed.

(* usedTypesMap: a type is checked where it is first met; later occurrences change nothing *)
Lemma dedup_existsb (p : jtype -> bool) l : forall seen,
  existsb p (dedup seen l) = existsb (fun t => negb (existsb (jtype_eqb t) seen) && p t) l.
Proof.
  induction l as [|t r IH]; intros seen; cbn [dedup existsb]; [reflexivity|].
  destruct (existsb (jtype_eqb t) seen); cbn [existsb negb andb]; rewrite IH; [reflexivity|].
  destruct (p t) eqn:Hp; [reflexivity|]. cbn [orb]. apply existsb_ext_in. intros t' _. cbn [existsb].
  (* the occurrences of [t] that are skipped from here on fail [p] like [t] itself *)
  destruct (jtype_eqb t' t) eqn:E; [|reflexivity]. apply jtype_eqb_eq in E. subst t'.
  rewrite Hp, !andb_false_r. reflexivity.
Qed.

Lemma any_of_dedup (p : jtype -> bool) types : any_of p (dedup [] types) = existsb p types.
Proof. rewrite any_of_existsb. apply (dedup_existsb p types []). Qed.

Definition fd_of (d : option bytes) : fdata := match d with None => FAbsent | Some b => FBytes b end.

(* eventData.Get and the documented reading part only on arrays and objects, where Get hands out a placeholder byte *)
Lemma get_fget e path :
  fget e path = FContainer /\ get e path = Some [0%N] \/ fget e path = fd_of (get e path).
Proof. unfold get, fget. destruct (jdig e path) as [[| | | | |]|]; auto. Qed.

(* the operations whose match bounds the length of the value by that of the field: fieldOpNode.Check
   leaves at once when the field is shorter than every value *)
Definition len_exit (op : fop) : bool := match op with FRegex | FContainsAny => false | _ => true end.

Section Main.
  Variable lower : bytes -> bytes.
  Variable re_match : bytes -> bytes -> bool.
  Variable go_contains_any : bytes -> bytes -> bool.
  Variable parse_time : bytes -> bytes -> option Z.
  Variable as_int : bytes -> Z.
  Variable re_ok : bytes -> bool.

  Notation fcheck := (field_check lower re_match go_contains_any).
  Notation feval := (field_eval lower re_match go_contains_any).
  Notation checkM := (check lower re_match go_contains_any parse_time as_int).
  Notation evalM := (eval lower re_match go_contains_any parse_time as_int).

  (* what the loops of fieldOpNode.Check test of one value [v]; [m] is maxValLen *)
  Definition vcheck (op : fop) (cs : bool) (m : Z) (d v : option bytes) : bool :=
    match op with
    | FEqual => (vlen (cval lower cs v) =? vlen d) && opt_eqb (cval lower cs d) (cval lower cs v)
    | FContains => contains (low lower cs (bytes_of d)) (bytes_of (cval lower cs v))
    | FContainsAny => go_contains_any (low lower cs (bytes_of d)) (bytes_of (cval lower cs v))
    | FPrefix =>
        has_prefix (low lower cs (if len (bytes_of d) >? m then firstn (Z.to_nat m) (bytes_of d) else bytes_of d))
                   (bytes_of (cval lower cs v))
    | FSuffix =>
        has_suffix (low lower cs (if len (bytes_of d) >? m then lastn (Z.to_nat m) (bytes_of d) else bytes_of d))
                   (bytes_of (cval lower cs v))
    | FRegex => re_match (bytes_of v) (bytes_of d)
    end.

  (* what the documentation tests of one value *)
  Definition vtest (op : fop) (cs : bool) (d v : option bytes) : bool :=
    match op with
    | FEqual => opt_eqb (cval lower cs d) (cval lower cs v)
    | FContains => contains (low lower cs (bytes_of d)) (low lower cs (bytes_of v))
    | FContainsAny => go_contains_any (low lower cs (bytes_of d)) (low lower cs (bytes_of v))
    | FPrefix => has_prefix (low lower cs (bytes_of d)) (low lower cs (bytes_of v))
    | FSuffix => has_suffix (low lower cs (bytes_of d)) (low lower cs (bytes_of v))
    | FRegex => re_match (bytes_of v) (bytes_of d)
    end.

  Lemma cval_if (cs : bool) (d : option bytes) :
    (if cs then d else match d with Some x => Some (lower x) | None => None end) = cval lower cs d.
  Proof. destruct cs, d; reflexivity. Qed.

  (* buckets and loops as one [existsb] over the values; contains_any looks at the first value only *)
  Lemma field_check_normal op cs v0 vr d :
    (op = FContainsAny -> vr = []) ->
    fcheck op cs v0 vr d =
      if len_exit op && (vlen d <? min_len v0 vr) then false
      else existsb (vcheck op cs (max_len v0 vr) d) (v0 :: vr).
  Proof.
    intros Hany. unfold field_check. destruct op; cbv beta iota zeta; cbn [len_exit andb];
      (* where there is an exit and it is taken, both sides are [false] *)
      try match goal with |- (if ?g then _ else _) = _ => destruct g; [reflexivity|] end.
    - (* equal: the bucket of the field's length is a filter of the values *)
      rewrite cval_if, (any_of_match (fun c => opt_eqb _ c)), any_of_existsb, existsb_filter, existsb_map.
      reflexivity.
    - (* contains *) rewrite any_of_existsb, existsb_map. reflexivity.
    - (* contains_any: one value *) rewrite (Hany eq_refl). symmetry. apply orb_false_r.
    - (* prefix *) rewrite any_of_existsb, existsb_map. reflexivity.
    - (* suffix *) rewrite any_of_existsb, existsb_map. reflexivity.
    - (* regexp *) rewrite any_of_existsb. reflexivity.
  Qed.

  Lemma field_eval_vtest op cs vals d : feval op cs vals (fd_of d) = existsb (vtest op cs d) vals.
  Proof. destruct d, op; try reflexivity; apply existsb_ext_in; intros [y|] _; reflexivity. Qed.

  Lemma fhyp_inv op cs v0 vr x :
    fhyp lower op cs v0 vr x = true ->
    len (low lower cs x) = len x
    /\ (forall v, In v (v0 :: vr) -> len (low lower cs (bytes_of v)) = vlen v)
    /\ match op with
       | FPrefix => low lower cs (firstn (Z.to_nat (max_len v0 vr)) x) = firstn (Z.to_nat (max_len v0 vr)) (low lower cs x)
       | FSuffix => low lower cs (lastn (Z.to_nat (max_len v0 vr)) x) = lastn (Z.to_nat (max_len v0 vr)) (low lower cs x)
       | _ => True
       end.
  Proof.
    unfold fhyp. intros H. apply andb_true_iff in H. destruct H as [H Ht].
    apply andb_true_iff in H. destruct H as [Hx Hv]. split; [apply Z.eqb_eq; exact Hx|]. split.
    - intros v Hin. apply Z.eqb_eq. exact (proj1 (forallb_forall _ _) Hv v Hin).
    - destruct op; try exact I; apply bytes_eqb_eq; exact Ht.
  Qed.

  (* for the nil value the two sides are [] and [lower []]: the length condition makes the latter empty *)
  Lemma cval_bytes cs v :
    len (low lower cs (bytes_of v)) = vlen v -> bytes_of (cval lower cs v) = low lower cs (bytes_of v).
  Proof. destruct v; [reflexivity|]. intros H. symmetry. apply len_zero_nil. exact H. Qed.

  Lemma vcheck_vtest op cs v0 vr d :
    fhyp lower op cs v0 vr (bytes_of d) = true ->
    forall v, In v (v0 :: vr) -> vcheck op cs (max_len v0 vr) d v = vtest op cs d v.
  Proof.
    intros Hh v Hin. destruct (fhyp_inv _ _ _ _ _ Hh) as [Hx [Hv Ht]]. specialize (Hv v Hin).
    pose proof (max_len_ge v0 vr v Hin) as Hm.
    unfold vcheck, vtest. rewrite (cval_bytes cs v Hv). destruct op; try reflexivity.
    - (* equal: what equals the field lies in the bucket of its length *)
      destruct (opt_eqb (cval lower cs d) (cval lower cs v)) eqn:E; [|apply andb_false_r].
      apply opt_eqb_iff in E. rewrite <- E.
      assert (vlen (cval lower cs d) = vlen d) as -> by (destruct d; [exact Hx|reflexivity]).
      rewrite Z.eqb_refl. reflexivity.
    - (* prefix: no value is longer than the bytes kept, and lower-casing commutes with the cut *)
      destruct (len (bytes_of d) >? max_len v0 vr); [|reflexivity].
      rewrite Ht. apply has_prefix_firstn. unfold len in *. lia.
    - destruct (len (bytes_of d) >? max_len v0 vr); [|reflexivity].
      rewrite Ht. apply has_suffix_lastn. unfold len in *. lia.
  Qed.

  Lemma vtest_len op cs d v :
    len_exit op = true -> vtest op cs d v = true ->
    len (low lower cs (bytes_of v)) <= len (low lower cs (bytes_of d)).
  Proof.
    unfold vtest. destruct op; try discriminate; intros _ H.
    - apply opt_eqb_iff in H. destruct d, v; try discriminate H; cbn [cval bytes_of] in *; [injection H as ->|]; apply Z.le_refl.
    - exact (contains_len _ _ H).
    - exact (has_prefix_len _ _ H).
    - exact (has_suffix_len _ _ H).
  Qed.

  (* the field-operation leaf: buckets, minimum-length exit and truncation are sound *)
  Lemma field_core op cs v0 vr d :
    (op = FContainsAny -> vr = []) ->
    fhyp lower op cs v0 vr (bytes_of d) = true ->
    fcheck op cs v0 vr d = feval op cs (v0 :: vr) (fd_of d).
  Proof.
    intros Hany Hh.
    rewrite (field_check_normal op cs v0 vr d Hany), field_eval_vtest,
      (existsb_ext_in _ _ _ (vcheck_vtest op cs v0 vr d Hh)).
    destruct (len_exit op && (vlen d <? min_len v0 vr)) eqn:Hg; [|reflexivity].
    (* the exit is taken: no value is as short as the field, so none passes *)
    apply andb_true_iff in Hg. destruct Hg as [Hop Hg].
    symmetry. apply not_true_is_false. intros E. apply existsb_exists in E. destruct E as [v [Hin E]].
    apply (vtest_len op cs d v Hop) in E.
    destruct (fhyp_inv _ _ _ _ _ Hh) as [Hx [Hv _]]. specialize (Hv v Hin).
    pose proof (min_len_le v0 vr v Hin). unfold vlen at 1 in Hg. clear Hh Hany. lia.
  Qed.

  (* the loops of logicalNode.Check, written inline in [check], are the library's [forallb] / [existsb] up to
     conversion (each is a fixpoint over the list alone, and [&&] / [||] unfold to the [if] of the loop): the
     equations hold by computation *)
  Lemma check_and ops e now : checkM (NAnd ops) e now = forallb (fun x => checkM x e now) ops.
  Proof. reflexivity. Qed.

  Lemma check_or ops e now : checkM (NOr ops) e now = existsb (fun x => checkM x e now) ops.
  Proof. reflexivity. Qed.

  (* stated for NAnd; used for wfb (NOr ops) as well, which is the same branch of wfb (convertible) *)
  Lemma wfb_ops ops : wfb re_ok (NAnd ops) = true -> forall x, In x ops -> wfb re_ok x = true.
  Proof. cbn [wfb]. destruct ops; [discriminate|]. intros H. apply forallb_forall. exact H. Qed.

  Lemma wfb_contains_any path cs v0 vr : wfb re_ok (NField FContainsAny path cs v0 vr) = true -> vr = [].
  Proof. cbn [wfb]. destruct vr; [reflexivity|discriminate]. Qed.

  (* for rule trees of any depth and width the decision computed with buckets,
     length exits, truncation-before-lower-casing, de-duplicated type lists and short-circuit loops
     is the documented one, provided [lower] behaves on the strings of this rule and event
     ([lower_hyp]) and no array/object field is matched through its placeholder ([cont_ok]). *)
  Theorem check_eq_eval : forall n e now,
    wfb re_ok n = true ->
    lower_hyp lower n e = true ->
    cont_ok lower re_match go_contains_any n e = true ->
    checkM n e now = evalM n e now.
  Proof.
    intros n e now. induction n as [op path cs v0 vr|op path c v| |path types|ops IH|ops IH|x IH] using node_ind';
      intros Hwf Hh Hc.
    - (* field operation *)
      cbn [check eval]. cbn [lower_hyp] in Hh. cbn [cont_ok] in Hc.
      destruct (get_fget e path) as [[Ef Eg]|Ef]; rewrite Ef in *.
      + rewrite Eg. apply negb_true_iff. exact Hc.
      + apply field_core; [intros ->; exact (wfb_contains_any _ _ _ _ Hwf)|]. destruct (get e path); exact Hh.
    - (* length / integer comparison *)
      cbn [check eval]. unfold len_check. f_equal. unfold len_value. destruct op; try reflexivity.
      destruct (jdig e path) as [[| b | r | s | l | fs]|]; try reflexivity; rewrite byte_size_spec; reflexivity.
    - reflexivity.
    - apply any_of_dedup.
    - rewrite check_and. apply forallb_ext_in. intros x Hx.
      exact (IH x Hx (wfb_ops ops Hwf x Hx) (proj1 (forallb_forall _ _) Hh x Hx) (proj1 (forallb_forall _ _) Hc x Hx)).
    - rewrite check_or. apply existsb_ext_in. intros x Hx.
      exact (IH x Hx (wfb_ops ops Hwf x Hx) (proj1 (forallb_forall _ _) Hh x Hx) (proj1 (forallb_forall _ _) Hc x Hx)).
    - cbn [check eval]. f_equal. apply IH; assumption.
  Qed.

  (* sufficient global conditions on [lower] (true of any byte-wise map) *)
  Section Global.
    Hypothesis lower_len : forall x, length (lower x) = length x.
    Hypothesis lower_firstn : forall k x, lower (firstn k x) = firstn k (lower x).
    Hypothesis lower_skipn : forall k x, lower (skipn k x) = skipn k (lower x).

    Lemma low_len cs x : len (low lower cs x) = len x.
    Proof. destruct cs; [reflexivity|]. unfold len. cbn [low]. rewrite lower_len. reflexivity. Qed.

    Lemma fhyp_global op cs v0 vr x : fhyp lower op cs v0 vr x = true.
    Proof.
      unfold fhyp. apply andb_true_iff; split; [apply andb_true_iff; split|].
      - apply Z.eqb_eq, low_len.
      - apply forallb_forall. intros v _. apply Z.eqb_eq, low_len.
      - destruct op; try reflexivity; apply bytes_eqb_eq; (destruct cs; [reflexivity|]); cbn [low].
        + apply lower_firstn.
        + unfold lastn. rewrite lower_skipn, lower_len. reflexivity.
    Qed.

    Lemma lower_hyp_global n e : lower_hyp lower n e = true.
    Proof.
      induction n as [| | | |ops IH|ops IH|x IH] using node_ind'; cbn [lower_hyp]; try reflexivity.
      - destruct (fget e _); [apply fhyp_global|apply fhyp_global|reflexivity].
      - apply forallb_forall. exact IH.
      - apply forallb_forall. exact IH.
      - exact IH.
    Qed.

    Theorem check_eq_eval_global : forall n e now,
      wfb re_ok n = true -> cont_ok lower re_match go_contains_any n e = true ->
      checkM n e now = evalM n e now.
    Proof. intros n e now Hwf Hc. apply check_eq_eval; [exact Hwf|apply lower_hyp_global|exact Hc]. Qed.
  End Global.

  Theorem check_and_perm ops ops' e now :
    Permutation ops ops' -> checkM (NAnd ops) e now = checkM (NAnd ops') e now.
  Proof. intros HP. rewrite (check_and ops), (check_and ops'). apply forallb_perm. exact HP. Qed.

  Theorem check_or_perm ops ops' e now :
    Permutation ops ops' -> checkM (NOr ops) e now = checkM (NOr ops') e now.
  Proof. intros HP. rewrite (check_or ops), (check_or ops'). apply existsb_perm. exact HP. Qed.

  Theorem field_check_perm op cs v0 vr w0 wr d :
    op <> FContainsAny -> Permutation (v0 :: vr) (w0 :: wr) ->
    fcheck op cs v0 vr d = fcheck op cs w0 wr d.
  Proof.
    intros Hop HP. rewrite !field_check_normal by (intros E; destruct (Hop E)).
    rewrite (min_len_perm v0 vr w0 wr HP), (max_len_perm v0 vr w0 wr HP).
    rewrite (existsb_perm _ _ _ HP). reflexivity.
  Qed.

  Theorem check_values_perm op path cs v0 vr w0 wr e now :
    op <> FContainsAny -> Permutation (v0 :: vr) (w0 :: wr) ->
    checkM (NField op path cs v0 vr) e now = checkM (NField op path cs w0 wr) e now.
  Proof. intros Hop HP. cbn [check]. apply field_check_perm; assumption. Qed.

  (* no state: the decision on an event is the same whatever was checked before or after it *)
  Theorem check_pure n pre post e now :
    nth_error (decisions lower re_match go_contains_any parse_time as_int n (pre ++ (e, now) :: post)) (length pre)
    = Some (checkM n e now).
  Proof. apply (nth_error_map_mid (fun en => checkM n (fst en) (snd en))). Qed.
End Main.

Lemma ascii_lower_len x : length (ascii_lower x) = length x.
Proof. apply map_length. Qed.
Lemma ascii_lower_firstn k x : ascii_lower (firstn k x) = firstn k (ascii_lower x).
Proof. unfold ascii_lower. symmetry. apply firstn_map. Qed.
Lemma ascii_lower_skipn k x : ascii_lower (skipn k x) = skipn k (ascii_lower x).
Proof. unfold ascii_lower. symmetry. apply skipn_map. Qed.

Theorem check_eq_eval_ascii re_match go_contains_any parse_time as_int re_ok : forall n e now,
  wfb re_ok n = true -> cont_ok ascii_lower re_match go_contains_any n e = true ->
  check ascii_lower re_match go_contains_any parse_time as_int n e now
  = eval ascii_lower re_match go_contains_any parse_time as_int n e now.
Proof.
  apply check_eq_eval_global; [apply ascii_lower_len|apply ascii_lower_firstn|apply ascii_lower_skipn].
Qed.

(* The side conditions cannot be dropped: a lower-casing that, like bytes.ToLower, maps the 3-byte KELVIN SIGN to k and the
   2-byte LATIN CAPITAL I WITH DOT ABOVE to the 3 bytes i + COMBINING DOT ABOVE.  [fold_lower] does so only for a WHOLE string
   equal to one of the two (any other string goes to ascii_lower): unicode_refuted_prefix has to patch it for its own string *)
Definition kelvin : bytes := [226; 132; 170]%N.
Definition idot : bytes := [196; 176]%N.
Definition fold_lower (x : bytes) : bytes :=
  if bytes_eqb x kelvin then [107]%N
  else if bytes_eqb x idot then [105; 204; 135]%N
  else ascii_lower x.
Definition no_re (_ _ : bytes) : bool := false.
Definition no_time (_ _ : bytes) : option Z := None.
Definition no_int (_ : bytes) : Z := 0.
Definition all_ok (_ : bytes) : bool := true.
Definition key_a : bytes := [97]%N.

Lemma unicode_refuted_equal_value :
  let n := NField FEqual [key_a] false (Some kelvin) [] in
  let e := JObj [(key_a, JStr [107]%N)] in
  wfb all_ok n = true /\ cont_ok fold_lower no_re no_re n e = true
  /\ check fold_lower no_re no_re no_time no_int n e 0 = false
  /\ eval fold_lower no_re no_re no_time no_int n e 0 = true.
Proof. vm_compute. repeat split. Qed.

Lemma unicode_refuted_equal_field :
  let n := NField FEqual [key_a] false (Some [107]%N) [] in
  let e := JObj [(key_a, JStr kelvin)] in
  wfb all_ok n = true /\ cont_ok fold_lower no_re no_re n e = true
  /\ check fold_lower no_re no_re no_time no_int n e 0 = false
  /\ eval fold_lower no_re no_re no_time no_int n e 0 = true.
Proof. vm_compute. repeat split. Qed.

Lemma unicode_refuted_suffix :
  let n := NField FSuffix [key_a] false (Some idot) [] in
  let e := JObj [(key_a, JStr [120; 105; 204; 135]%N)] in
  wfb all_ok n = true /\ cont_ok fold_lower no_re no_re n e = true
  /\ check fold_lower no_re no_re no_time no_int n e 0 = false
  /\ eval fold_lower no_re no_re no_time no_int n e 0 = true.
Proof. vm_compute. repeat split. Qed.

Lemma unicode_refuted_prefix :
  let n := NField FPrefix [key_a] false (Some [107; 97; 98]%N) [] in
  let e := JObj [(key_a, JStr (kelvin ++ [97; 98]%N))] in
  wfb all_ok n = true /\ cont_ok (fun x => if bytes_eqb x (kelvin ++ [97; 98]%N) then [107; 97; 98]%N else fold_lower x) no_re no_re n e = true
  /\ check (fun x => if bytes_eqb x (kelvin ++ [97; 98]%N) then [107; 97; 98]%N else fold_lower x) no_re no_re no_time no_int n e 0 = false
  /\ eval (fun x => if bytes_eqb x (kelvin ++ [97; 98]%N) then [107; 97; 98]%N else fold_lower x) no_re no_re no_time no_int n e 0 = true.
Proof. vm_compute. repeat split. Qed.

(* an object is matched through its one-byte placeholder by an empty needle *)
Lemma container_refuted :
  let n := NField FContains [key_a] true (Some []) [] in
  let e := JObj [(key_a, JObj [])] in
  wfb all_ok n = true /\ lower_hyp ascii_lower n e = true
  /\ check ascii_lower no_re no_re no_time no_int n e 0 = true
  /\ eval ascii_lower no_re no_re no_time no_int n e 0 = false.
Proof. vm_compute. repeat split. Qed.
