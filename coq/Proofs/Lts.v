(* Runs of a labelled transition system given by a step function.  Every model spells out its own run function
   over its own step (extraction wants first-order code); each of them is [run] at that step function: by
   conversion where the model's function takes the state and the labels only ([Stream.srun], [Proc.prun], [frun],
   [crun], [PipeGlue.hrun], [FileResume.run]), by [run_unique] where it takes a configuration as well.  What holds of runs is
   proved here: composition and invariants ([Run]), a run projected along a function of states ([run_sim]), and a
   scheduler that runs until it has nothing left to pick ([Sched]), of which the drain loops of the batcher and of
   the processor are instances. *)
From Coq Require Import List.
Import ListNotations.

Section Run.
  Context {St Lab : Type} (step : St -> Lab -> option St).

  Fixpoint run (s : St) (ls : list Lab) : option St :=
    match ls with
    | [] => Some s
    | l :: r => match step s l with Some s' => run s' r | None => None end
    end.

  (* a function that satisfies the two equations of [run] is [run] *)
  Lemma run_unique (r : St -> list Lab -> option St) :
    (forall s, r s [] = Some s) ->
    (forall s l ls, r s (l :: ls) = match step s l with Some s' => r s' ls | None => None end) ->
    forall ls s, r s ls = run s ls.
  Proof.
    intros Hnil Hcons ls. induction ls as [|l ls IH]; intros s; [apply Hnil|].
    rewrite Hcons. cbn [run]. destruct (step s l); [apply IH|reflexivity].
  Qed.

  Lemma run_app s a b : run s (a ++ b) = match run s a with Some s' => run s' b | None => None end.
  Proof.
    revert s. induction a as [|l r IH]; intros s; cbn [run app]; [reflexivity|].
    destruct (step s l); [apply IH|reflexivity].
  Qed.

  Lemma run_trans a b s s1 s2 : run s a = Some s1 -> run s1 b = Some s2 -> run s (a ++ b) = Some s2.
  Proof. intros H1 H2. rewrite run_app, H1. exact H2. Qed.

  Lemma run_invariant (P : St -> Prop) :
    (forall s l s', P s -> step s l = Some s' -> P s') -> forall ls s s', P s -> run s ls = Some s' -> P s'.
  Proof.
    intros Hstep ls. induction ls as [|l r IH]; intros s s' Hs Hr; cbn [run] in Hr.
    - injection Hr as <-. exact Hs.
    - destruct (step s l) as [s1|] eqn:E; [|discriminate]. exact (IH s1 s' (Hstep s l s1 Hs E) Hr).
  Qed.
End Run.

(* simulation along a function of states: each step of A is matched by a run of B over the projected labels *)
Lemma run_sim {A B LA LB} (stepA : A -> LA -> option A) (stepB : B -> LB -> option B) (R : A -> B) (proj : LA -> list LB) :
  (forall a l a', stepA a l = Some a' -> run stepB (R a) (proj l) = Some (R a')) ->
  forall ls a a', run stepA a ls = Some a' -> run stepB (R a) (flat_map proj ls) = Some (R a').
Proof.
  intros Hstep ls. induction ls as [|l r IH]; intros a a' Hr; cbn [run flat_map] in *.
  - injection Hr as <-. reflexivity.
  - destruct (stepA a l) as [a1|] eqn:E; [|discriminate]. exact (run_trans stepB _ _ _ _ _ (Hstep a l a1 E) (IH a1 a' Hr)).
Qed.

(* A scheduler [pick] run with fuel; if every label it picks is enabled and lowers a measure (on the states of an
   invariant it keeps), then with fuel above the measure it runs until it has nothing left to pick. *)
Section Sched.
  Context {St Lab : Type} (step : St -> Lab -> option St) (pick : St -> option Lab).

  Fixpoint sched (fuel : nat) (s : St) : list Lab :=
    match fuel with
    | O => []
    | S k => match pick s with
             | Some l => match step s l with Some s' => l :: sched k s' | None => [] end
             | None => []
             end
    end.

  Lemma sched_length fuel : forall s, length (sched fuel s) <= fuel.
  Proof.
    induction fuel as [|k IH]; intros s; cbn [sched]; [apply le_n|].
    destruct (pick s) as [l|]; [|apply le_0_n]. destruct (step s l) as [s1|]; [|apply le_0_n].
    exact (le_n_S _ _ (IH s1)).
  Qed.

  Context (m : St -> nat) (I : St -> Prop) (ok : Lab -> Prop).
  Hypothesis progress : forall s l, I s -> pick s = Some l ->
    exists s', step s l = Some s' /\ ok l /\ m s' < m s /\ I s'.

  Theorem sched_rests fuel : forall s, m s < fuel -> I s ->
    exists s', run step s (sched fuel s) = Some s' /\ Forall ok (sched fuel s) /\ pick s' = None /\ I s'.
  Proof.
    induction fuel as [|k IH]; intros s Hm Hs; [inversion Hm|]. cbn [sched].
    destruct (pick s) as [l|] eqn:El; [|exists s; repeat split; [constructor|assumption..]].
    destruct (progress s l Hs El) as (s1 & E1 & Hok & Hlt & H1). rewrite E1. cbn [run]. rewrite E1.
    destruct (IH s1 (PeanoNat.Nat.lt_le_trans _ _ _ Hlt (le_S_n _ _ Hm)) H1) as (s' & Hrun & Hall & Hrest).
    exists s'. split; [exact Hrun|]. split; [constructor; assumption|exact Hrest].
  Qed.
End Sched.
