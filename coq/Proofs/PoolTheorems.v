(* Event-pool component: the statements that Properties/C05.v (pool clauses) and Properties/C04.v
   (pool clause) reference.  They are stated for the configuration built from Gen/PoolGen.v, i.e. for
   the comparisons and heartbeat conditions that the translator read from pipeline/event.go: if the
   source changes so that a side condition below fails (e.g. the heartbeat condition is inverted),
   this file stops compiling. *)
From Verif Require Import Base.Sx Model.Pool Model.PoolGlue Gen.PoolGen Proofs.Pool Proofs.PoolLm Proofs.PoolStd Proofs.PoolHb.
From Coq Require Import Lia Bool List ZArith.
Import ListNotations.
Local Open Scope Z_scope.

(* side conditions on the generated definitions *)
Lemma gen_lm_fits_sound n r : fits (lm_cfg n) r (cap (lm_cfg n)) = true -> r <= cap (lm_cfg n).
Proof. cbn [fits cap lm_cfg]. unfold pool_lm_fits. lia. Qed.
Lemma gen_lm_tick_fires n : tickc (lm_cfg n) true true = true.
Proof. reflexivity. Qed.
Lemma gen_std_tick_fires n : tickc (std_cfg n) true true = true.
Proof. reflexivity. Qed.

Lemma gen_linv_reach n ls s : 1 <= n -> lrun (lm_cfg n) linit ls = Some s -> linv (lm_cfg n) s.
Proof. intros Hn. apply linv_reach; [cbn; lia|apply gen_lm_fits_sound]. Qed.

(* the heartbeat's life cycle as read from the source: get() starts it on every path to Cond.Wait and its loop has no way
   out but the stop guard.  [reflexivity] fails as soon as the translator reports an exit path (pool_*_hb_forever = false)
   or a path to Cond.Wait that does not start the heartbeat (pool_*_hb_starts = false) *)
Lemma gen_lm_hb_starts : hb_starts lm_hcfg = true.
Proof. reflexivity. Qed.
Lemma gen_lm_hb_forever : hb_forever lm_hcfg = true.
Proof. reflexivity. Qed.
Lemma gen_std_hb_starts : hb_starts std_hcfg = true.
Proof. reflexivity. Qed.
Lemma gen_std_hb_forever : hb_forever std_hcfg = true.
Proof. reflexivity. Qed.

(* C05, low-memory pool: for every interleaving (label sequence) of any number of getters, backers and the
   heartbeat, the number of events handed out and not yet returned is at most the capacity
   (the counter inUseEvents itself may overshoot transiently) *)
Lemma pool_held_le_capacity_lowmem :
  forall (n : Z) (ls : list llabel) (s : lst),
    1 <= n -> lrun (lm_cfg n) linit ls = Some s -> len (l_holders s) <= n.
Proof.
  intros n ls s Hn H. exact (lm_held_le_capacity _ s (gen_linv_reach n ls s Hn H)).
Qed.

(* standard pool: event objects held + objects inside back() that are not yet in a slot *)
Lemma pool_held_le_capacity_std :
  forall (n : Z) (ls : list slabel) (s : sst),
    1 <= n -> srun (std_cfg n) (sinit (std_cfg n)) ls = Some s ->
    len (s_holders s) + fcnt transit (s_bthr s) <= n.
Proof.
  intros n ls s Hn H. apply (std_held_le_capacity (std_cfg n)); [cbn; lia|]. exact (sinv_reach _ _ _ H).
Qed.

(* standard pool: a slot marked free holds an object; an object is in at most one slot, never both in a
   slot and with a holder, and no two holders have the same object *)
Lemma pool_slot_unique_std :
  forall (n : Z) (ls : list slabel) (s : sst),
    1 <= n -> srun (std_cfg n) (sinit (std_cfg n)) ls = Some s ->
    (forall x, f1 (slot_of s x) = true -> sev (slot_of s x) <> None) /\
    (forall x x' e, sev (slot_of s x) = Some e -> sev (slot_of s x') = Some e -> x = x') /\
    (forall x e, sev (slot_of s x) = Some e -> ~ In e (s_holders s)) /\
    NoDup (s_holders s).
Proof.
  intros n ls s Hn H. destruct (sinv_reach _ _ _ H) as (HA & HB & _). repeat split.
  - intros x Hx. exact (proj2 (a_f1 s HA x Hx)).
  - exact (b_u1 _ s HB).
  - intros x e Hx. exact (proj1 (b_u2 _ s HB x e Hx)).
  - exact (b_nd _ s HB).
Qed.

(* standard pool: per object, "taken out of a slot" and "back() begun" strictly alternate, starting
   with a take: no object is handed out twice without a return in between, none is returned twice
   (the environment assumption "back only what is held" is the guard of SBClaim) *)
Lemma pool_no_double_back :
  forall (n : Z) (ls : list slabel) (s : sst) (e : Z),
    1 <= n -> srun (std_cfg n) (sinit (std_cfg n)) ls = Some s -> alt e false ls = true.
Proof.
  intros n ls s e Hn H. exact (std_alternation (std_cfg n) e ls _ s (sinvB_init _) H).
Qed.

(* both pools: when no get() is in progress and nothing is held the counters are zero.  The standard pool asks for no back() in
   progress either; the low-memory pool does not: its back() has decremented before it is pending ([l_bpend]: Dec .. Broadcast) *)
Lemma pool_quiescent_inuse_zero :
  forall (n : Z), 1 <= n ->
    (forall ls s, lrun (lm_cfg n) linit ls = Some s -> lquiescent s -> l_inuse s = 0 /\ l_waiters s = 0) /\
    (forall ls s, srun (std_cfg n) (sinit (std_cfg n)) ls = Some s -> squiescent s -> s_inuse s = 0 /\ s_waiters s = 0).
Proof.
  intros n Hn. split.
  - intros ls s H. exact (lm_quiescent_zero _ s (gen_linv_reach n ls s Hn H)).
  - intros ls s H Hq. exact (std_quiescent_zero s (proj2 (proj2 (sinv_reach _ _ _ H))) Hq).
Qed.

(* C04 (pool clause), low-memory pool: in every reachable state with a getter asleep on the condition
   variable and free capacity (eventsAvailable), there is a sequence of non-environment steps containing at most one
   heartbeat start (LmTickW) after which the getter is no longer asleep: bounded resumption = one
   heartbeat period *)
Lemma pool_no_stuck_waiter_lowmem :
  forall (n : Z) (ls : list llabel) (s : lst) (g : Z),
    1 <= n -> lrun (lm_cfg n) linit ls = Some s ->
    lpc_of s g = LSleep -> pool_lm_avail (l_inuse s) n = true ->
    exists ls' s', l_nonenv ls' /\ (l_ticks ls' <= 1)%nat /\ lrun (lm_cfg n) s ls' = Some s' /\ lpc_of s' g <> LSleep.
Proof.
  intros n ls s g Hn H Hg Ha.
  exact (lm_no_stuck_waiter (lm_cfg n) (gen_lm_tick_fires n) s g (gen_linv_reach n ls s Hn H) Hg Ha).
Qed.

Lemma pool_no_stuck_waiter_std :
  forall (n : Z) (ls : list slabel) (s : sst) (g x : Z),
    1 <= n -> srun (std_cfg n) (sinit (std_cfg n)) ls = Some s ->
    gpc_of s g = GSleep x -> pool_std_avail (s_inuse s) n = true ->
    exists ls' s', s_nonenv ls' /\ (s_ticks ls' <= 1)%nat /\ srun (std_cfg n) s ls' = Some s' /\ gpc_of s' g = GWoken x.
Proof.
  intros n ls s g x Hn H Hg Ha.
  exact (std_no_stuck_waiter (std_cfg n) (gen_std_tick_fires n) s g x (proj2 (proj2 (sinv_reach _ _ _ H))) Hg Ha).
Qed.

(* the inverted heartbeat condition (`waiters > 0 && !eventsAvailable`; pipeline/event.go has `&& eventsAvailable`):
   a reachable state (capacity 1; the holder's back() falls between the getter's
   availability check and its Wait) in which getter 2 sleeps, the pool is empty, and NO sequence of
   non-environment steps - any number of heartbeats - ever wakes it *)
Definition lost_wakeup_trace : list llabel :=
  [LmInc 1 1; LmEnter 1; LmInc 2 2; LmDec 2; LmWInc 2; LmLock 2; LmCheck 2 false; LmBDec 1; LmBBc 1; LmReg 2].

(* in the state both refutations end in, getter 2 is the only one anywhere *)
Lemma others_idle g : g <> 2 -> fget LIdle g [(2, LSleep); (1, LIdle)] = LIdle.
Proof. intros Hg. cbn [fget]. destruct (g =? 2) eqn:E2; [lia|]. destruct (g =? 1); reflexivity. Qed.

Lemma pool_stuck_waiter_inverted_refuted :
  exists (ls : list llabel) (s : lst),
    lrun (lm_cfg_inverted 1) linit ls = Some s /\ lpc_of s 2 = LSleep /\ pool_lm_avail (l_inuse s) 1 = true /\
    forall ls' s', l_nonenv ls' -> lrun (lm_cfg_inverted 1) s ls' = Some s' -> lpc_of s' 2 = LSleep.
Proof.
  exists lost_wakeup_trace. eexists. split; [vm_compute; reflexivity|]. repeat split.
  intros ls' s' Hne Hr.
  refine (stuck_run (lm_cfg_inverted 1) _ 2 ls' _ s' _ Hne Hr); [intros []; reflexivity|].
  repeat split; try reflexivity. exact others_idle.
Qed.

(* the same trace under the generated condition: the next heartbeat wakes getter 2 *)
Example pool_no_stuck_waiter_lowmem_nonvacuous :
  exists s, lrun (lm_cfg 1) linit lost_wakeup_trace = Some s /\ lpc_of s 2 = LSleep /\ pool_lm_avail (l_inuse s) 1 = true /\
            exists s', lrun (lm_cfg 1) s [LmTickW 1; LmTickA true; LmTickFire] = Some s' /\ lpc_of s' 2 = LWoken.
Proof. vm_compute. eexists. repeat split. eexists. split; reflexivity. Qed.

Example pool_std_nonvacuous :
  exists s, srun (std_cfg 1) (sinit (std_cfg 1))
              [SClaim 1 0; SCas 1 0 true; STake 1 0 0; SF2 1; SInc 1; SClaim 2 0; SCas 2 0 false; SWInc 2; SLock 2;
               SBClaim 0 0; SBCas 0 0 true; SBPut 0; SBF1 0; SBDec 0; SBBc 0; SReg 2] = Some s /\
            gpc_of s 2 = GSleep 0 /\ pool_std_avail (s_inuse s) 1 = true /\ f1 (slot_of s 0) = true.
Proof. vm_compute. eexists. repeat split. Qed.

(* C04 (pool clause), the heartbeat's life cycle.  The two theorems above let the heartbeat tick whenever it likes; they
   say nothing about a heartbeat goroutine that is not there.  In the layered system (Model/Pool.v: the goroutine is started once, by the slow path of get(), and may be
   gone for good when its loop has a way out) with the two facts regenerated from the Go AST: in every reachable state with
   a getter asleep on the condition variable and free capacity the heartbeat goroutine is RUNNING, and non-environment steps
   of the layered system containing at most one heartbeat start wake the getter *)
Lemma pool_no_stuck_waiter_hb_lowmem :
  forall (n : Z) (ls : list (hlab llabel)) (s : hst lst) (g : Z),
    1 <= n -> lhrun (lm_cfg n) lm_hcfg lhinit ls = Some s ->
    lpc_of (h_s s) g = LSleep -> pool_lm_avail (l_inuse (h_s s)) n = true ->
    h_hb s = HbRun /\
    exists ls' s', l_nonenv ls' /\ (l_ticks ls' <= 1)%nat /\ lhrun (lm_cfg n) lm_hcfg s (map HL ls') = Some s' /\ lpc_of (h_s s') g <> LSleep.
Proof.
  intros n ls s g Hn H Hg Ha.
  apply (lm_hb_no_stuck_waiter (lm_cfg n) lm_hcfg ls s g); try assumption;
    [cbn; lia|apply gen_lm_fits_sound|apply gen_lm_tick_fires|apply gen_lm_hb_starts|apply gen_lm_hb_forever].
Qed.

Lemma pool_no_stuck_waiter_hb_std :
  forall (n : Z) (ls : list (hlab slabel)) (s : hst sst) (g x : Z),
    1 <= n -> shrun (std_cfg n) std_hcfg (shinit (std_cfg n)) ls = Some s ->
    gpc_of (h_s s) g = GSleep x -> pool_std_avail (s_inuse (h_s s)) n = true ->
    h_hb s = HbRun /\
    exists ls' s', s_nonenv ls' /\ (s_ticks ls' <= 1)%nat /\ shrun (std_cfg n) std_hcfg s (map HL ls') = Some s' /\ gpc_of (h_s s') g = GWoken x.
Proof.
  intros n ls s g x Hn H Hg Ha.
  apply (std_hb_no_stuck_waiter (std_cfg n) std_hcfg ls s g x); try assumption;
    [apply gen_std_tick_fires|apply gen_std_hb_starts|apply gen_std_hb_forever].
Qed.

(* For EVERY schedule - steps of the environment included: new get() and back() calls, any interleaving - a run during which a
   getter stays inside Cond.Wait() contains at most two heartbeat iterations that find capacity free (the first of them may
   have loaded the waiter count before the getter registered).  The statement says that and no more: fairness is not in it.
   It yields the wake-up under the assumption that the running heartbeat goes on ticking (scheduler fairness and wall-clock
   time are outside the model) and capacity stays free. *)
Lemma pool_fair_heartbeat_wakes_lowmem :
  forall (n : Z) (ls : list llabel) (s : lst) (g : Z) (ls' : list llabel) (s' : lst),
    1 <= n -> lrun (lm_cfg n) linit ls = Some s -> lpc_of s g = LSleep ->
    lrun_asleep (lm_cfg n) g s ls' = Some s' -> (l_avail_ticks ls' <= 2)%nat.
Proof.
  intros n ls s g ls' s' Hn H Hg Ha.
  apply (lm_fair_heartbeat_wakes (lm_cfg n)) with (g := g) (ls := ls) (s := s) (s' := s'); try assumption;
    [cbn; lia|apply gen_lm_fits_sound|apply gen_lm_tick_fires].
Qed.

Lemma pool_fair_heartbeat_wakes_std :
  forall (n : Z) (ls : list slabel) (s : sst) (g x : Z) (ls' : list slabel) (s' : sst),
    1 <= n -> srun (std_cfg n) (sinit (std_cfg n)) ls = Some s -> gpc_of s g = GSleep x ->
    srun_asleep (std_cfg n) g s ls' = Some s' -> (s_avail_ticks ls' <= 2)%nat.
Proof.
  intros n ls s g x ls' s' Hn H Hg Ha.
  apply (std_fair_heartbeat_wakes (std_cfg n) (gen_std_tick_fires n)) with (g := g) (x := x) (ls := ls) (s := s) (s' := s'); assumption.
Qed.

(* WITHOUT the fact "the heartbeat's loop has no way out" (hcfg_exiting: the goroutine may return; the Once never starts it
   again): one ordinary episode of back-pressure starts the heartbeat, the pool falls idle, the heartbeat loads waiters = 0
   and returns; then the lost wake-up (capacity 1: the holder's back() falls between the getter's availability check and
   its Wait).  The state reached has getter 2 asleep, the pool empty, the heartbeat gone - and NO step other than one of the
   environment is enabled: every non-environment run from it is empty.  The getter sleeps for ever *)
Definition hb_exit_trace : list (hlab llabel) :=
  map HL [LmInc 1 1; LmEnter 1; LmInc 2 2; LmDec 2; LmWInc 2; LmLock 2; LmCheck 2 false; LmReg 2; LmBDec 1; LmBBc 1;
          LmWake 2; LmUnlock 2; LmWDec 2; LmInc 2 1; LmEnter 2; LmBDec 2; LmBBc 2; LmTickW 0]
  ++ [HExit]
  ++ map HL lost_wakeup_trace.

Lemma pool_heartbeat_exit_refuted :
  exists (ls : list (hlab llabel)) (s : hst lst),
    lhrun (lm_cfg 1) hcfg_exiting lhinit ls = Some s /\ lpc_of (h_s s) 2 = LSleep /\ pool_lm_avail (l_inuse (h_s s)) 1 = true /\
    h_hb s = HbGone /\
    forall ls' s', lh_nonenv ls' -> lhrun (lm_cfg 1) hcfg_exiting s ls' = Some s' -> ls' = [] /\ s' = s.
Proof.
  exists hb_exit_trace. eexists. split; [vm_compute; reflexivity|]. repeat (split; [reflexivity|]). intros ls' s' Hne Hr.
  apply (lm_gone_run_nil (lm_cfg 1) hcfg_exiting 2 ls' _ s'); [|exact Hne|exact Hr]. unfold lm_gone_inv. repeat split. exact others_idle.
Qed.

(* non-vacuity: (1) with the generated facts the same trace is NOT a run (the heartbeat's return is not a step), and without
   the return it reaches the sleeping state with the heartbeat running; (2) fairness: from the lost wake-up one heartbeat
   iteration that finds capacity free leaves only the waking Broadcast to the heartbeat (both continuations that keep
   the getter asleep are impossible); (3) the bound 2 is reached when the heartbeat loaded the waiter count before the
   getter registered *)
Example pool_heartbeat_lifecycle_nonvacuous :
  lhrun (lm_cfg 1) lm_hcfg lhinit hb_exit_trace = None /\
  (exists s, lhrun (lm_cfg 1) lm_hcfg lhinit (filter (fun l => match l with HExit => false | _ => true end) hb_exit_trace) = Some s /\
             lpc_of (h_s s) 2 = LSleep /\ h_hb s = HbRun /\ pool_lm_avail (l_inuse (h_s s)) 1 = true) /\
  (exists s, lrun (lm_cfg 1) linit lost_wakeup_trace = Some s /\ lpc_of s 2 = LSleep /\
             lrun_asleep (lm_cfg 1) 2 s [LmTickW 1; LmTickA true] <> None /\
             lrun_asleep (lm_cfg 1) 2 s [LmTickW 1; LmTickA true; LmTickFire] = None /\
             lrun_asleep (lm_cfg 1) 2 s [LmTickW 1; LmTickA true; LmTickEnd] = None) /\
  (exists s, lrun (lm_cfg 1) linit [LmInc 1 1; LmEnter 1; LmInc 2 2; LmDec 2; LmTickW 0; LmWInc 2; LmLock 2; LmCheck 2 false;
                                    LmBDec 1; LmBBc 1; LmReg 2] = Some s /\ lpc_of s 2 = LSleep /\
             lrun_asleep (lm_cfg 1) 2 s [LmTickA true; LmTickEnd; LmTickW 1; LmTickA true] <> None).
Proof.
  vm_compute. repeat split; try (eexists; repeat split; try reflexivity; discriminate).
Qed.
