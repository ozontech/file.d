(* C09, sub-model which = 2 (Model/C09Route.v): the specification of "which way a batch goes" sends every event exactly one
   way, for every plugin kind, every configuration and every answer history. *)
From Verif Require Import Base.Sx Model.C09Route Proofs.GoSemFacts.
From Coq Require Import List ZArith Bool Lia ZifyBool.
Import ListNotations.
Local Open Scope Z_scope.

(* What the retry loop guarantees about one batch: it is given up only by the branch that tests the count, and that branch
   chooses the queue.  The count never passes retry + 1, so that is what the branch sees. *)
Definition batch_ok (c : rcfg) (wt : way * nat) : Prop :=
  let gave_up := 0 <= retry c /\ Z.of_nat (snd wt) = retry c + 1 in
  match fst wt with
  | WDead => dq c = true /\ gave_up
  | WErr => dq c = false /\ gave_up
  | _ => True
  end.

Lemma batch_loop_way :
  forall fuel c t0 s r w t r' s',
    (0 <= retry c -> Z.of_nat t0 <= retry c + 1) ->
    batch_loop fuel c t0 s r = Some (w, t, r', s') -> batch_ok c (w, t).
Proof.
  induction fuel as [|f IH]; intros c t0 s r w t r' s' T0 H; [discriminate|].
  cbn [batch_loop] in H.
  destruct (attempt c s) as [[[cl n] s1]|]; [|discriminate].
  destruct cl; [injection H as <- _ _ _; exact I..|].
  destruct ((0 <=? retry c) && (retry c <? Z.of_nat t0)) eqn:E.
  - injection H as <- <- _ _. destruct (dq c) eqn:D; (split; [exact D|cbn; lia]).
  - apply IH in H; [exact H|lia].
Qed.

Lemma batches_ok :
  forall nb c s r ws r',
    batches nb c s r = Some (ws, r') -> length ws = nb /\ Forall (batch_ok c) ws.
Proof.
  induction nb as [|nb IH]; intros c s r ws r' H; cbn [batches] in H.
  - injection H as <- _. split; [reflexivity|constructor].
  - destruct (batch_loop (batch_fuel c s) c 0 s r) as [[[[w t] r1] s1]|] eqn:B; [|discriminate].
    destruct (batches nb c s1 r1) as [[ws1 r2]|] eqn:R; [|discriminate].
    injection H as <- _.
    destruct (IH _ _ _ _ _ R) as [L F].
    split; [cbn; now rewrite L|].
    constructor; [|assumption]. eapply batch_loop_way; [|exact B]. cbn. lia.
Qed.

(* every event is committed exactly once, by exactly one path *)
Theorem route_each_event_exactly_once :
  forall c s ws reqs,
    batches (nbatch c) c s 0 = Some (ws, reqs) ->
    length ws = nbatch c /\
    Forall (fun wt => let '(m, h, d) := ev_obs (fst wt) in
                      m + d = 1 /\ (m = 0 \/ d = 0) /\ h = d /\ (d = 1 -> dq c = true)) ws.
Proof.
  intros c s ws reqs H. apply batches_ok in H as [L F].
  split; [assumption|].
  eapply Forall_impl; [|exact F].
  intros [w t] Hw. cbn [fst].
  destruct w; cbn [ev_obs]; (split; [reflexivity|split; [auto|split; [reflexivity|]]]); try discriminate.
  intros _. apply Hw.
Qed.

(* a batch is given up only after the configured retries, into the dead queue iff there is one *)
Theorem route_given_up_only_after_retries :
  forall c s ws reqs w t,
    batches (nbatch c) c s 0 = Some (ws, reqs) -> In (w, t) ws -> w = WDead \/ w = WErr ->
    0 <= retry c /\ Z.of_nat t = retry c + 1 /\ (w = WDead <-> dq c = true).
Proof.
  intros c s ws reqs w t H I G. apply batches_ok in H as [_ F].
  rewrite Forall_forall in F. specialize (F _ I).
  destruct G as [-> | ->]; destruct F as (D & R0 & T); (split; [exact R0|split; [exact T|]]); rewrite D; easy.
Qed.

Lemma fatal_of_nonneg c w : 0 <= fatal_of c w.
Proof. destruct w; cbn; try lia; [destruct (strict_on c)|destruct (fatal c)]; lia. Qed.

(* What the batches of a case add up to in the observable, clause by clause of one_way_ok, in one walk over the batches:
   every event passes the test, there are as many events as were sent, and the count of Fatal entries is not negative,
   and zero with a dead queue and without `strict`. *)
Lemma batches_obs c ws : Forall (batch_ok c) ws ->
  let evs := concat (map (fun wt : way * nat => repeat (ev_sx (ev_obs (fst wt))) (bsize c)) ws) in
  let f := sumZ (map (fun wt : way * nat => fatal_of c (fst wt)) ws) in
  forallb (ev_ok c) evs = true /\ length evs = (length ws * bsize c)%nat /\ 0 <= f /\
  (dq c = true -> strict_on c = false -> f = 0).
Proof.
  induction 1 as [|[w t] ws Hx F (A & L & N & Z)]; cbn [map concat sumZ fst length]; [repeat split; reflexivity|].
  rewrite forallb_app, app_length, repeat_length, L, A. repeat split.
  - rewrite andb_true_r. apply forallb_forall. intros e He. apply repeat_spec in He as ->.
    (* the dead queue shows up only where there is one *)
    destruct w; try reflexivity. cbn. now destruct Hx as [-> _].
  - exact (Z.add_nonneg_nonneg _ _ (fatal_of_nonneg c w) N).
  - intros D S. rewrite (Z D S). destruct w; cbn [fatal_of]; try reflexivity.
    + rewrite S. reflexivity.
    + (* WErr is the way of a case without a dead queue *)
      destruct Hx as [He _]. rewrite He in D. discriminate.
Qed.

Theorem route_no_fatal_with_dead_queue :
  forall c s ws reqs,
    batches (nbatch c) c s 0 = Some (ws, reqs) -> dq c = true -> strict_on c = false ->
    sumZ (map (fun wt : way * nat => fatal_of c (fst wt)) ws) = 0.
Proof. intros c s ws reqs H. apply batches_ok in H as [_ F]. apply (batches_obs c ws F). Qed.

(* the model's observable satisfies the executable predicate that issues the Violates verdict *)
Theorem route_model_one_way :
  forall c s o, route_model c s = Some o -> one_way_ok c o = true.
Proof.
  intros c s o H. unfold route_model in H.
  destruct (batches (nbatch c) c s 0) as [[ws reqs]|] eqn:B; [|discriminate].
  injection H as <-.
  pose proof (batches_ok _ _ _ _ _ _ B) as [L F]. destruct (batches_obs c ws F) as (A & Le & N & Z).
  unfold route_obs, one_way_ok. rewrite A, Le, L, Nat.eqb_refl. cbn [andb].
  apply Z.leb_le in N. rewrite N. cbn [andb].
  destruct (dq c); [|reflexivity]. destruct (strict_on c); [reflexivity|].
  rewrite (Z eq_refl eq_refl). reflexivity.
Qed.

(* the verdict function: Agree only on an observable that satisfies the predicate *)
Theorem route_agree_means_one_way :
  forall case obs c s,
    rcase_of_sx case = Some (c, s) -> c09_route_run case obs = Agree -> one_way_ok c obs = true.
Proof.
  intros case obs c s D H. unfold c09_route_run in H. rewrite D in H.
  destruct (route_model c s) as [m|] eqn:M; [|discriminate].
  destruct (sx_eqb m obs) eqn:E.
  - apply sx_eqb_sound in E. subst. eapply route_model_one_way; eassumption.
  - destruct (one_way_ok c obs); discriminate.
Qed.

(* a 2xx answer whose body the plugin's response function rejects is a FAILED attempt (never a delivery, never a drop) *)
Lemma classify_unreadable_ack :
  forall k pr a, ok2xx (a_status a) = true -> body_ok k pr (a_body a) = false -> classify k pr a = ARetry.
Proof.
  intros k pr a O B. unfold classify. unfold body_ok in B.
  destruct (k =? 0) eqn:K0.
  - cbn [orb]. rewrite O. unfold body_ok. rewrite K0, B. reflexivity.
  - destruct (k =? 2) eqn:K2; [|discriminate].
    apply Z.eqb_eq in K2. subst k. cbn. rewrite O. unfold body_ok. cbn. rewrite B. reflexivity.
Qed.

Theorem route_unreadable_ack_is_failure :
  forall c s a s',
    split_on c = false -> next s = (a, s') ->
    ok2xx (a_status a) = true -> body_ok (kind c) (presp c) (a_body a) = false ->
    attempt c s = Some (ARetry, seen (kind c) (a_status a), s').
Proof.
  intros c s a s' S N O B. unfold attempt. rewrite S, N.
  rewrite (classify_unreadable_ack _ _ _ O B). reflexivity.
Qed.

(* without process_response elasticsearch never looks at the body: only the status decides *)
Theorem route_body_ignored_without_process_response :
  forall a, classify 0 false a = classify 0 false (a_status a).
Proof.
  intros a. unfold classify, body_ok, a_status. cbn [Z.eqb orb negb].
  rewrite Z.mod_mod by lia. reflexivity.
Qed.

(* a far end every answer of which is a failed attempt (e.g. always an unreadable acknowledgement): with retry >= 0 the batch
   is given up after exactly retry + 2 calls, into the dead queue iff there is one — never delivered, never dropped *)
Lemma batch_loop_const_failing :
  forall c a, split_on c = false -> classify (kind c) (presp c) a = ARetry -> 0 <= retry c ->
  forall n t0 fuel r,
    Z.of_nat t0 + Z.of_nat n = retry c + 1 -> (n < fuel)%nat ->
    batch_loop fuel c t0 (const_src a) r =
      Some (if dq c then WDead else WErr, (t0 + n)%nat, (r + S n * seen (kind c) (a_status a))%nat, const_src a).
Proof.
  intros c a Hs C R0.
  assert (A : attempt c (const_src a) = Some (ARetry, seen (kind c) (a_status a), const_src a)).
  { unfold attempt. rewrite Hs. cbn [next const_src pre C09Route.tail]. rewrite C. reflexivity. }
  induction n as [|n IH]; intros t0 fuel r E F; (destruct fuel as [|f]; [lia|]); cbn [batch_loop]; rewrite A.
  - replace ((0 <=? retry c) && (retry c <? Z.of_nat t0)) with true by lia. do 3 f_equal; [f_equal|]; lia.
  - replace ((0 <=? retry c) && (retry c <? Z.of_nat t0)) with false by lia.
    rewrite (IH (S t0) f (r + seen (kind c) (a_status a))%nat) by lia. do 3 f_equal; [f_equal|]; lia.
Qed.

Theorem route_always_failing_given_up :
  forall c a r,
    split_on c = false -> classify (kind c) (presp c) a = ARetry -> 0 <= retry c ->
    batch_loop (batch_fuel c (const_src a)) c 0 (const_src a) r =
      Some (if dq c then WDead else WErr, Z.to_nat (retry c + 1),
            (r + Z.to_nat (retry c + 2) * seen (kind c) (a_status a))%nat, const_src a).
Proof.
  intros c a r S C R.
  rewrite (batch_loop_const_failing c a S C R (Z.to_nat (retry c + 1)) 0%nat).
  - replace (Datatypes.S (Z.to_nat (retry c + 1))) with (Z.to_nat (retry c + 2)) by lia. reflexivity.
  - lia.
  - unfold batch_fuel. cbn [const_src pre length]. lia.
Qed.

(* the instance the harness streams exercise: elasticsearch with process_response (or splunk) behind a far end that always
   acknowledges with a body the plugin cannot read *)
Corollary route_always_unreadable_given_up :
  forall c a r,
    split_on c = false -> ok2xx (a_status a) = true -> body_ok (kind c) (presp c) (a_body a) = false -> 0 <= retry c ->
    exists n, batch_loop (batch_fuel c (const_src a)) c 0 (const_src a) r =
      Some (if dq c then WDead else WErr, Z.to_nat (retry c + 1), n, const_src a).
Proof.
  intros c a r S O B R. eexists.
  apply route_always_failing_given_up; [assumption| |assumption].
  apply classify_unreadable_ack; assumption.
Qed.
