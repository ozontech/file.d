(* The heartbeat's life cycle (Model/Pool.v, section "the heartbeat's life cycle") on top of the two pool transition
   systems: a sleeping getter always has a RUNNING heartbeat (given the two facts the translator reads from the source:
   get() starts it on every path to Cond.Wait, and its loop has no way out), hence the wake-up theorems of PoolLm.v /
   PoolStd.v hold in the layered systems; whatever the schedule, a run in which a getter stays asleep contains at most two
   heartbeat iterations that find capacity free; and with a heartbeat that may return, the lost wake-up is a reachable state
   with no step enabled. *)
From Verif Require Import Base.Sx Model.Pool Proofs.ListFacts Proofs.Pool Proofs.PoolLm Proofs.PoolStd.
From Coq Require Import Lia Bool List ZArith.
Import ListNotations.
Local Open Scope Z_scope.

Section Layer.
  Context {St Lab : Type}.
  Variable step : St -> Lab -> option St.
  Variable is_start : Lab -> bool.
  Variable is_tick : Lab -> bool.
  Variable h : hcfg.

  (* [run step] of Lts.v, and convertible with it *)
  Fixpoint brun (s : St) (ls : list Lab) : option St :=
    match ls with
    | [] => Some s
    | l :: r => match step s l with Some s' => brun s' r | None => None end
    end.

  Definition hproj (ls : list (hlab Lab)) : list Lab :=
    flat_map (fun l => match l with HL l0 => [l0] | HExit => [] end) ls.

  Notation hstep' := (hstep step is_start is_tick h).
  Notation hrun' := (hrun step is_start is_tick h).

  Lemma hrun_app ls1 ls2 s s1 s2 : hrun' s ls1 = Some s1 -> hrun' s1 ls2 = Some s2 -> hrun' s (ls1 ++ ls2) = Some s2.
  Proof. rewrite !hrun_run. apply run_trans. Qed.

  Lemma hrun_invariant (P : hst St -> Prop) :
    (forall s l s', P s -> hstep' s l = Some s' -> P s') -> forall ls s s', P s -> hrun' s ls = Some s' -> P s'.
  Proof. intros Hstep ls s s'. rewrite hrun_run. exact (run_invariant hstep' P Hstep ls s s'). Qed.

  (* a step of the layered system over a label of the base system is a step of the base system, and a tick only while the
     heartbeat runs *)
  Lemma hstep_HL s l s' : hstep' s (HL l) = Some s' ->
    (is_tick l = true -> h_hb s = HbRun) /\
    exists b, step (h_s s) l = Some b /\ s' = mk_hst (hb_after is_start h (h_hb s) l) b.
  Proof.
    cbn [hstep]. intros H. destruct (is_tick l && negb (hb_running (h_hb s))) eqn:Et; [discriminate|].
    destruct (step (h_s s) l) as [b|]; [|discriminate]. inversion H; subst s'. split; [|exists b; auto].
    intros Hl. rewrite Hl in Et. destruct (h_hb s); try discriminate Et; reflexivity.
  Qed.

  (* the layer only removes behaviour: a layered run is a run of the base system *)
  Lemma hrun_proj ls : forall s s', hrun' s ls = Some s' -> brun (h_s s) (hproj ls) = Some (h_s s').
  Proof.
    intros s s'. rewrite hrun_run. apply (run_sim hstep' step h_s). clear s s'. intros s l s' E. destruct l as [l0|].
    - apply hstep_HL in E as (_ & b & Eb & ->). cbn [run h_s]. rewrite Eb. reflexivity.
    - cbn [hstep] in E. destruct (hb_running (h_hb s) && negb (hb_forever h)); [|discriminate]. injection E as <-. reflexivity.
  Qed.

  (* while the heartbeat runs the layer removes nothing: every run of the base system is a layered run *)
  Lemma hrun_lift ls : forall s b', h_hb s = HbRun -> brun (h_s s) ls = Some b' -> hrun' s (map HL ls) = Some (mk_hst HbRun b').
  Proof.
    induction ls as [|l r IH]; intros s b' Hh H; cbn [brun] in H; cbn [map hrun].
    - inversion H; subst. destruct s as [hb b]. cbn in Hh. subst. reflexivity.
    - destruct (step (h_s s) l) as [b1|] eqn:E; [|discriminate]. cbn [hstep]. rewrite Hh. cbn [hb_running negb].
      rewrite andb_false_r, E. cbn [hb_after]. apply (IH (mk_hst HbRun b1)); [reflexivity|exact H].
  Qed.

  (* a heartbeat whose loop has no way out never returns *)
  Lemma hb_never_gone ls s s' : hb_forever h = true -> h_hb s <> HbGone -> hrun' s ls = Some s' -> h_hb s' <> HbGone.
  Proof.
    intros Hf. apply (hrun_invariant (fun s => h_hb s <> HbGone)).
    clear s s'. intros s l s' Hs H. destruct l as [l0|].
    - apply hstep_HL in H as (_ & b & _ & ->). cbn [h_hb]. unfold hb_after.
      destruct (h_hb s); [destruct (is_start l0 && hb_starts h); discriminate|discriminate|contradiction].
    - cbn [hstep] in H. rewrite Hf, andb_false_r in H. discriminate.
  Qed.

  (* the Once never fires a second time *)
  Lemma hb_gone_stays s l s' : h_hb s = HbGone -> hstep' s l = Some s' -> h_hb s' = HbGone.
  Proof.
    intros Hg H. destruct l as [l0|].
    - apply hstep_HL in H as (_ & b & _ & ->). cbn [h_hb hb_after]. rewrite Hg. reflexivity.
    - cbn [hstep] in H. rewrite Hg in H. discriminate.
  Qed.

  (* Nothing is behind the Once before it has fired.  Let Q be a property of the base system that every step other than the
     start label and the ticks preserves: a step of the layered system that leaves the heartbeat unstarted preserves Q too,
     since it is neither the start label (which fires the Once) nor a tick (which needs a running heartbeat). *)
  Lemma before_start_step (Q : St -> Prop) :
    hb_starts h = true ->
    (forall b l b', Q b -> is_start l = false -> is_tick l = false -> step b l = Some b' -> Q b') ->
    forall s l s', (h_hb s = HbNone -> Q (h_s s)) -> hstep' s l = Some s' -> h_hb s' = HbNone -> Q (h_s s').
  Proof.
    intros Hstarts Qstep s l s' Hs H Hn. destruct l as [l0|].
    - apply hstep_HL in H as (Ht & b & Eb & ->). cbn [h_hb h_s] in *. unfold hb_after in Hn.
      destruct (h_hb s); try discriminate Hn. rewrite Hstarts, andb_true_r in Hn.
      destruct (is_start l0) eqn:Es; [discriminate Hn|]. destruct (is_tick l0) eqn:Et; [discriminate (Ht eq_refl)|].
      exact (Qstep _ _ _ (Hs eq_refl) Es Et Eb).
    - cbn [hstep] in H. destruct (hb_running (h_hb s) && negb (hb_forever h)); [|discriminate]. inversion H; subst. discriminate Hn.
  Qed.
End Layer.

Lemma lrun_brun c ls : forall s, lrun c s ls = brun (lstep c) s ls.
Proof. intros s. apply lrun_run. Qed.
Lemma srun_brun c ls : forall s, srun c s ls = brun (sstep c) s ls.
Proof. intros s. apply srun_run. Qed.

(* program points of the slow path of get() of the low-memory pool, behind the Once *)
Definition in_slow (p : lpc) : bool := match p with LIdle | LIncd _ => false | _ => true end.
Lemma in_slow_lwake p : in_slow (lwake p) = in_slow p. Proof. destruct p; reflexivity. Qed.

Lemma lpc_fset (g : Z) (p : lpc) (g' : Z) (thr : list (Z * lpc)) :
  fget LIdle g' (fset g p thr) = if g' =? g then p else fget LIdle g' thr.
Proof. apply fget_fset. Qed.

Section LmHb.
  Variable c : pcfg.
  Variable h : hcfg.
  Hypothesis Hstarts : hb_starts h = true.

  Definition lm_started (s : hst lst) : Prop := h_hb s = HbNone -> forall g, in_slow (lpc_of (h_s s) g) = false.

  Lemma lm_started_init : lm_started lhinit.
  Proof. intros _ g. reflexivity. Qed.

  Lemma lm_started_step s l s' : lm_started s -> lhstep c h s l = Some s' -> lm_started s'.
  Proof.
    refine (before_start_step (lstep c) l_is_start l_is_tick h (fun b => forall g, in_slow (lpc_of b g) = false) Hstarts _ s l s').
    (* left: a step of the base system other than LmDec and the ticks keeps every getter off the slow path.  A label that
       leads onto the slow path is one of the slow path, it needs a getter that is there already: a label of get() reads the
       pc of its getter, on the fast path that is LIdle or LIncd, and of these LmInc and LmEnter are left *)
    clear s l s'. intros b l b' Hq Hs Ht E g'.
    destruct l; try discriminate Hs; try discriminate Ht; unfold lstep in E;
      try (pose proof (Hq g) as Hg; destruct (lpc_of b g); try discriminate Hg; try discriminate E);
      step_split E; injection E as <-; unfold lpc_of, lbcast, lbroadcast; cbn [l_thr lupd].
    - (* LmInc *) rewrite lpc_fset. destruct (g' =? g); [reflexivity|apply Hq].
    - (* LmEnter *) rewrite lpc_fset. destruct (g' =? g); [reflexivity|apply Hq].
    - (* LmBDec *) apply Hq.
    - (* LmBBc *) rewrite fget_fmapv, in_slow_lwake by reflexivity. apply Hq.
    - (* LmEnvBc *) rewrite fget_fmapv, in_slow_lwake by reflexivity. apply Hq.
  Qed.

  Lemma lm_started_run ls s : lhrun c h lhinit ls = Some s -> lm_started s.
  Proof. exact (hrun_invariant (lstep c) l_is_start l_is_tick h lm_started lm_started_step ls lhinit s lm_started_init). Qed.

  Lemma lm_sleeper_has_heartbeat ls s g :
    hb_forever h = true -> lhrun c h lhinit ls = Some s -> lpc_of (h_s s) g = LSleep -> h_hb s = HbRun.
  Proof.
    intros Hf Hr Hg. destruct (h_hb s) eqn:Eh; [|reflexivity|].
    - pose proof (lm_started_run ls s Hr Eh g) as Hq. rewrite Hg in Hq. discriminate Hq.
    - destruct (hb_never_gone (lstep c) l_is_start l_is_tick h ls lhinit s Hf); [discriminate|exact Hr|exact Eh].
  Qed.
End LmHb.

(* fairness: however the getters, the backers and the heartbeat are scheduled, a getter does not stay asleep across more
   than two heartbeat iterations that find capacity free (the first of them may have loaded the waiter count before the
   getter registered).  The potential is [lbudget] at the heartbeat's program point: while the getter sleeps a
   waiter is counted, so [tick_budget] applies to every step of the heartbeat, and no other step moves the heartbeat *)
Section LmFair.
  Variable c : pcfg.
  Hypothesis Hcap : 0 <= cap c.
  Hypothesis Hfits : forall r, fits c r (cap c) = true -> r <= cap c.
  Hypothesis Htick : tickc c true true = true.

  (* How many more iterations that find capacity free the goroutine at t can go through without broadcasting, while a
     waiter is counted. *)
  Definition lbudget (t : tpc) : nat :=
    match t with
    | TIdle => 1
    | TW w => if 0 <? w then 1 else 2
    | TA w a => if tickc c (0 <? w) a then 0 else 1
    | TFired => 1
    end.

  Lemma lbudget_le t : (lbudget t <= 2)%nat.
  Proof. destruct t as [|w|w a|]; cbn [lbudget]; try lia; [destruct (0 <? w)|destruct (tickc c (0 <? w) a)]; lia. Qed.

  (* a step that does not broadcast pays for the capacity it saw free *)
  Lemma tick_budget w0 a0 t k t' : 1 <= w0 -> tick_step c w0 a0 t k = Some (t', false) ->
    ((match k with KA true => 1 | _ => 0 end) + lbudget t' <= lbudget t)%nat.
  Proof.
    intros Hw H. destruct k as [w|a| |], t as [|w'|w' a'|]; cbn [tick_step] in H; try discriminate H.
    - step_split H. inversion H; subst t'. bnorm. subst w. cbn [lbudget]. replace (0 <? w0) with true by lia. lia.
    - step_split H. inversion H; subst t'. cbn [lbudget]. destruct a.
      + destruct (0 <? w'); [rewrite Htick; lia|]. destruct (tickc c false true); lia.
      + destruct (tickc c (0 <? w') false), (0 <? w'); lia.
    - step_split H.
    - destruct (tickc c (0 <? w') a') eqn:Ec; [discriminate H|]. inversion H; subst t'. cbn [lbudget]. rewrite Ec. lia.
    - inversion H; subst t'. cbn [lbudget]. lia.
  Qed.

  Lemma lstep_nontick_tick s l s' : l_is_tick l = false -> lstep c s l = Some s' -> l_tick s' = l_tick s.
  Proof.
    intros Hl H. destruct l; try discriminate Hl; unfold lstep in H; step_split H; inversion H; subst; reflexivity.
  Qed.

  Lemma l_avail_ticks_cons l ls :
    l_avail_ticks (l :: ls) = ((match l with LmTickA true => 1 | _ => 0 end) + l_avail_ticks ls)%nat.
  Proof. unfold l_avail_ticks. cbn [filter]. destruct l; try reflexivity. destruct a; reflexivity. Qed.

  Lemma lm_asleep_budget g ls : forall s s',
    linv c s -> lpc_of s g = LSleep -> lrun_asleep c g s ls = Some s' -> (l_avail_ticks ls <= lbudget (l_tick s))%nat.
  Proof.
    induction ls as [|l r IH]; intros s s' Hinv Hg Hr; [cbn; lia|].
    cbn [lrun_asleep] in Hr. destruct (lstep c s l) as [s1|] eqn:E; [|discriminate].
    destruct (lpc_of s1 g) eqn:Eg1; try discriminate Hr.
    specialize (IH s1 s' (linv_step c Hfits s l s1 Hinv E) Eg1 Hr). rewrite l_avail_ticks_cons.
    destruct (l_is_tick l) eqn:Et.
    - apply l_is_tick_inv in Et as [k ->]. rewrite lstep_tick in E.
      destruct (tick_step _ _ _ _ k) as [[t1 [|]]|] eqn:Ek; inversion E; subst s1.
      + (* the broadcast wakes g *) rewrite lpc_lset_tick, lpc_lbcast, Hg in Eg1. discriminate Eg1.
      + apply (tick_budget _ _ _ _ _ (lm_sleeper_counted c s g Hinv Hg)) in Ek. cbn [l_tick lset_tick lupd] in IH.
        destruct k as [|[]| |]; cbn [l_of_tick]; lia.
    - rewrite (lstep_nontick_tick s l s1 Et E) in IH. destruct l; try discriminate Et; lia.
  Qed.

  Lemma lm_fair_heartbeat_wakes g ls s ls' s' :
    lrun c linit ls = Some s -> lpc_of s g = LSleep -> lrun_asleep c g s ls' = Some s' -> (l_avail_ticks ls' <= 2)%nat.
  Proof.
    intros Hr Hg Ha. pose proof (linv_reach c Hcap Hfits ls s Hr) as Hinv.
    pose proof (lm_asleep_budget g ls' s s' Hinv Hg Ha). pose proof (lbudget_le (l_tick s)). lia.
  Qed.
End LmFair.

(* the wake-up theorem of PoolLm.v in the layered system: the heartbeat that performs the waking steps is running *)
Lemma lm_hb_no_stuck_waiter c h ls s g :
  0 <= cap c -> (forall r, fits c r (cap c) = true -> r <= cap c) -> tickc c true true = true ->
  hb_starts h = true -> hb_forever h = true ->
  lhrun c h lhinit ls = Some s -> lpc_of (h_s s) g = LSleep -> avail c (l_inuse (h_s s)) (cap c) = true ->
  h_hb s = HbRun /\
  exists ls' s', l_nonenv ls' /\ (l_ticks ls' <= 1)%nat /\ lhrun c h s (map HL ls') = Some s' /\ lpc_of (h_s s') g <> LSleep.
Proof.
  intros Hcap Hfits Htick Hst Hf Hr Hg Ha.
  pose proof (lm_sleeper_has_heartbeat c h Hst ls s g Hf Hr Hg) as Hrun. split; [exact Hrun|].
  apply hrun_proj in Hr. rewrite <- lrun_brun in Hr.
  pose proof (linv_reach c Hcap Hfits _ _ Hr) as Hinv.
  destruct (lm_no_stuck_waiter c Htick _ g Hinv Hg Ha) as (ls' & b' & Hne & Hti & Hr' & Hp).
  exists ls', (mk_hst HbRun b'). repeat split; try assumption.
  apply hrun_lift; [exact Hrun|]. rewrite <- lrun_brun. exact Hr'.
Qed.

(* a heartbeat that has returned: the lost wake-up is final - NO step other than one of the environment is enabled *)
Section LmGone.
  Variable c : pcfg.
  Variable h : hcfg.

  Definition lm_gone_inv (g : Z) (s : hst lst) : Prop :=
    h_hb s = HbGone /\ lpc_of (h_s s) g = LSleep /\ l_bpend (h_s s) = [] /\ (forall g', g' <> g -> lpc_of (h_s s) g' = LIdle).

  Lemma lm_gone_no_step g s l : lm_gone_inv g s -> lh_env l = false -> lhstep c h s l = None.
  Proof.
    intros (Hh & Hg & Hb & Hoth) He. unfold lhstep. destruct l as [l0|]; cbn [hstep]; rewrite Hh; [|reflexivity].
    cbn [hb_running negb]. rewrite andb_true_r. destruct (l_is_tick l0) eqn:Et; [reflexivity|].
    rewrite (lm_asleep_no_step c g (h_s s) l0 Hg Hoth Hb He Et). reflexivity.
  Qed.

  Lemma lm_gone_run_nil g ls s s' : lm_gone_inv g s -> lh_nonenv ls -> lhrun c h s ls = Some s' -> ls = [] /\ s' = s.
  Proof.
    destruct ls as [|l r]; intros Hs Hne Hr; cbn [lhrun hrun] in Hr; [inversion Hr; auto|].
    apply andb_true_iff in Hne as [Hl%negb_true_iff _].
    unfold lhrun in Hr. cbn [hrun] in Hr. fold (lhstep c h s l) in Hr. rewrite (lm_gone_no_step g s l Hs Hl) in Hr. discriminate.
  Qed.

  Lemma lm_gone_stuck g ls : forall s s', lm_gone_inv g s -> lh_nonenv ls -> lhrun c h s ls = Some s' -> s' = s.
  Proof. intros s s' Hs Hne Hr. exact (proj2 (lm_gone_run_nil g ls s s' Hs Hne Hr)). Qed.
End LmGone.

Lemma gpc_fset (g : Z) (p : gpc) (g' : Z) (thr : list (Z * gpc)) :
  fget GIdle g' (fset g p thr) = if g' =? g then p else fget GIdle g' thr.
Proof. apply fget_fset. Qed.

Section StdHb.
  Variable c : pcfg.
  Variable h : hcfg.
  Hypothesis Hstarts : hb_starts h = true.

  (* before the first get() no getter exists *)
  Definition std_started (s : hst sst) : Prop := h_hb s = HbNone -> forall g, gpc_of (h_s s) g = GIdle.

  Lemma std_started_init : std_started (shinit c).
  Proof. intros _ g. reflexivity. Qed.

  Lemma std_started_step s l s' : std_started s -> shstep c h s l = Some s' -> std_started s'.
  Proof.
    refine (before_start_step (sstep c) s_is_start s_is_tick h (fun b => forall g, gpc_of b g = GIdle) Hstarts _ s l s').
    (* left: a step of the base system other than SClaim and the ticks leaves every getter at GIdle.  Every other label of
       get() needs a getter that is past SClaim already: it reads the pc of its getter, which is GIdle, and that enables
       SClaim alone, the start label *)
    clear s l s'. intros b l b' Hq Hs Ht E g'.
    destruct l; try discriminate Hs; try discriminate Ht; unfold sstep in E; try (rewrite (Hq g) in E; discriminate E);
      step_split E; injection E as <-; sst_unfold.
    - (* SBClaim *) apply Hq.
    - (* SBCas, won *) apply Hq.
    - (* SBCas, lost *) apply Hq.
    - (* SBPut *) apply Hq.
    - (* SBF1 *) apply Hq.
    - (* SBDec *) apply Hq.
    - (* SBBc *) rewrite fget_fmapv, Hq by reflexivity. reflexivity.
    - (* SEnvBc *) rewrite fget_fmapv, Hq by reflexivity. reflexivity.
  Qed.

  Lemma std_started_run ls s : shrun c h (shinit c) ls = Some s -> std_started s.
  Proof. exact (hrun_invariant (sstep c) s_is_start s_is_tick h std_started std_started_step ls (shinit c) s std_started_init). Qed.

  Lemma std_sleeper_has_heartbeat ls s g x :
    hb_forever h = true -> shrun c h (shinit c) ls = Some s -> gpc_of (h_s s) g = GSleep x -> h_hb s = HbRun.
  Proof.
    intros Hf Hr Hg. destruct (h_hb s) eqn:Eh; [|reflexivity|].
    - pose proof (std_started_run ls s Hr Eh g) as Hq. rewrite Hg in Hq. discriminate Hq.
    - destruct (hb_never_gone (sstep c) s_is_start s_is_tick h ls (shinit c) s Hf); [discriminate|exact Hr|exact Eh].
  Qed.
End StdHb.

Lemma std_hb_no_stuck_waiter c h ls s g x :
  tickc c true true = true -> hb_starts h = true -> hb_forever h = true ->
  shrun c h (shinit c) ls = Some s -> gpc_of (h_s s) g = GSleep x -> avail c (s_inuse (h_s s)) (cap c) = true ->
  h_hb s = HbRun /\
  exists ls' s', s_nonenv ls' /\ (s_ticks ls' <= 1)%nat /\ shrun c h s (map HL ls') = Some s' /\ gpc_of (h_s s') g = GWoken x.
Proof.
  intros Htick Hst Hf Hr Hg Ha.
  pose proof (std_sleeper_has_heartbeat c h Hst ls s g x Hf Hr Hg) as Hrun. split; [exact Hrun|].
  apply hrun_proj in Hr. rewrite <- srun_brun in Hr. apply sinv_reach in Hr.
  destruct (std_no_stuck_waiter c Htick _ g x (proj2 (proj2 Hr)) Hg Ha) as (ls' & b' & Hne & Hti & Hr' & Hp).
  exists ls', (mk_hst HbRun b'). repeat split; try assumption.
  apply hrun_lift; [exact Hrun|]. rewrite <- srun_brun. exact Hr'.
Qed.

Section StdFair.
  Variable c : pcfg.
  Hypothesis Htick : tickc c true true = true.

  Lemma sstep_nontick_tick s l s' : s_is_tick l = false -> sstep c s l = Some s' -> s_tick s' = s_tick s.
  Proof.
    intros Hl H. destruct l; try discriminate Hl; unfold sstep in H; step_split H; inversion H; subst; reflexivity.
  Qed.

  Lemma s_avail_ticks_cons l ls :
    s_avail_ticks (l :: ls) = ((match l with STickA true => 1 | _ => 0 end) + s_avail_ticks ls)%nat.
  Proof. unfold s_avail_ticks. cbn [filter]. destruct l; try reflexivity. destruct a; reflexivity. Qed.

  Lemma std_asleep_budget g ls : forall s s' x,
    sinv c s -> gpc_of s g = GSleep x -> srun_asleep c g s ls = Some s' -> (s_avail_ticks ls <= lbudget c (s_tick s))%nat.
  Proof.
    induction ls as [|l r IH]; intros s s' x Hinv Hg Hr; [cbn; lia|].
    cbn [srun_asleep] in Hr. destruct (sstep c s l) as [s1|] eqn:E; [|discriminate].
    destruct (gpc_of s1 g) eqn:Eg1; try discriminate Hr.
    specialize (IH s1 s' _ (sinv_step c s l s1 Hinv E) Eg1 Hr). rewrite s_avail_ticks_cons.
    destruct (s_is_tick l) eqn:Et.
    - apply s_is_tick_inv in Et as [k ->]. rewrite sstep_tick in E.
      destruct (tick_step _ _ _ _ k) as [[t1 [|]]|] eqn:Ek; inversion E; subst s1.
      + (* the broadcast wakes g *) rewrite gpc_sset_tick, gpc_sbcast, Hg in Eg1. discriminate Eg1.
      + apply (tick_budget c Htick _ _ _ _ _ (std_sleeper_counted s g x (proj2 (proj2 Hinv)) Hg)) in Ek. cbn [s_tick sset_tick supd] in IH.
        destruct k as [|[]| |]; cbn [s_of_tick]; lia.
    - rewrite (sstep_nontick_tick s l s1 Et E) in IH. destruct l; try discriminate Et; lia.
  Qed.

  Lemma std_fair_heartbeat_wakes g x ls s ls' s' :
    srun c (sinit c) ls = Some s -> gpc_of s g = GSleep x -> srun_asleep c g s ls' = Some s' -> (s_avail_ticks ls' <= 2)%nat.
  Proof.
    intros Hr Hg Ha. pose proof (std_asleep_budget g ls' s s' x (sinv_reach c ls s Hr) Hg Ha).
    pose proof (lbudget_le c (s_tick s)). lia.
  Qed.
End StdFair.
