(* Proofs about Model/Admission.v: Pipeline.checkInputBytes by cases of (empty, over the limit, cut_off) — [admit_cases] —
   and the refusal chain of Pipeline.In after it: what each answer of In says about the record ([in_post]). *)
From Verif Require Import Base.Sx Base.GoSem Model.Admission Proofs.GoSemFacts.
From Coq Require Import Lia ZifyBool.

Lemma idx_last {A} (l : list A) x : idx (l ++ [x]) (len (l ++ [x]) - 1) = Ok x.
Proof.
  replace (len (l ++ [x]) - 1) with (len l) by (rewrite len_app, len_cons, len_nil; lia).
  apply idx_app.
Qed.

Lemma slice_to_neg {A} (l : list A) hi : hi < 0 -> slice_to l hi = Panic 1.
Proof.
  intros H. unfold slice_to, slice.
  replace ((0 <=? 0) && (0 <=? hi) && (hi <=? len l)) with false by lia. reflexivity.
Qed.

Lemma empty_record_len b : empty_record b -> len b <= 1.
Proof. intros [-> | ->]; cbn; lia. Qed.

Lemma empty_test_iff (b : bytes) :
  (len b =? 0) || match b with [c] => N.eqb c NL | _ => false end = true <-> empty_record b.
Proof.
  unfold empty_record. destruct b as [|c [|d b]].
  - split; [left|]; reflexivity.
  - change (N.eqb c NL = true <-> [c] = [] \/ [c] = [NL]). rewrite N.eqb_eq.
    split; [intros ->; right; reflexivity | intros [H|H]; [discriminate H | injection H as ->; reflexivity]].
  - split; [rewrite !len_cons; pose proof (len_nonneg b); lia | intros [H|H]; discriminate H].
Qed.

(* checkInputBytes on every input: the index bytes[len-1] is in range whenever it is reached, the slice bytes[:max]
   is in range unless max is negative *)
Lemma admit_cases b max cutoff :
  (empty_record b /\ admit_bytes b max cutoff = Ok (Refuse REmpty)) \/
  (~ empty_record b /\
   admit_bytes b max cutoff =
     if negb (max =? 0) && (max <? len b) then
       if cutoff then (if max <? 0 then Panic 1 else Ok (Cut (cut_spec b max))) else Ok (Refuse ROversize)
     else Ok (Keep b)).
Proof.
  unfold admit_bytes. cbv zeta. destruct ((len b =? 0) || _) eqn:He.
  - left. split; [apply empty_test_iff; exact He | reflexivity].
  - assert (Hne : ~ empty_record b) by (rewrite <- empty_test_iff, He; discriminate).
    right. split; [exact Hne|].
    destruct (negb (max =? 0) && (max <? len b)) eqn:Hov; [|reflexivity].
    destruct cutoff; [|reflexivity]. cbn [negb].
    assert (Hb : b <> []) by (intros ->; apply Hne; left; reflexivity).
    destruct (exists_last Hb) as (l & x & ->).
    rewrite idx_last. cbn [bind]. destruct (max <? 0) eqn:Hm.
    + rewrite slice_to_neg by lia. reflexivity.
    + rewrite slice_to_ok by lia. cbn [bind]. unfold cut_spec, ends_nl. rewrite rev_unit.
      destruct (N.eqb x NL); [reflexivity | rewrite app_nil_r; reflexivity].
Qed.

(* refused exactly for: empty, a lone newline, or oversize while cutting is disabled *)
Theorem admit_refuse_iff b max cutoff :
  (exists w, admit_bytes b max cutoff = Ok (Refuse w)) <->
  (empty_record b \/ (max <> 0 /\ max < len b /\ cutoff = false)).
Proof.
  destruct (admit_cases b max cutoff) as [[He ->]|[Hne ->]]; [split; eauto|].
  split.
  - intros [w H]. right. destruct (negb (max =? 0) && (max <? len b)) eqn:Hov; [|discriminate H].
    destruct cutoff; [destruct (max <? 0); discriminate H | lia].
  - intros [He | (H1 & H2 & ->)]; [contradiction|].
    destruct (negb (max =? 0) && (max <? len b)) eqn:Hov; [eauto | lia].
Qed.

(* with cutting enabled an oversize record becomes exactly its first max bytes, plus the newline iff
   it ended with one *)
Theorem admit_cut_exact b max :
  0 < max -> max < len b ->
  admit_bytes b max true = Ok (Cut (cut_spec b max)).
Proof.
  intros Hm Hl. destruct (admit_cases b max true) as [[He _]|[_ ->]].
  - apply empty_record_len in He. lia.
  - destruct (negb (max =? 0) && (max <? len b)) eqn:Hov; [|lia].
    destruct (max <? 0) eqn:Hneg; [lia | reflexivity].
Qed.

(* records within the limit (or with no limit configured) pass unchanged, whatever the cut-off setting *)
Theorem admit_identity_within_limit b max cutoff :
  ~ empty_record b -> (max = 0 \/ len b <= max) ->
  admit_bytes b max cutoff = Ok (Keep b).
Proof.
  intros Hne Hl. destruct (admit_cases b max cutoff) as [[He _]|[_ ->]]; [contradiction|].
  destruct (negb (max =? 0) && (max <? len b)) eqn:Hov; [lia | reflexivity].
Qed.

(* the slice cannot go out of range for a non-negative limit ... *)
Theorem admit_no_panic b max cutoff : 0 <= max -> is_panic (admit_bytes b max cutoff) = false.
Proof.
  intros Hm. destruct (admit_cases b max cutoff) as [[_ ->]|[_ ->]]; [reflexivity|].
  destruct (negb (max =? 0) && (max <? len b)); [destruct cutoff; [destruct (max <? 0) eqn:Hneg; [lia|]|]|];
    reflexivity.
Qed.

(* ... and does for a negative one with cutting enabled (settings are not validated) *)
Theorem admit_negative_max_panics b max :
  max < 0 -> ~ empty_record b -> is_panic (admit_bytes b max true) = true.
Proof.
  intros Hm Hne. destruct (admit_cases b max true) as [[He _]|[_ ->]]; [contradiction|].
  pose proof (len_nonneg b).
  destruct (negb (max =? 0) && (max <? len b)) eqn:Hov; [|lia].
  destruct (max <? 0) eqn:Hneg; [reflexivity | lia].
Qed.

Section Chain.
Variable c : in_cfg.
Variable cri : bytes -> option bool.
Variable decode_ok : bytes -> bool.
Variable spam : bytes -> bool.
Variables cur soff : Z.

Definition later_refusal (b' : bytes) : Prop :=
  cri b' = None \/
  (cri b' = Some false /\ 0 <= as_thr c /\ ((is_cri c = true /\ 0 < soff /\ cur < soff) \/ spam b' = true)) \/
  decode_ok b' = false.

Lemma stage2_post b' cut consult sp :
  match in_stage2 c decode_ok b' cut consult sp with
  | Refused _ => consult && sp = true \/ decode_ok b' = false
  | Delivered d mark => consult && sp = false /\ d = b' /\ decode_ok d = true /\ mark = cut && mark_on c
  | Crash => False
  end.
Proof. unfold in_stage2. destruct (consult && sp); [auto|]. destruct (decode_ok b') eqn:Hd; auto. Qed.

(* what In does with the bytes b' that checkInputBytes let through (cut: they were cut): the antispam is consulted
   for full rows when it is enabled, and only then the committed-offset test applies *)
Definition in_chain (b' : bytes) (cut : bool) : in_result :=
  match cri b' with
  | None => Refused RCri
  | Some partial =>
      let consult := negb partial && (0 <=? as_thr c) in
      if consult && (is_cri c && (0 <? soff) && (cur <? soff)) then Refused RCommitted
      else in_stage2 c decode_ok b' cut consult (spam b')
  end.

Lemma pipeline_in_eq b :
  pipeline_in c cri decode_ok spam cur soff b =
    match admit_bytes b (max_size c) (cut_on c) with
    | Ok (Refuse w) => Refused w
    | Ok (Keep x) => in_chain x false
    | Ok (Cut x) => in_chain x true
    | _ => Crash
    end.
Proof.
  unfold pipeline_in, in_stage1, in_chain.
  destruct (admit_bytes b (max_size c) (cut_on c)) as [[w|x|x]| |]; try reflexivity;
    (destruct (cri x) as [p|]; [|reflexivity]);
    (destruct (negb p && (0 <=? as_thr c)); [destruct (is_cri c && (0 <? soff) && (cur <? soff))|]); reflexivity.
Qed.

Lemma in_chain_post b' cut :
  match in_chain b' cut with
  | Refused _ => later_refusal b'
  | Delivered d mark => ~ later_refusal b' /\ d = b' /\ decode_ok d = true /\ mark = cut && mark_on c
  | Crash => False
  end.
Proof.
  unfold in_chain, later_refusal. destruct (cri b') as [p|]; [|left; reflexivity].
  destruct (negb p && (0 <=? as_thr c) && (is_cri c && (0 <? soff) && (cur <? soff))) eqn:Hco.
  { right; left. destruct p; [discriminate Hco | split; [reflexivity | lia]]. }
  pose proof (stage2_post b' cut (negb p && (0 <=? as_thr c)) (spam b')) as H.
  destruct (in_stage2 c decode_ok b' cut _ (spam b')); [|destruct H as (Hs & -> & Hd & ->)|exact H].
  - destruct H as [H|H]; [|right; right; exact H].
    right; left. destruct p; [discriminate H | split; [reflexivity | lia]].
  - split; [|auto]. intros [H|[(H & Ht)|H]]; [discriminate H | injection H as ->; lia | congruence].
Qed.

Definition refusal (b : bytes) : Prop :=
  empty_record b \/ (oversize c b /\ cut_on c = false) \/ later_refusal (seen_bytes c b).

(* what each answer of In says about the record: the one walk through checkInputBytes and the chain, from which
   [in_refuse_iff] and [in_delivered_spec] are read off.  In crashes only in the slice bytes[:max], on a negative
   limit. *)
Lemma in_post b :
  match pipeline_in c cri decode_ok spam cur soff b with
  | Refused _ => refusal b
  | Delivered d mark =>
      ~ refusal b /\ d = seen_bytes c b /\ decode_ok d = true /\
      mark = (negb (max_size c =? 0) && (max_size c <? len b)) && mark_on c
  | Crash => max_size c < 0
  end.
Proof.
  unfold refusal, seen_bytes, oversize. rewrite pipeline_in_eq.
  destruct (admit_cases b (max_size c) (cut_on c)) as [[He ->]|[Hne ->]]; [left; exact He|].
  destruct (negb (max_size c =? 0) && (max_size c <? len b)) eqn:Hov;
    [destruct (cut_on c) eqn:Hcut; [destruct (max_size c <? 0) eqn:Hneg|]|].
  - lia.
  - pose proof (in_chain_post (cut_spec b (max_size c)) true) as H.
    destruct (in_chain _ _); [right; right; exact H | | destruct H].
    split; [intros [He|[[_ Ho]|Hl]]; [contradiction | discriminate Ho | exact (proj1 H Hl)] | exact (proj2 H)].
  - right; left. lia.
  - pose proof (in_chain_post b false) as H.
    destruct (in_chain _ _); [right; right; exact H | | destruct H].
    (* without [clear H], lia translates the chain's whole postcondition before it looks at Hov and Ho *)
    split; [intros [He|[Ho|Hl]]; [contradiction | clear H; lia | exact (proj1 H Hl)] | exact (proj2 H)].
Qed.

(* In refuses a record exactly when: it is empty / a lone newline; it is oversize and cutting is off;
   or - for the bytes that survive checkInputBytes - the CRI row is malformed, the antispam branch is
   active (threshold >= 0, row not partial) and the record is already committed or its source is
   flagged, or the decoder rejects it. *)
Theorem in_refuse_iff b :
  0 <= max_size c ->
  ((exists w, pipeline_in c cri decode_ok spam cur soff b = Refused w) <->
   (empty_record b \/ (oversize c b /\ cut_on c = false) \/ later_refusal (seen_bytes c b))).
Proof.
  intros Hm. pose proof (in_post b) as H. unfold refusal in H.
  destruct (pipeline_in c cri decode_ok spam cur soff b) as [w|d mark|].
  - split; eauto.
  - split; [intros [w Hw]; discriminate Hw | intros Hr; destruct (proj1 H Hr)].
  - lia.
Qed.

(* what is delivered: the record itself when within the limit, its cut form otherwise, accepted by the
   decoder; the mark is set iff the record was cut and a mark field is configured *)
Theorem in_delivered_spec b d mark :
  pipeline_in c cri decode_ok spam cur soff b = Delivered d mark ->
  d = seen_bytes c b /\ decode_ok d = true /\
  mark = (negb (max_size c =? 0) && (max_size c <? len b)) && mark_on c.
Proof. intros E. pose proof (in_post b) as H. rewrite E in H. exact (proj2 H). Qed.

End Chain.

Lemma in_chain_disabled c cri decode_ok spam1 spam2 cur1 soff1 cur2 soff2 b' cut :
  as_thr c < 0 ->
  in_chain c cri decode_ok spam1 cur1 soff1 b' cut = in_chain c cri decode_ok spam2 cur2 soff2 b' cut.
Proof.
  intros Ht. unfold in_chain. destruct (cri b') as [p|]; [|reflexivity].
  replace (0 <=? as_thr c) with false by lia. rewrite andb_false_r. reflexivity.
Qed.

(* a disabled antispam (negative threshold) never influences admission: neither the verdict of IsSpam
   nor the "already committed" offsets are looked at *)
Theorem in_disabled_antispam_never c cri decode_ok spam1 spam2 cur1 soff1 cur2 soff2 b :
  as_thr c < 0 ->
  pipeline_in c cri decode_ok spam1 cur1 soff1 b = pipeline_in c cri decode_ok spam2 cur2 soff2 b.
Proof.
  intros Ht. rewrite !pipeline_in_eq.
  destruct (admit_bytes b (max_size c) (cut_on c)) as [[w|x|x]| |]; try reflexivity; apply in_chain_disabled, Ht.
Qed.
