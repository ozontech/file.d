(* C20 beyond the refusal chain and the unbounded counter:
   - the last stage of Pipeline.In (streamEvent: the input's PassEvent, DisableStreams) and the re-keying of a source by
     source_name_meta_field (Model/Antispam.v: in_stage3, pipeline_in3, source_key, pstep6);
   - the int32 counter (count_step32 / maint_step32 / arun32): exact agreement with the unbounded model on every run that
     is too short to leave the int32 range. *)
From Verif Require Import Base.Sx Base.GoSem Model.Admission Model.Antispam Proofs.Antispam.
From Coq Require Import Lia ZifyBool.

(* the input refuses an event exactly when everything before it let the event through, streams are on and
   PassEvent answered false *)
Theorem in3_refused_by_input_iff c cri decode_ok spam cur soff b streams_on pass :
  pipeline_in3 c cri decode_ok spam cur soff b streams_on pass = RefusedByInput <->
  ((exists d mark, pipeline_in c cri decode_ok spam cur soff b = Delivered d mark) /\ streams_on = true /\ pass = false).
Proof.
  unfold pipeline_in3, in_stage3.
  destruct (pipeline_in c cri decode_ok spam cur soff b) as [w|d mark|].
  1, 3: split; [discriminate | intros [(d & mark & H) _]; discriminate H].
  destruct (streams_on && negb pass) eqn:E.
  - split; [intros _; split; [eauto | lia] | reflexivity].
  - split; [discriminate | intros (_ & -> & ->); discriminate E].
Qed.

(* otherwise In behaves as the chain of Model/Admission.v says: an input that passes everything, or disabled streams,
   add no refusal (so c20_in_refuse_iff / c20_in_delivered_spec describe the whole of In in that case) *)
Theorem in3_pass_is_in c cri decode_ok spam cur soff b streams_on pass :
  streams_on = false \/ pass = true ->
  pipeline_in3 c cri decode_ok spam cur soff b streams_on pass = R3 (pipeline_in c cri decode_ok spam cur soff b).
Proof.
  unfold pipeline_in3, in_stage3. intros H.
  destruct (pipeline_in c cri decode_ok spam cur soff b); try reflexivity.
  destruct H as [-> | ->]; [reflexivity | rewrite andb_false_r; reflexivity].
Qed.

(* what In refuses for any other reason it refuses whatever the input would have said *)
Theorem in3_refusal_independent_of_input c cri decode_ok spam cur soff b streams_on pass w :
  pipeline_in c cri decode_ok spam cur soff b = Refused w ->
  pipeline_in3 c cri decode_ok spam cur soff b streams_on pass = R3 (Refused w).
Proof. unfold pipeline_in3. intros ->. reflexivity. Qed.

(* the antispam has already counted the event when the input is asked: the state after a call does not depend on the answer *)
Theorem pstep6_state_independent_of_pass pc streams_on meta_on nsrc ms id isNew cur soff hdr b valid pass1 pass2 meta :
  fst (pstep6 pc streams_on meta_on nsrc ms (P6In id isNew cur soff hdr b valid pass1 meta)) =
  fst (pstep6 pc streams_on meta_on nsrc ms (P6In id isNew cur soff hdr b valid pass2 meta)).
Proof.
  unfold pstep6. destruct (source_key meta_on nsrc id isNew meta) as [key isNew'].
  destruct (in_stage1 _ _ cur soff b) as [w| |b' cut consult]; try reflexivity.
  (* the table after the antispam call; every answer of the last stage returns it *)
  destruct (if consult then _ else _) as [ms' v].
  transitivity ms'; [|symmetry]; (destruct (in_stage3 _ _ _) as [[| |]|]; reflexivity).
Qed.

(* source_name_meta_field: an event that carries the field is counted under the meta value whatever its source id and
   is never treated as the first event of a new source; one that lacks it (or no field configured) keeps its own id *)
Theorem source_key_meta nsrc id1 id2 isNew1 isNew2 meta :
  0 <= meta -> source_key true nsrc id1 isNew1 meta = source_key true nsrc id2 isNew2 meta /\
               snd (source_key true nsrc id1 isNew1 meta) = false /\
               (nsrc <= fst (source_key true nsrc id1 isNew1 meta))%nat.
Proof.
  intros H. unfold source_key. assert (E : (0 <=? meta) = true) by lia. rewrite E. cbn. repeat split. lia.
Qed.

Theorem source_key_plain meta_on nsrc id isNew meta :
  meta_on = false \/ meta < 0 -> source_key meta_on nsrc id isNew meta = (id, isNew).
Proof.
  unfold source_key. intros [-> | H]; [reflexivity|].
  assert (E : (0 <=? meta) = false) by lia. rewrite E, andb_false_r. reflexivity.
Qed.

Lemma wrap32_id z : 0 <= z <= MAX32 -> wrap32 z = z.
Proof.
  unfold wrap32, MAX32. intros H. rewrite Z.mod_small by lia. apply Z.add_simpl_r.
Qed.

Lemma clamp32_id z : 0 <= z <= MAX32 -> clamp32 z = z.
Proof.
  unfold clamp32. intros H. replace (MAX32 <? z) with false by lia. apply wrap32_id, H.
Qed.

(* one IsSpam call: no difference while the counter is below MaxInt32 and the ban value fits *)
Theorem count_step32_exact MI U T s isNew t :
  0 < T -> 0 <= U -> U * T <= MAX32 -> wf T s -> counter_of s < MAX32 ->
  count_step32 MI U T s isNew t = count_step MI U T s isNew t.
Proof.
  intros HT HU HUT Hwf Hc. pose proof (counter_of_nonneg T s Hwf). unfold count_step32, count_step.
  destruct isNew; [reflexivity|].
  rewrite wrap32_id, clamp32_id; [reflexivity | nia |].
  destruct s; cbn [counter_of counter] in *; lia.
Qed.

Theorem maint_step32_exact U T s :
  0 < T -> 0 <= U -> wf T s -> counter_of s <= MAX32 -> maint_step32 U s = maint_step U s.
Proof.
  intros HT HU Hwf Hc. unfold maint_step32, maint_step. destruct s as [x|]; [|reflexivity].
  cbn [counter_of] in Hc. destruct Hwf as [-> H2].
  destruct (counter x =? 0); [reflexivity|]. rewrite clamp32_id; [reflexivity|].
  destruct (_ <? _) eqn:E; nia.
Qed.

Lemma astep32_exact MI U T s o :
  0 < T -> 0 <= U -> uniform_op T o = true -> wf T s -> Z.max (counter_of s) (U * T) < MAX32 ->
  astep32 MI U s o = astep MI U s o.
Proof.
  intros HT HU Hu Hwf Hb.
  destruct (uniform_op_inv T o Hu) as [->|(isNew & t & ->)]; cbn [astep32 astep].
  - rewrite (maint_step32_exact U T) by (try assumption; lia). reflexivity.
  - apply count_step32_exact; try assumption; lia.
Qed.

(* a run of n IsSpam calls (all counted against T) and Maintenance rounds from a state whose counter and ban value
   leave room for n increments below MaxInt32: the int32 code and the unbounded model of the theorems are THE SAME
   function - verdicts and state. In particular from the empty state every run of at most 2^31 - 1 - U*T ops. *)
Theorem arun32_exact MI U T ops : forall s,
  0 < T -> 0 <= U -> forallb (uniform_op T) ops = true -> wf T s ->
  Z.max (counter_of s) (U * T) + Z.of_nat (length ops) <= MAX32 ->
  arun32 MI U s ops = arun MI U s ops.
Proof.
  induction ops as [|o r IH]; intros s HT HU Hu Hwf Hb; [reflexivity|].
  cbn [forallb] in Hu. apply andb_true_iff in Hu. destruct Hu as [Ho Hr].
  cbn [length] in Hb. cbn [arun32 arun].
  rewrite (astep32_exact MI U T s o HT HU Ho Hwf) by lia.
  destruct (astep_inv MI U T s o HT HU Ho Hwf) as [Hwf1 Hb1].
  destruct (astep MI U s o) as [s1 v]. cbn [fst] in Hb1, Hwf1.
  rewrite (IH s1 HT HU Hr Hwf1) by lia. reflexivity.
Qed.

Corollary arun32_exact_fresh MI U T ops :
  0 < T -> 0 <= U -> forallb (uniform_op T) ops = true ->
  U * T + Z.of_nat (length ops) <= MAX32 ->
  arun32 MI U None ops = arun MI U None ops.
Proof.
  intros HT HU Hu Hb. apply (arun32_exact MI U T); try assumption; [exact I|].
  cbn [counter_of]. nia.
Qed.

(* outside that range the two differ, and the code does what the int32 model says (stream antispam-int32-clamp):
   T = 3, U = 2^30: the ban value 3 * 2^30 is clamped to MaxInt32; a slow event and a round keep the ban; the next
   QUICK event wraps the counter to MinInt32, is not flagged, and the round after it stores 0 *)
Example int32_clamp_wrap :
  let U := 1073741824 in
  let ban := repeat (Ev (Count 3) false 0) 3 in
  counter_of (fst (arun32 2 U None ban)) = MAX32 /\
  snd (arun32 2 U None (ban ++ [Ev (Count 3) false 2])) = [false; false; true; true] /\
  counter_of (fst (arun32 2 U None (ban ++ [Maint]))) = MAX32 - 3 /\
  snd (arun32 2 U None (ban ++ [Ev (Count 3) false 0])) = [false; false; true; false] /\
  counter_of (fst (arun32 2 U None (ban ++ [Ev (Count 3) false 0]))) = -2147483648 /\
  counter_of (fst (arun32 2 U None (ban ++ [Ev (Count 3) false 0; Maint]))) = 0 /\
  snd (arun 2 U None (ban ++ [Ev (Count 3) false 0])) = [false; false; true; true].
Proof. vm_compute. repeat split. Qed.
