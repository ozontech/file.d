(* Proofs about Model/Charged.v (makeCharged / joinStream of pipeline/streamer.go): the invariant [cinv] counts wake-ups
   against queued streams and gives [no_sleeper_while_queued] in every reachable state; a makeCharged that signals only
   the first of several charges breaks it. *)
From Verif Require Import Base.Sx Proofs.Lts Model.Charged Proofs.ListFacts.
From Coq Require Import Lia.

(* one queued stream may be without its wake-up: the one whose charger has not signalled yet (sigpend), or
   the one that the woken processor now re-checking the loop condition (inloop) is about to pop *)
Definition slack (s : cst) : Z := if inloop s || sigpend s then 1 else 0.

Definition cinv (s : cst) : Prop :=
  0 <= wk s /\ (stopping s = false -> wk s < slp s -> nq s <= wk s + slack s).

Lemma cinv_init : cinv cinit.
Proof. unfold cinv, cinit, slack; cbn. repeat split; intros; lia. Qed.

(* puts the values that the guards give the two flags into the invariant *)
Ltac rwflags s :=
  repeat match goal with
         | H : inloop s = _ |- _ => rewrite H in *; clear H
         | H : sigpend s = _ |- _ => rewrite H in *; clear H
         end.

Lemma cinv_step s l s' : cinv s -> cstep s l = Some s' -> cinv s'.
Proof.
  intros (Hw & Hj) H. unfold slack in Hj.
  destruct l; cbn [cstep] in H; step_split H; injection H as <-; bnorm; unfold cinv, slack; cbn.
  - (* CCharge: one more stream queued, and sigpend gives the slack for it *)
    rwflags s. cbn in *. repeat split; try lia. intros A B. specialize (Hj A B). lia.
  - (* CSignal: the slack is given up for a wake-up, if a sleeper is without one *)
    rwflags s. rewrite Bool.orb_true_r in Hj.
    destruct (wk s <? slp s) eqn:E; bnorm; repeat split; try lia. intros A B. specialize (Hj A E). lia.
  - (* CSleep: nothing is queued *) repeat split; try lia.
  - (* CWake: unless the streamer stops, the wake-up consumed becomes the slack of the processor now in the loop *)
    rwflags s. cbn in *. repeat split; try lia.
    intros A B. apply Bool.orb_false_iff in A. destruct A as [A1 A2]. subst stop. cbn in *.
    match goal with H : (stopping s || (0 <? wk s)) = true |- _ => rewrite A1 in H; cbn in H; apply Z.ltb_lt in H end.
    specialize (Hj A1). lia.
  - (* CPop: one stream fewer, and the slack of a processor in the loop goes with it *)
    rwflags s. rewrite Bool.orb_false_r in Hj.
    repeat split; try lia. intros A B. specialize (Hj A B). destruct (inloop s); lia.
Qed.

(* for every interleaving of chargers and processors: outside the critical section, a processor sleeps
   without a pending wake-up only if every queued stream already has a woken processor coming for it *)
Lemma charged_no_sleeper_while_queued ls s :
  crun cinit ls = Some s -> no_sleeper_while_queued s = true.
Proof.
  intros Hr. destruct (run_invariant cstep cinv cinv_step ls _ _ cinv_init Hr) as (Hw & Hj).
  unfold no_sleeper_while_queued. unfold slack in Hj.
  destruct (inloop s) eqn:IL; [reflexivity|]. destruct (sigpend s) eqn:SP; [reflexivity|].
  destruct (stopping s) eqn:ST; [reflexivity|]. cbn in *.
  destruct (slp s <=? wk s) eqn:E1; [reflexivity|]. apply Z.leb_gt in E1.
  specialize (Hj eq_refl E1). cbn. apply Z.leb_le. lia.
Qed.

(* the signal is what makes it true: if makeCharged signals only on the empty -> non-empty transition
   (a tempting optimisation), two charges in a row strand the second stream while a processor sleeps *)
Definition cstep_signal_on_first_only (s : cst) (l : clabel) : option cst :=
  match l with
  | CSignal n => if sigpend s && (n =? nq s)
                 then Some {| nq := nq s; slp := slp s; wk := (if (n =? 1) && (wk s <? slp s) then wk s + 1 else wk s);
                              inloop := false; sigpend := false; stopping := stopping s |}
                 else None
  | _ => cstep s l
  end.
Fixpoint crun' (s : cst) (ls : list clabel) : option cst :=
  match ls with [] => Some s | l :: r => match cstep_signal_on_first_only s l with Some s' => crun' s' r | None => None end end.

Lemma charged_signal_on_first_only_refuted :
  exists ls s, crun' cinit ls = Some s /\ no_sleeper_while_queued s = false.
Proof. exists [CSleep; CSleep; CCharge; CSignal 1; CCharge; CSignal 2]. eexists. split; vm_compute; reflexivity. Qed.
