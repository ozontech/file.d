(* decoder/postgres.go DecodePostgres (Model/Decoders/Postgres.v): it never panics, the time field it assembles in place is a
   prefix of the input, and a line assembled from fields without their end delimiter decodes to exactly those fields. *)
From Verif Require Import Base.Sx Base.GoSem Model.Decoders.Common Model.Decoders.Postgres Proofs.Decoders.Common.
From Coq Require Import Lia ZifyBool.

Lemma pg_cred_total data endc e1 e2 : endc <> EQUALS -> ensures (pg_cred data endc e1 e2) (fun _ => True).
Proof.
  intros Hne. unfold pg_cred.
  name_index_byte openPos. destruct (openPos <? 0) eqn:Ho; [exact I|].
  name_index_byte pos. destruct ((pos <? 0) || (pos <? openPos)) eqn:Hp; [exact I|].
  assert (pos <> openPos).
  { intros E. specialize (HopenPos ltac:(lia)). specialize (Hpos ltac:(lia)). congruence. }
  next_slice v. next_slice d. exact I.
Qed.

(* never panics; and the time field is a prefix of the input: Go builds it by appending onto data[:pos] in
   place, which therefore rewrites every byte of the caller's buffer with the value it already has *)
Lemma decode_postgres_spec data :
  ensures (decode_postgres data) (fun row => exists rest, data = pg_time row ++ SP :: rest).
Proof.
  unfold decode_postgres.
  apply ensures_cut. intros t1 d1 ->. apply ensures_cut. intros t2 d2 ->. apply ensures_cut. intros t3 d3 ->.
  (* the two [clear]s drop the byte found ([H<pos>] of name_index_byte), which nothing reads; they only keep the context small *)
  name_index_byte pos4. destruct (pos4 <? 1) eqn:Hp4; [exact I|].
  next_slice pid. next_slice d4. clear Hpos4.
  name_index_byte pos5. destruct (pos5 <? 0) eqn:Hp5; [exact I|].
  next_slice d5. clear Hpos5.
  apply ensures_cut. intros num d6 _.
  eapply post_bind; [apply pg_cred_total; discriminate|]. intros [client d7] _.
  eapply post_bind; [apply pg_cred_total; discriminate|]. intros [db d8] _.
  eapply post_bind; [apply pg_cred_total; discriminate|]. intros [user d9] _.
  name_index_byte pos7. destruct ((pos7 <? 0) || (len d9 <? pos7 + 2)) eqn:Hp7; [exact I|].
  next_slice lg. exists d3. cbn [pg_time]. rewrite <- app_assoc. cbn [app]. rewrite <- app_assoc. reflexivity.
Qed.

Theorem decode_postgres_total : forall data p, decode_postgres data <> Panic p.
Proof. intros data p. exact (post_total True _ _ p (decode_postgres_spec data)). Qed.

Theorem decode_postgres_time_in_place : forall data row,
  decode_postgres data = Ok row -> exists rest, data = pg_time row ++ SP :: rest.
Proof. intros data row. exact (post_ok _ _ row (decode_postgres_spec data)). Qed.

Lemma pg_cred_faithful k v rest endc e1 e2 :
  endc <> EQUALS -> index_byte k EQUALS = -1 -> index_byte k endc = -1 -> index_byte v endc = -1 ->
  pg_cred (k ++ EQUALS :: v ++ endc :: rest) endc e1 e2 = Ok (v, rest).
Proof.
  intros Hne Hk1 Hk2 Hv. unfold pg_cred.
  assert (Hkv : index_byte (k ++ EQUALS :: v) endc = -1).
  { rewrite (index_byte_app_skip k _ endc Hk2), index_byte_cons, Hv.
    replace (N.eqb EQUALS endc) with false by (symmetry; apply N.eqb_neq; congruence). reflexivity. }
  assert (Hl : len (k ++ EQUALS :: v) = len k + 1 + len v) by (rewrite len_app, len_cons; lia).
  (* the line, bracketed at the '=' and at the end byte *)
  set (data := k ++ EQUALS :: v ++ endc :: rest).
  assert (E : data = (k ++ EQUALS :: v) ++ endc :: rest) by (unfold data; rewrite <- app_assoc; reflexivity).
  replace (index_byte data endc) with (len k + 1 + len v) by (rewrite E, (index_byte_app_notin _ endc rest Hkv), Hl; reflexivity).
  replace (slice_from data (len k + 1 + len v + 1)) with (Ok rest) by (rewrite E, <- Hl; symmetry; apply slice_from_app_cons).
  unfold data. rewrite (index_byte_app_notin k EQUALS _ Hk1), len_ltb_0, slice_mid_cons.
  pose proof (len_nonneg k). pose proof (len_nonneg v).
  replace ((len k + 1 + len v <? 0) || (len k + 1 + len v <? len k)) with false by lia. reflexivity.
Qed.

(* a line assembled as
     t1 ' ' t2 ' ' t3 ' ' '[' pid ']' sep '[' num ']' k1 '=' client ',' k2 '=' db ',' k3 '=' user ' ' level ' ' ' ' log
   from fields that do not contain the delimiter that ends them decodes to exactly those fields *)
Theorem decode_postgres_faithful :
  forall t1 t2 t3 pid sep num k1 client k2 db k3 user level log,
  index_byte t1 SP = -1 -> index_byte t2 SP = -1 -> index_byte t3 SP = -1 ->
  index_byte pid RBRACK = -1 -> index_byte sep LBRACK = -1 -> index_byte num RBRACK = -1 ->
  index_byte k1 EQUALS = -1 -> index_byte k1 COMMA = -1 -> index_byte client COMMA = -1 ->
  index_byte k2 EQUALS = -1 -> index_byte k2 COMMA = -1 -> index_byte db COMMA = -1 ->
  index_byte k3 EQUALS = -1 -> index_byte k3 SP = -1 -> index_byte user SP = -1 ->
  index_byte level SP = -1 ->
  decode_postgres (pg_line t1 t2 t3 pid sep num k1 client k2 db k3 user level log) =
  Ok {| pg_time := t1 ++ SP :: t2 ++ SP :: t3; pg_pid := pid; pg_num := num; pg_client := client;
        pg_db := db; pg_user := user; pg_log := log |}.
Proof.
  intros t1 t2 t3 pid sep num k1 client k2 db k3 user level log
         H1 H2 H3 Hpid Hsep Hnum Hk1a Hk1b Hcl Hk2a Hk2b Hdb Hk3a Hk3b Hus Hlv.
  unfold decode_postgres, pg_line.
  apply cut_app; [exact H1|]. apply cut_app; [exact H2|]. apply cut_app; [exact H3|].
  (* '[' pid ']': the opening bracket is skipped by position, the closing one is searched *)
  set (rest := sep ++ _). set (data := LBRACK :: pid ++ RBRACK :: rest).
  assert (Ei : index_byte data RBRACK = len pid + 1).
  { unfold data. rewrite index_byte_cons, (index_byte_app_notin pid RBRACK rest Hpid), len_ltb_0. reflexivity. }
  assert (Es : slice data 1 (len pid + 1) = Ok pid).
  { rewrite Z.add_comm. exact (slice_mid_cons [] LBRACK pid (RBRACK :: rest)). }
  assert (Ef : slice_from data (len pid + 1 + 1) = Ok rest).
  { rewrite <- (len_cons LBRACK pid). exact (slice_from_app_cons (LBRACK :: pid) RBRACK rest). }
  rewrite Ei, Es, Ef. replace (len pid + 1 <? 1) with false by (pose proof (len_nonneg pid); lia).
  cbn [bind]. subst rest.
  (* sep '[' num ']' *)
  rewrite (index_byte_app_notin sep LBRACK _ Hsep), len_ltb_0, slice_from_app_cons. cbn [bind].
  apply cut_app; [exact Hnum|].
  rewrite (pg_cred_faithful k1 client _ COMMA 5 6 ltac:(discriminate) Hk1a Hk1b Hcl). cbn [bind].
  rewrite (pg_cred_faithful k2 db _ COMMA 7 8 ltac:(discriminate) Hk2a Hk2b Hdb). cbn [bind].
  rewrite (pg_cred_faithful k3 user _ SP 9 10 ltac:(discriminate) Hk3a Hk3b Hus). cbn [bind].
  (* level, two spaces, log *)
  rewrite (index_byte_app_notin level SP _ Hlv), len_app, !len_cons.
  pose proof (len_nonneg level). pose proof (len_nonneg log).
  replace ((len level <? 0) || (len level + (len log + 1 + 1) <? len level + 2)) with false by lia.
  replace (len level + 2) with (len (level ++ [SP]) + 1) by (rewrite len_app, len_cons, len_nil; lia).
  change (level ++ SP :: SP :: log) with (level ++ [SP] ++ SP :: log). rewrite app_assoc, slice_from_app_cons. reflexivity.
Qed.
