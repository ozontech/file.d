(* decoder/syslog_rfc3164.go syslogRFC3164Decoder.Decode and validateTimestamp (Model/Decoders/SyslogRfc3164.v): Decode
   never panics on any byte string (decode_s3164_total); an accepted timestamp leaves room for the byte after it. *)
From Verif Require Import Base.Sx Base.GoSem Model.Decoders.Common Model.Decoders.Syslog Model.Decoders.SyslogRfc3164
  Proofs.Decoders.Common Proofs.Decoders.Syslog.
From Coq Require Import Lia ZifyBool.

Lemma s3164_validate_timestamp_spec ts :
  ensures (s3164_validate_timestamp ts) (fun ok => ok = true -> STAMP_LEN + 1 <= len ts).
Proof.
  unfold s3164_validate_timestamp, STAMP_LEN.
  destruct (len ts <? 15 + 1) eqn:Hl; [discriminate|].
  next_idx c3. next_idx c6. next_idx c9. next_idx c12. next_idx c15.
  destruct (negb _); [discriminate|].
  next_idx c0. next_idx c1. next_idx c2.
  destruct (_ || _); [discriminate|].
  next_idx c4. next_idx c5.
  destruct (negb _); [discriminate|].
  next_slice hh. next_slice mm. next_slice ss.
  destruct (negb _); [discriminate|]. intros _. lia.
Qed.

Theorem decode_s3164_total : forall fac_str sev_str data p, decode_s3164 fac_str sev_str data <> Panic p.
Proof.
  intros fs ss data0 p. apply (post_total True _ (fun _ => True)). unfold decode_s3164.
  set (data := trim_nl data0). clearbody data. clear data0.
  destruct (len data =? 0) eqn:H0; [exact I|].
  eapply post_bind; [apply syslog_parse_priority_spec|]. intros [pri offset] (HP1 & HP2 & HP3).
  next_slice priority. next_slice d1.
  eapply post_bind; [apply s3164_validate_timestamp_spec|]. intros [|] HT; [|exact I]. specialize (HT eq_refl).
  cbn [negb]. unfold STAMP_LEN in *.
  next_slice ts. next_slice d2.
  apply ensures_cut. intros host d3 _.
  pose proof (index_any_bounds d3 [91%N; 58%N; SP]) as Ba.
  set (off3 := index_any d3 [91%N; 58%N; SP]) in *.
  destruct (off3 <? 0) eqn:Ho3; [exact I|].
  next_slice appn. next_slice d4.
  next_idx c0.
  apply (post_bind _ _ (fun _ => True)).
  { (* optional procid *)
    destruct (beq c0 91%N) eqn:Hc0; [|next_slice d5; exact I].
    name_index_byte off4.
    destruct ((off4 <? 0) || (len d4 <=? off4 + 1)) eqn:Ho4; [exact I|].
    next_idx c. destruct (negb (beq c 58%N)); [exact I|].
    (* data[1:off4] is in range: the ']' is not at 0, where the '[' stands *)
    assert (off4 <> 0).
    { intros E. specialize (Hoff4 ltac:(lia)). rewrite E in Hoff4. rewrite Hoff4 in Ec0.
      injection Ec0 as <-. discriminate Hc0. }
    next_slice procid. next_slice d5. exact I. }
  intros [procid d] _. apply (post_bind _ _ (fun _ => True)); [|intros; exact I].
  destruct (0 <? len d) eqn:Hd; [|exact I].
  next_idx c. destruct (beq c SP); [|exact I]. next_slice r. exact I.
Qed.
