(* Pipeline.In with the decoder the pipeline resolved (Model/Decoders/PipeIn.v): once the pipeline has started In does not
   panic on any line (pipe_in_total, from resolve_safe and the scanners' totality); what RAW and CRI lines yield; a refused
   line leaves no event. *)
From Verif Require Import Base.Sx Base.GoSem Model.Decoders.Common Model.Decoders.Cri Model.Decoders.Postgres
  Model.Decoders.Nginx Model.Decoders.Syslog Model.Decoders.SyslogRfc3164 Model.Decoders.SyslogRfc5424
  Model.Decoders.Csv Model.Decoders.JsonCut Model.Decoders.ToJson Model.Decoders.Select Model.Decoders.PipeIn
  Proofs.Decoders.Common Proofs.Decoders.Cri Proofs.Decoders.Postgres Proofs.Decoders.Nginx
  Proofs.Decoders.SyslogRfc3164 Proofs.Decoders.SyslogRfc5424 Proofs.Decoders.Csv Proofs.Decoders.Select.
From Coq Require Import Lia.

Lemma event_has_a_byte : forall data, not_an_event data = false -> 1 <= len data.
Proof. intros [|c r] H; [discriminate|]. rewrite len_cons. pose proof (len_nonneg r). lia. Qed.

Lemma two_bytes_are_an_event : forall data, 2 <= len data -> not_an_event data = false.
Proof.
  intros [|a [|b r]] H; [rewrite len_nil in H; lia|rewrite len_cons, len_nil in H; lia|reflexivity].
Qed.

(* the decoder switch never panics on a line that passed checkInputBytes, for any type the switch knows
   (RAW's bytes[:len(bytes)-1] needs the one byte checkInputBytes guarantees) *)
Lemma pipe_decode_total : forall t ps data p,
  in_route t <> RUnknown -> 1 <= len data -> pipe_decode t ps data <> Panic p.
Proof.
  intros t ps data p Hr Hlen. unfold pipe_decode.
  destruct (t =? 3) eqn:E3.
  { apply (post_total True _ (fun _ => True)). next_slice m. exact I. }
  destruct (t =? 4) eqn:E4; [apply bind_not_panic; [apply decode_cri_total|discriminate]|].
  destruct (t =? 5) eqn:E5; [apply bind_not_panic; [apply decode_postgres_total|discriminate]|].
  destruct (t =? 6) eqn:E6; [apply bind_not_panic; [apply decode_nginx_total|discriminate]|].
  destruct (t =? 8) eqn:E8; [apply bind_not_panic; [apply decode_s3164_total|discriminate]|].
  destruct (t =? 9) eqn:E9; [apply bind_not_panic; [apply decode_s5424_total|discriminate]|].
  destruct (t =? 10) eqn:E10; [apply bind_not_panic; [apply decode_csv_mode_total|discriminate]|].
  destruct (t =? 2) eqn:E2; cbn [orb]; [discriminate|].
  destruct (t =? 7) eqn:E7; [discriminate|].
  exfalso. apply Hr. unfold in_route, has_decoder_object. rewrite E2, E6, E7, E8, E9, E10, E3, E4, E5. reflexivity.
Qed.

(* "never crashes the process", at the level of Pipeline.In: for every configured decoder name, every list of suggested
   types, every judgement of the constructors on the params (pok), every params value and every line - once the pipeline
   has started, In does not panic: not in checkInputBytes, not in the switch (no "unknown decoder", no RAW slice out of
   range), not in any of the six hand-written scanners.  (JSON / protobuf decoding proper is library code: Ok opaque;
   checkInputBytes is modelled with max_event_size = 0, its cut-off branch is not in the model.) *)
Theorem pipe_in_total : forall pok name suggested st ps data p,
  pipe_resolve pok name suggested = Some st ->
  pipe_in (ps_type st) ps data <> Panic p.
Proof.
  intros pok name ss st ps data p H. destruct (resolve_safe pok name ss st H) as (Hr & _ & _).
  unfold pipe_in. destruct (not_an_event data) eqn:E; [discriminate|].
  apply pipe_decode_total; [exact Hr|exact (event_has_a_byte data E)].
Qed.

(* the RAW decoder: the event's message is the line without its LAST BYTE, whatever that byte is *)
Theorem pipe_in_raw : forall ps msg c,
  not_an_event (msg ++ [c]) = false -> pipe_in 3 ps (msg ++ [c]) = Ok (SL [SB msg]).
Proof.
  intros ps msg c H. unfold pipe_in. rewrite H. unfold pipe_decode. cbn [Z.eqb Pos.eqb].
  replace (len (msg ++ [c]) - 1) with (len msg) by (rewrite len_app, len_cons, len_nil; lia).
  rewrite slice_to_app. reflexivity.
Qed.

(* [decode_cri_faithful] carried through In (type 4 is CRI; such a line has two bytes, so it is an event) *)
Theorem pipe_in_cri_faithful : forall ps time stream t0 tag log,
  index_byte time SP = -1 -> index_byte stream SP = -1 -> len stream = 6 ->
  index_byte (t0 :: tag) SP = -1 ->
  pipe_in 4 ps (cri_line time stream (t0 :: tag) log) =
  Ok (sx_cri {| cri_time := time; cri_stream := stream; cri_partial := beq t0 80%N;
                cri_log := if beq t0 80%N then removelast log else log |}).
Proof.
  intros ps time stream t0 tag log H1 H2 H3 H4. unfold pipe_in.
  assert (not_an_event (cri_line time stream (t0 :: tag) log) = false) as ->.
  { apply two_bytes_are_an_event. unfold cri_line.
    rewrite len_app, len_cons, len_app. pose proof (len_nonneg time).
    pose proof (len_nonneg (SP :: (t0 :: tag) ++ SP :: log)). lia. }
  unfold pipe_decode. cbn [Z.eqb Pos.eqb].
  rewrite (decode_cri_faithful time stream t0 tag log H1 H2 H3 H4). reflexivity.
Qed.

(* a refused line and a line that is not an event leave no event behind and never reach the decoder's output:
   the item of the run is (0) - or (4), a Fatal log entry, under is_strict - and nothing else *)
Theorem pipe_item_refused : forall strict t ps meta data e,
  pipe_in t ps data = Err e ->
  pipe_item strict t ps meta data = Some (SL [SZ 0]) \/ pipe_item strict t ps meta data = Some (SL [SZ 4]).
Proof.
  intros strict t ps meta data e H. unfold pipe_item. rewrite H.
  destruct ((negb (e =? 0) && strict) || ((t =? 10) && (e =? 5))); [right|left]; reflexivity.
Qed.
