(* decoder/cri.go DecodeCRI (Model/Decoders/Cri.v): it never panics on any byte string, and a line assembled from a time, a
   stream name, a tag and a log decodes to exactly those fields (decode_cri_faithful). *)
From Verif Require Import Base.Sx Base.GoSem Model.Decoders.Common Model.Decoders.Cri Proofs.Decoders.Common.
From Coq Require Import Lia ZifyBool.

(* the stream loop never panics and never runs out of fuel: every iteration consumes >= 1 byte *)
Lemma cri_stream_loop_total : forall fuel stream data,
  len data < Z.of_nat fuel -> ensures (cri_stream_loop fuel stream data) (fun _ => True).
Proof.
  induction fuel as [|f IH]; intros stream data Hf; cbn [cri_stream_loop].
  - pose_lens. lia.
  - destruct (len stream =? 6); [exact I|].
    apply ensures_cut. intros s d ->. apply IH. rewrite len_app, len_cons in Hf. pose_lens. lia.
Qed.

Theorem decode_cri_total : forall data p, decode_cri data <> Panic p.
Proof.
  intros data p. apply (post_total True _ (fun _ => True)). unfold decode_cri.
  apply ensures_cut. intros time d1 _.
  eapply post_bind; [apply cri_stream_loop_total, len_lt_fuel|]. intros [stream d2] _.
  apply ensures_cut. intros tags d3 _.
  destruct (len tags =? 0) eqn:Ht; [exact I|].
  next_idx t0. apply (post_bind _ _ (fun _ => True)); [|intros; exact I].
  destruct (beq t0 80%N && (0 <? len d3)) eqn:Hc; [next_slice r; exact I|exact I].
Qed.

Lemma slice_to_removelast (l : bytes) : 0 < len l -> slice_to l (len l - 1) = Ok (removelast l).
Proof.
  intros H. destruct (@exists_last _ l) as (l' & x & ->); [intros ->; discriminate H|].
  rewrite removelast_last, len_app, len_cons, len_nil.
  replace (len l' + (0 + 1) - 1) with (len l') by lia. apply slice_to_app.
Qed.

Lemma cri_stream_loop_done fuel stream data : len stream = 6 -> cri_stream_loop fuel stream data = Ok (stream, data).
Proof. intros H. destruct fuel; cbn [cri_stream_loop]; rewrite H; reflexivity. Qed.

(* a line assembled from a space-free time, a space-free 6-byte stream name (stdout / stderr),
   a non-empty space-free tag and any log content decodes to exactly those fields; a partial line
   (tag starting with P) loses its last byte, which is the newline the file input leaves there *)
Theorem decode_cri_faithful : forall time stream t0 tag log,
  index_byte time SP = -1 -> index_byte stream SP = -1 -> len stream = 6 ->
  index_byte (t0 :: tag) SP = -1 ->
  decode_cri (cri_line time stream (t0 :: tag) log) =
  Ok {| cri_time := time; cri_stream := stream; cri_partial := beq t0 80%N;
        cri_log := if beq t0 80%N then removelast log else log |}.
Proof.
  intros time stream t0 tag log Ht Hs Hs6 Hg. unfold decode_cri, cri_line.
  apply cut_app; [exact Ht|].
  (* the first iteration of the loop finds the stream *)
  cbn [cri_stream_loop]. rewrite len_nil. cbn [Z.eqb].
  rewrite (cut_app stream SP _ 2 _ _ Hs (cri_stream_loop_done _ _ _ Hs6)). cbn [bind].
  apply cut_app; [exact Hg|].
  rewrite len_cons. pose proof (len_nonneg tag). replace (len tag + 1 =? 0) with false by lia.
  rewrite idx_cons_0. cbn [bind].
  destruct (beq t0 80%N); [|reflexivity]. cbn [andb].
  destruct (0 <? len log) eqn:Hl.
  - rewrite slice_to_removelast by lia. reflexivity.
  - rewrite (len_zero_nil log) by (pose proof (len_nonneg log); lia). reflexivity.
Qed.
