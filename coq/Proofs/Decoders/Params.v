(* Proofs about the parameter checks of the decoder constructors (Model/Decoders/Params.v): what a constructor accepts
   satisfies the hypotheses under which the decoders' theorems are stated. *)
From Verif Require Import Base.Sx Base.GoSem Model.Decoders.Common Model.Decoders.ToJson Model.Decoders.Params Model.Decoders.Csv
  Proofs.Decoders.Common Proofs.Decoders.Csv.
From Coq Require Import Lia.

Lemma map_set_forall {V} (P : bytes * V -> Prop) : forall (m : list (bytes * V)) k v,
  Forall P m -> P (k, v) -> Forall P (map_set m k v).
Proof.
  induction m as [|[k' v'] r IH]; intros k v Hm Hkv; cbn [map_set].
  - constructor; [exact Hkv|constructor].
  - inversion Hm as [|? ? Hh Ht]; subst.
    destruct (bytes_cmp k k'); [constructor; assumption|constructor; assumption|].
    constructor; [exact Hh|apply IH; assumption].
Qed.

Lemma json_limits_spec : forall entries, ensures (json_limits entries) (Forall (fun kv => 0 <= snd kv)).
Proof.
  induction entries as [|e r IH]; cbn [json_limits]; [constructor|].
  destruct e as [z|b|[|[z|k|l] [|v [|x t]]]]; try exact I.
  destruct (any_to_int v) as [n|]; [|exact I].
  destruct (Z.ltb_spec n 0) as [Hn|Hn]; [exact I|].
  eapply post_bind; [exact IH|]. intros rest Hrest. apply map_set_forall; [exact Hrest|exact Hn].
Qed.

Lemma json_params_spec ps : ensures (json_params ps) (Forall (fun kv => 0 <= snd kv)).
Proof.
  unfold json_params. destruct (par_get ps K_json_max_fields_size) as [v|]; [|constructor].
  destruct (as_tagged 4 v) as [entries|]; [apply json_limits_spec|exact I].
Qed.

Lemma json_limits_nonneg : forall entries ls,
  json_limits entries = Ok ls -> Forall (fun kv => 0 <= snd kv) ls.
Proof. intros entries ls. exact (post_ok _ _ ls (json_limits_spec entries)). Qed.

(* the assumption "json_max_fields_size limits are >= 0" of c12_json_cut_total, as a theorem about the constructor:
   whatever extractJsonParams accepts - ints, float64s, json.Numbers - has no negative limit *)
Theorem json_params_nonneg : forall ps ls,
  json_params ps = Ok ls -> Forall (fun kv => 0 <= snd kv) ls.
Proof. intros ps ls. exact (post_ok _ _ ls (json_params_spec ps)). Qed.

Lemma csv_columns_total : forall vs, ensures (csv_columns vs) (fun _ => True).
Proof.
  induction vs as [|v r IH]; cbn [csv_columns]; [exact I|].
  destruct (any_string v); [|exact I]. eapply post_bind; [exact IH|]. intros; exact I.
Qed.

Lemma csv_params_spec ps :
  ensures (csv_params ps)
          (fun c => cc_delim c <> 0%N /\ cc_delim c <> QUOTE /\ cc_delim c <> 13%N /\ cc_delim c <> NL).
Proof.
  unfold csv_params. apply (post_bind _ _ (fun _ => True)).
  { destruct (par_get ps K_columns) as [v|]; [|exact I].
    destruct (as_tagged 3 v) as [vs|]; [apply csv_columns_total|exact I]. }
  intros cols _. apply (post_bind _ _ (fun _ => True)).
  { destruct (par_get ps K_prefix) as [v|]; [destruct (any_string v)|]; exact I. }
  intros prefix _. apply (post_bind _ _ (fun _ => True)).
  { destruct (par_get ps K_invalid_line_mode) as [v|]; [destruct (any_string v)|]; exact I. }
  intros mode _. apply (post_bind _ _ (fun d => d <> 0%N /\ d <> QUOTE /\ d <> 13%N /\ d <> NL)); [|intros d Hd; exact Hd].
  destruct (par_get ps K_delimiter) as [v|]; [|cbn; repeat split; discriminate].
  destruct (any_string v) as [[|d [|d2 r]]|]; try exact I.
  destruct (valid_delim_byte d) eqn:Ev; [|exact I]. cbn. repeat split; intros ->; discriminate Ev.
Qed.

(* the hypotheses "delimiter <> QUOTE", "delimiter <> NL" of c12_csv_faithful hold for every csv decoder that can be built *)
Theorem csv_params_delim : forall ps c,
  csv_params ps = Ok c ->
  cc_delim c <> 0%N /\ cc_delim c <> QUOTE /\ cc_delim c <> 13%N /\ cc_delim c <> NL.
Proof. intros ps c. exact (post_ok _ _ c (csv_params_spec ps)). Qed.

(* so c12_csv_faithful needs no hypothesis on the delimiter of a decoder that was built from Params *)
Theorem csv_built_faithful : forall ps c trim_space fields,
  csv_params ps = Ok c ->
  Forall (fun f => index_byte f (cc_delim c) = -1 /\ index_byte f QUOTE = -1 /\ index_byte f NL = -1) fields ->
  csv_line (cc_delim c) fields <> [] ->
  trim_space (last fields []) = last fields [] ->
  decode_csv trim_space (cc_delim c) (csv_line (cc_delim c) fields) = Ok fields.
Proof.
  intros ps c trim_space fields Hc Hf Hne Ht.
  destruct (csv_params_delim ps c Hc) as (_ & Hq & _ & Hn).
  exact (decode_csv_faithful trim_space (cc_delim c) fields Hq Hn Hf Hne Ht).
Qed.

Lemma syslog_format_spec ps key e1 e2 :
  ensures (syslog_format ps key e1 e2) (fun f => f = K_number \/ f = K_string).
Proof.
  unfold syslog_format. destruct (par_get ps key) as [v|]; [|left; reflexivity].
  destruct (any_string v) as [s|]; [|exact I].
  destruct (bytes_eqb s K_number) eqn:E1; [left; apply bytes_eqb_eq; exact E1|].
  destruct (bytes_eqb s K_string) eqn:E2; [right; apply bytes_eqb_eq; exact E2|exact I].
Qed.

Lemma syslog_params_spec ps :
  ensures (syslog_params ps)
          (fun '(ff, sf) => (ff = K_number \/ ff = K_string) /\ (sf = K_number \/ sf = K_string)).
Proof.
  unfold syslog_params.
  eapply post_bind; [apply syslog_format_spec|]. intros ff Hff.
  eapply post_bind; [apply syslog_format_spec|]. intros sf Hsf. split; assumption.
Qed.

Theorem syslog_params_formats : forall ps ff sf,
  syslog_params ps = Ok (ff, sf) ->
  (ff = K_number \/ ff = K_string) /\ (sf = K_number \/ sf = K_string).
Proof. intros ps ff sf. exact (post_ok _ _ (ff, sf) (syslog_params_spec ps)). Qed.

Lemma nginx_params_total ps : ensures (nginx_params ps) (fun _ => True).
Proof.
  unfold nginx_params. destruct (par_get ps K_nginx_with_custom_fields) as [v|]; [|exact I].
  destruct (any_bool v); exact I.
Qed.

Lemma proto_params_total ps c h : ensures (proto_params ps c h) (fun _ => True).
Proof.
  unfold proto_params.
  destruct (par_get ps K_proto_file) as [f|]; [|exact I]. destruct (any_string f); [|exact I].
  destruct (par_get ps K_proto_message) as [m|]; [|exact I]. destruct (any_string m); [|exact I].
  destruct (par_get ps K_proto_import_paths) as [v|]; [|destruct c, h; exact I].
  destruct (as_tagged 3 v) as [vs|]; [|exact I]. destruct (all_strings vs), c, h; exact I.
Qed.

Lemma not_bad_obs {A P} (f : A -> sx) (r : res A) : ensures r P -> is_bad_obs (sx_of_res f r) = false.
Proof. destruct r; [reflexivity|reflexivity|contradiction]. Qed.

(* no parameter check panics, whatever the Params hold.  The constructors' type assertions are all of the comma-ok form, so
   the model has no Panic, idx or slice at all: the content is in that reading of the Go code, the proof only walks the cases *)
Theorem params_total : forall kind ps c h m, params_model kind ps c h = Some m -> is_bad_obs m = false.
Proof.
  intros kind ps c h m H. unfold params_model in H.
  destruct (kind =? 2); [injection H as <-; exact (not_bad_obs _ _ (json_params_spec ps))|].
  destruct (kind =? 6); [injection H as <-; exact (not_bad_obs _ _ (nginx_params_total ps))|].
  destruct ((kind =? 8) || (kind =? 9)); [injection H as <-; exact (not_bad_obs _ _ (syslog_params_spec ps))|].
  destruct (kind =? 10); [injection H as <-; exact (not_bad_obs _ _ (csv_params_spec ps))|].
  destruct (kind =? 7); [injection H as <-; exact (not_bad_obs _ _ (proto_params_total ps c h))|discriminate].
Qed.
