(* What the scanner proofs share: Proofs/GoSemFacts.v (exported from here, with the postcondition [ensures] in which
   "never panics" composes along [bind]), the ranges of bytes.LastIndex and bytes.IndexAny, and the scanners' idiom of
   cutting a line at the first occurrence of a byte. *)
From Verif Require Import Base.Sx Base.GoSem Model.Decoders.Common.
From Verif Require Export Proofs.GoSemFacts.
From Coq Require Import Lia ZifyBool.

Lemma slice_all {A} (l : list A) : slice_to l (len l) = Ok l.
Proof. pose proof (slice_to_app l []) as H. rewrite app_nil_r in H. exact H. Qed.

Lemma slice_from_0 {A} (l : list A) : slice_from l 0 = Ok l.
Proof. exact (slice_from_app [] l). Qed.

Lemma last_index_sub_from_bounds needle l : forall i best,
  last_index_sub_from l needle i best = best \/
  (i <= last_index_sub_from l needle i best /\ last_index_sub_from l needle i best + len needle <= i + len l).
Proof.
  induction l as [|x l IH]; intros i best; cbn [last_index_sub_from].
  - destruct (has_prefix [] needle) eqn:E; [|left; reflexivity].
    right. apply has_prefix_len in E. lia.
  - rewrite len_cons. destruct (has_prefix (x :: l) needle) eqn:E.
    + apply has_prefix_len in E. rewrite len_cons in E.
      destruct (IH (i + 1) i) as [->|H]; right; lia.
    + destruct (IH (i + 1) best) as [->|H]; [left; reflexivity|right; lia].
Qed.

(* a hit of bytes.LastIndex leaves room for the needle *)
Lemma last_index_sub_bounds l needle :
  last_index_sub l needle = -1 \/ (0 <= last_index_sub l needle /\ last_index_sub l needle + len needle <= len l).
Proof. unfold last_index_sub. destruct (last_index_sub_from_bounds needle l 0 (-1)); [left|right]; lia. Qed.

Lemma index_any_from_bounds cs l : forall i, index_any_from l cs i = -1 \/ i <= index_any_from l cs i < i + len l.
Proof.
  induction l as [|x l IH]; intros i; cbn [index_any_from]; [left; reflexivity|].
  rewrite len_cons. pose proof (len_nonneg l). destruct (mem_byte x cs); [right; lia|].
  destruct (IH (i + 1)) as [->|H']; [left; reflexivity|right; lia].
Qed.

Lemma index_any_bounds l cs : -1 <= index_any l cs < len l.
Proof. unfold index_any. pose proof (len_nonneg l). destruct (index_any_from_bounds cs l 0); lia. Qed.

(* The idiom  pos := bytes.IndexByte(data, c); if pos < 0 { return err }; a := data[:pos]; data = data[pos+1:]
   run on a line whose first [c] stands after [a] ... *)
Lemma cut_app {B} a c b e (k : bytes -> bytes -> res B) R :
  index_byte a c = -1 -> k a b = R ->
  (if index_byte (a ++ c :: b) c <? 0 then Err e
   else x <- slice_to (a ++ c :: b) (index_byte (a ++ c :: b) c) ;;
        y <- slice_from (a ++ c :: b) (index_byte (a ++ c :: b) c + 1) ;; k x y) = R.
Proof.
  intros Ha <-. rewrite (index_byte_app_notin a c b Ha). pose proof (len_nonneg a).
  replace (len a <? 0) with false by lia. rewrite slice_to_app, slice_from_app_cons. reflexivity.
Qed.

(* ... and on any line: it does not panic, and goes on with the two sides of a [c] of the line (the first: nothing
   that follows rests on that) *)
Lemma ensures_cut {B} data c e (k : bytes -> bytes -> res B) Q :
  (forall a b, data = a ++ c :: b -> ensures (k a b) Q) ->
  ensures (if index_byte data c <? 0 then Err e
           else x <- slice_to data (index_byte data c) ;; y <- slice_from data (index_byte data c + 1) ;; k x y) Q.
Proof.
  intros H. destruct (Z.lt_ge_cases (index_byte data c) 0) as [E|E].
  - replace (index_byte data c <? 0) with true by lia. exact I.
  - destruct (index_byte_split data c E) as (a & b & -> & Ha).
    rewrite (cut_app a c b e k _ Ha eq_refl). apply H. reflexivity.
Qed.
