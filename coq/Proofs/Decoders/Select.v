(* Proofs about the decoder selection (Model/Decoders/Select.v): whatever name is configured and whatever is suggested,
   a pipeline that starts runs a decoder the switch of In knows, and when the switch goes through p.decoder that
   decoder exists and has the pipeline's type. *)
From Verif Require Import Base.Sx Base.GoSem Model.Decoders.Common Model.Decoders.ToJson Model.Decoders.Select.
From Coq Require Import Lia.

(* What In's switch needs of the pipeline once its type is no longer AUTO: the type is one the switch knows, and where
   the switch goes through p.decoder, that is the decoder of this type. *)
Definition ps_wf (st : pstate) : Prop :=
  ps_type st <> 1 ->
  in_route (ps_type st) <> RUnknown /\ (in_route (ps_type st) = RDecoder -> ps_dec st = NewDec (ps_type st)).

(* The switch of In and the switch of New go over the types in the same order and differ on AUTO only: a type New
   accepts, other than AUTO, is one In knows, and where In goes through p.decoder New has built that decoder. *)
Lemma new_route pok t :
  decoder_new pok t <> NewErr -> t <> 1 ->
  in_route t <> RUnknown /\ (in_route t = RDecoder -> decoder_new pok t = NewDec t).
Proof.
  unfold in_route, decoder_new. intros Hok Hne. destruct (has_decoder_object t).
  - destruct (pok t); [split; [discriminate|reflexivity]|contradiction].
  - destruct (t =? 3); [split; discriminate|]. destruct (t =? 4); [split; discriminate|].
    destruct (t =? 5); [split; discriminate|]. destruct (Z.eqb_spec t 1); contradiction.
Qed.

(* what New and SuggestDecoder both do with a type: build its decoder, or refuse *)
Lemma built_wf : forall pok t b st,
  match decoder_new pok t with
  | NewErr => None
  | d => Some {| ps_type := t; ps_dec := d; ps_params := b |}
  end = Some st -> ps_wf st.
Proof.
  intros pok t b st H. destruct (decoder_new pok t) eqn:E; inversion H; intros Hne; cbn [ps_type ps_dec] in *;
    rewrite <- E; apply new_route; congruence.
Qed.

Lemma pipe_new_wf : forall pok name st, pipe_new pok name = Some st -> ps_wf st.
Proof.
  intros pok name st H. unfold pipe_new in H.
  destruct (type_from_string name =? 0); [discriminate|exact (built_wf _ _ _ _ H)].
Qed.

Lemma pipe_suggest_wf : forall pok st s st', ps_wf st -> pipe_suggest pok st s = Some st' -> ps_wf st'.
Proof.
  intros pok st s st' Hwf H. unfold pipe_suggest in H.
  destruct (negb (ps_type st =? 1) || (s =? 0)); [inversion H; subst; exact Hwf|exact (built_wf _ _ _ _ H)].
Qed.

Lemma pipe_suggest_all_wf : forall pok ss st st', ps_wf st -> pipe_suggest_all pok st ss = Some st' -> ps_wf st'.
Proof.
  induction ss as [|s r IH]; intros st st' Hwf H; cbn [pipe_suggest_all] in H.
  - inversion H; subst; exact Hwf.
  - destruct (pipe_suggest pok st s) as [st1|] eqn:E; [|discriminate].
    exact (IH st1 st' (pipe_suggest_wf pok st s st1 Hwf E) H).
Qed.

(* the clause that Pipeline.In selects the decoder (Properties: c12_in_selects_decoder, which spells it out): [ps_wf] holds after
   New and is kept by every suggestion; Start turns an AUTO that is left into JSON, so the premise of [ps_wf] holds at the end *)
Theorem resolve_safe : forall pok name suggested st,
  pipe_resolve pok name suggested = Some st ->
  in_route (ps_type st) <> RUnknown /\ ps_type st <> 1 /\
  (in_route (ps_type st) = RDecoder -> ps_dec st = NewDec (ps_type st)).
Proof.
  intros pok name ss st H. unfold pipe_resolve in H.
  destruct (pipe_new pok name) as [st0|] eqn:E0; [|discriminate].
  destruct (pipe_suggest_all pok st0 ss) as [st1|] eqn:E1; [|discriminate].
  inversion H; subst st; clear H.
  pose proof (pipe_suggest_all_wf pok ss st0 st1 (pipe_new_wf pok name st0 E0) E1) as Hwf.
  (* Start: an unresolved AUTO becomes JSON *)
  unfold pipe_start. destruct (Z.eqb_spec (ps_type st1) 1) as [E|E].
  - split; [discriminate|split; [discriminate|reflexivity]].
  - destruct (Hwf E). auto.
Qed.

(* a suggestion reaches only a pipeline configured as "auto", and only the first one that is a type counts *)
Theorem suggest_only_auto : forall pok st s, ps_type st <> 1 -> pipe_suggest pok st s = Some st.
Proof.
  intros pok st s H. unfold pipe_suggest. destruct (Z.eqb_spec (ps_type st) 1); [contradiction|reflexivity].
Qed.

(* the name table: every type 1..10 has a name that TypeFromString takes back to it; anything else is NO or a type *)
Theorem type_name_roundtrip : forall t, 1 <= t <= 10 -> type_from_string (type_name t) = t.
Proof.
  intros t H.
  assert (t = 1 \/ t = 2 \/ t = 3 \/ t = 4 \/ t = 5 \/ t = 6 \/ t = 7 \/ t = 8 \/ t = 9 \/ t = 10) as Hc by lia.
  repeat (destruct Hc as [->|Hc]; [reflexivity|]). subst. reflexivity.
Qed.

Lemma lookup_name_range tbl s lo hi :
  lo <= 0 <= hi -> Forall (fun nt => lo <= snd nt <= hi) tbl -> lo <= lookup_name tbl s <= hi.
Proof.
  intros H0 H. induction H as [|[n t] r Hn _ IH]; cbn [lookup_name]; [exact H0|].
  destruct (bytes_eqb s n); [exact Hn|exact IH].
Qed.

Theorem type_from_string_range : forall s, 0 <= type_from_string s <= 10.
Proof.
  intros s. apply lookup_name_range; [lia|]. unfold type_names. repeat (constructor; [cbn [snd]; lia|]). constructor.
Qed.
