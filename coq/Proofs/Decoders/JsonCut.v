(* json_max_fields_size (decoder/json.go cutFieldsBySize, Model/Decoders/JsonCut.v): the cut of one string never slices
   out of range, on any document (json_cut_total); where the named strings are validly escaped it shortens exactly
   them, each to the longest prefix of its escaped text that fits the limit and splits no escape sequence, and touches
   nothing else, for any number of paths in any order (json_cut_spec, json_cut_many_spec).
   The loop that finds that prefix, jsonCutKeep, is the one of the k8s input (escapedCutKeep): what it
   computes, for any content, is json_cut_keep_ok in Proofs/Decoders/JsonCutKeep.v, taken from
   Proofs/K8sMultiline.v. *)
From Verif Require Import Base.Sx Base.GoSem Model.Decoders.Common Model.Decoders.JsonCut Proofs.ListFacts Proofs.Decoders.Common
  Proofs.Decoders.JsonCutKeep.
From Coq Require Import Lia ZifyBool Permutation Sorted.

Lemma esc_valid_lone_bslash : esc_valid [BSLASH] = false.
Proof. reflexivity. Qed.

Lemma hex_plain h : is_hex h = true -> beq h QUOTE = false /\ beq h BSLASH = false.
Proof. intros H. split; apply N.eqb_neq; intros ->; discriminate H. Qed.

(* len(v.Raw) - 2: the scan finds the closing quote of a valid string.  Along the recursion of esc_valid: the
   scan does not look at the byte behind a backslash, and the four digits of \uXXXX, which it reads as
   ordinary bytes, are neither quote nor backslash *)
Lemma json_raw_len_valid : forall raw, esc_valid raw = true ->
  forall rest i, json_raw_len (raw ++ QUOTE :: rest) i = Some (i + len raw).
Proof.
  fix IH 1. intros [|c r] Hv rest i; cbn [app json_raw_len esc_valid] in *.
  - rewrite len_nil, Z.add_0_r. reflexivity.
  - destruct (beq c QUOTE); [discriminate|]. destruct (c <? 32)%N; [discriminate|]. destruct (beq c BSLASH).
    + destruct r as [|e r1]; [discriminate|]. cbn [app]. rewrite !len_cons. destruct (beq e LOWER_U).
      * destruct r1 as [|h1 [|h2 [|h3 [|h4 r2]]]]; try discriminate.
        apply andb_prop in Hv as [Hh Hr]. rewrite !andb_true_iff in Hh. destruct Hh as [[[H1 H2] H3] H4].
        cbn [app json_raw_len]. rewrite !len_cons.
        destruct (hex_plain _ H1) as [-> ->], (hex_plain _ H2) as [-> ->], (hex_plain _ H3) as [-> ->],
                 (hex_plain _ H4) as [-> ->].
        rewrite (IH r2 Hr). f_equal. lia.
      * apply andb_prop in Hv as [_ Hr]. rewrite (IH r1 Hr). f_equal. lia.
    + rewrite len_cons, (IH r Hv). f_equal. lia.
Qed.

Lemma json_raw_len_bounds : forall l i n, json_raw_len l i = Some n -> i <= n /\ n - i + 1 <= len l.
Proof.
  fix IH 1. intros [|c r] i n H; [discriminate|]. cbn [json_raw_len] in H. rewrite len_cons. pose proof (len_nonneg r).
  destruct (beq c QUOTE); [injection H as <-; lia|].
  destruct (beq c BSLASH).
  - destruct r as [|e r']; [discriminate|]. rewrite len_cons. apply IH in H. lia.
  - apply IH in H. lia.
Qed.

Lemma json_raw_len_at_doc pre raw post : esc_valid raw = true ->
  json_raw_len_at (pre ++ QUOTE :: raw ++ QUOTE :: post) (len pre) = Some (len raw).
Proof.
  intros Hv. unfold json_raw_len_at. rewrite len_app, len_cons.
  rewrite skipn_len_app.
  pose proof (len_nonneg pre). pose proof (len_nonneg (raw ++ QUOTE :: post)).
  replace ((0 <=? len pre) && (len pre <? len pre + (len (raw ++ QUOTE :: post) + 1))) with true by lia.
  change (beq QUOTE QUOTE) with true. cbn match. rewrite json_raw_len_valid by exact Hv. reflexivity.
Qed.

(* the guard cutFieldsBySize puts on an answer of gjson says whether Raw occurs in the document at Index *)
Lemma json_raw_at_spec data index raw : 0 <= index ->
  exists b, json_raw_at data index raw = Ok b /\ (b = true <-> raw_occurs_at data index raw).
Proof.
  intros Hi. unfold json_raw_at. pose proof (len_nonneg raw).
  destruct (len data <? index + len raw) eqn:E.
  - exists false. split; [reflexivity|]. split; [discriminate|].
    intros (a & b & -> & Ha). rewrite !len_app in E. pose_lens. lia.
  - rewrite slice_ok by lia. cbn [bind]. eexists. split; [reflexivity|]. rewrite bytes_eqb_eq. split.
    + intros Eb. exists (firstn (Z.to_nat index) data), (skipn (Z.to_nat (index + len raw - index)) (skipn (Z.to_nat index) data)).
      split; [rewrite <- Eb at 1; rewrite !firstn_skipn; reflexivity|]. rewrite len_firstn. lia.
    + intros (a & b & -> & <-). pose proof (slice_mid a raw b) as Hs. rewrite slice_ok in Hs by (rewrite ?len_app; pose_lens; lia).
      injection Hs as Hs. exact Hs.
Qed.

Lemma len_quoted raw : len (QUOTE :: raw ++ [QUOTE]) - 2 = len raw.
Proof. rewrite len_cons, len_app, len_cons, len_nil. lia. Qed.

Lemma json_raw_at_doc pre raw post :
  json_raw_at (pre ++ QUOTE :: raw ++ QUOTE :: post) (len pre) (QUOTE :: raw ++ [QUOTE]) = Ok true.
Proof.
  destruct (json_raw_at_spec (pre ++ QUOTE :: raw ++ QUOTE :: post) (len pre) (QUOTE :: raw ++ [QUOTE]) (len_nonneg pre))
    as (b & -> & Hb). f_equal. apply Hb. exists pre, post. split; [|reflexivity].
  cbn [app]. rewrite <- app_assoc. reflexivity.
Qed.

Lemma json_cut_at_doc pre raw post (k : nat) : (k <= length raw)%nat ->
  json_cut_at (pre ++ QUOTE :: raw ++ QUOTE :: post) (len pre + Z.of_nat k + 1, len pre + len raw) =
  Ok (pre ++ QUOTE :: firstn k raw ++ QUOTE :: post).
Proof.
  intros Hk. unfold json_cut_at. cbn [fst snd].
  assert (E1 : pre ++ QUOTE :: raw ++ QUOTE :: post = (pre ++ QUOTE :: firstn k raw) ++ (skipn k raw ++ QUOTE :: post)).
  { rewrite <- (firstn_skipn k raw) at 1. rewrite <- !app_assoc. reflexivity. }
  rewrite E1 at 1.
  replace (len pre + Z.of_nat k + 1) with (len (pre ++ QUOTE :: firstn k raw))
    by (rewrite len_app, len_cons, len_firstn, (len_length raw); lia).
  rewrite slice_to_app. cbn [bind].
  replace (pre ++ QUOTE :: raw ++ QUOTE :: post) with ((pre ++ QUOTE :: raw) ++ QUOTE :: post)
    by (rewrite <- app_assoc; reflexivity).
  replace (len pre + len raw + 1) with (len (pre ++ QUOTE :: raw)) by (rewrite len_app, len_cons; lia).
  rewrite slice_from_app. cbn [bind]. rewrite <- !app_assoc. reflexivity.
Qed.

Lemma json_kept_fits raw strlen limit : strlen <= limit -> json_kept raw strlen limit = length raw.
Proof. intros H. unfold json_kept. replace (strlen <=? limit) with true by lia. reflexivity. Qed.

Lemma json_kept_cut raw strlen limit : 0 <= limit -> limit < strlen ->
  json_cut_keep raw limit = Ok (Z.of_nat (json_kept raw strlen limit)).
Proof.
  intros Hl Hs. unfold json_kept. replace (strlen <=? limit) with false by lia.
  destruct (json_cut_keep_ok raw limit Hl) as (k & -> & _). rewrite Nat2Z.id. reflexivity.
Qed.

Lemma json_kept_le raw strlen limit : (json_kept raw strlen limit <= length raw)%nat.
Proof.
  unfold json_kept. destruct (strlen <=? limit); [lia|]. destruct (Z.le_gt_cases 0 limit) as [Hl|Hl].
  - destruct (json_cut_keep_ok raw limit Hl) as (k & -> & Hk & _). rewrite Nat2Z.id. exact Hk.
  - (* a negative limit keeps nothing *)
    unfold json_cut_keep. pose proof (len_nonneg raw). replace (len raw <=? limit) with false by lia.
    destruct raw; cbn [json_cut_keep_from]; unfold json_keep_end; replace (limit <=? 0) with true by lia; lia.
Qed.

(* what jsonCutKeep computes (json_cut_keep_ok), read for the string of a field *)
Theorem json_kept_spec : forall raw strlen limit,
  esc_valid raw = true -> 0 <= limit ->
  let k := json_kept raw strlen limit in
  (k <= length raw)%nat /\
  esc_valid (firstn k raw) = true /\
  (strlen <= limit -> k = length raw) /\
  (limit < strlen ->
     Z.of_nat k <= limit /\
     (forall k' : nat, (k < k' <= length raw)%nat -> Z.of_nat k' <= limit -> esc_valid (firstn k' raw) = false) /\
     (limit <= len raw -> limit - 6 < Z.of_nat k) /\
     (limit <= len raw -> esc_valid (firstn (Z.to_nat limit) raw) = true -> Z.of_nat k = limit)).
Proof.
  intros raw strlen limit Hv Hl k. subst k. unfold json_kept. destruct (Z.leb_spec strlen limit) as [H|H].
  - rewrite firstn_all. repeat split; [lia|exact Hv|lia..].
  - destruct (json_cut_keep_ok raw limit Hl) as (k & -> & Hk & Hkv & Hkl & Hmax & H6). rewrite Nat2Z.id.
    split; [exact Hk|]. split; [exact (Hkv Hv)|]. split; [lia|]. intros _.
    split; [exact Hkl|]. split; [exact Hmax|]. split; [exact H6|].
    (* a boundary at limit itself is the longest that fits *)
    intros Hlr Hvl. destruct (Z.eq_dec (Z.of_nat k) limit) as [E|N]; [exact E|].
    rewrite (Hmax (Z.to_nat limit)) in Hvl; [discriminate|unfold len in Hlr; lia|lia].
Qed.

(* what the larger limit keeps is the longest that fits it, and what the smaller keeps fits it too *)
Lemma json_kept_mono raw strlen l1 l2 : esc_valid raw = true -> 0 <= l1 <= l2 ->
  (json_kept raw strlen l1 <= json_kept raw strlen l2)%nat.
Proof.
  intros Hv [Hl1 Hl]. destruct (Z_lt_le_dec l2 strlen) as [H2|H2].
  2:{ rewrite (json_kept_fits raw strlen l2 H2). apply json_kept_le. }
  destruct (json_kept_spec raw strlen l1 Hv Hl1) as (_ & A2 & _ & A),
           (json_kept_spec raw strlen l2 Hv (Z.le_trans _ _ _ Hl1 Hl)) as (_ & _ & _ & B).
  destruct (A (Z.le_lt_trans _ _ _ Hl H2)) as (A3 & _), (B H2) as (_ & B2 & _).
  destruct (le_lt_dec (json_kept raw strlen l1) (json_kept raw strlen l2)) as [H|H]; [exact H|].
  rewrite B2 in A2; [discriminate|split; [exact H|apply json_kept_le]|exact (Z.le_trans _ _ _ A3 Hl)].
Qed.

Lemma json_cut_pos_doc pre raw post strlen limit : esc_valid raw = true -> 0 <= limit ->
  json_cut_pos (pre ++ QUOTE :: raw ++ QUOTE :: post) (len pre) strlen limit (QUOTE :: raw ++ [QUOTE]) =
  Ok (if strlen <=? limit then None
      else Some (len pre + Z.of_nat (json_kept raw strlen limit) + 1, len pre + len raw)).
Proof.
  intros Hv Hl. unfold json_cut_pos. destruct (Z.leb_spec strlen limit) as [Es|Es]; [reflexivity|].
  rewrite json_raw_at_doc. cbn [bind negb]. rewrite json_raw_len_at_doc by exact Hv.
  rewrite len_quoted, Z.eqb_refl. cbn [negb].
  rewrite slice_mid_cons. cbn [bind]. rewrite (json_kept_cut raw strlen limit Hl Es). reflexivity.
Qed.

Theorem json_cut_doc : forall pre raw post strlen limit,
  esc_valid raw = true -> 0 <= limit ->
  json_cut (pre ++ QUOTE :: raw ++ QUOTE :: post) (len pre) strlen limit (QUOTE :: raw ++ [QUOTE]) =
  Ok (pre ++ QUOTE :: firstn (json_kept raw strlen limit) raw ++ QUOTE :: post).
Proof.
  intros pre raw post strlen limit Hv Hl. unfold json_cut. rewrite json_cut_pos_doc by assumption. cbn [bind].
  destruct (Z.leb_spec strlen limit) as [Es|Es].
  - rewrite json_kept_fits, firstn_all by exact Es. reflexivity.
  - apply json_cut_at_doc, json_kept_le.
Qed.

Theorem json_cut_spec : forall pre raw post strlen limit,
  esc_valid raw = true -> 0 <= limit ->
  exists k : nat,
    json_cut (pre ++ QUOTE :: raw ++ QUOTE :: post) (len pre) strlen limit (QUOTE :: raw ++ [QUOTE]) =
      Ok (pre ++ QUOTE :: firstn k raw ++ QUOTE :: post) /\
    (k <= length raw)%nat /\
    esc_valid (firstn k raw) = true /\
    (strlen <= limit -> k = length raw) /\
    (limit < strlen ->
       Z.of_nat k <= limit /\
       (forall k' : nat, (k < k' <= length raw)%nat -> Z.of_nat k' <= limit -> esc_valid (firstn k' raw) = false) /\
       (limit <= len raw -> limit - 6 < Z.of_nat k) /\
       (limit <= len raw -> esc_valid (firstn (Z.to_nat limit) raw) = true -> Z.of_nat k = limit)).
Proof.
  intros pre raw post strlen limit Hv Hl. exists (json_kept raw strlen limit).
  split; [apply json_cut_doc; assumption|]. apply json_kept_spec; assumption.
Qed.

Corollary json_cut_keeps_framing : forall pre raw post strlen limit,
  esc_valid raw = true -> 0 <= limit ->
  exists out, json_cut (pre ++ QUOTE :: raw ++ QUOTE :: post) (len pre) strlen limit (QUOTE :: raw ++ [QUOTE]) = Ok out /\
              cut_keeps_framing pre raw post out.
Proof.
  intros pre raw post strlen limit Hv Hl. eexists. split; [apply json_cut_doc; assumption|].
  eexists. reflexivity.
Qed.

Lemma json_raw_len_at_inv data index n : json_raw_len_at data index = Some n ->
  0 <= n /\ index + n + 2 <= len data.
Proof.
  unfold json_raw_len_at. destruct ((0 <=? index) && (index <? len data)) eqn:E; [|discriminate].
  destruct (skipn (Z.to_nat index) data) as [|q tail] eqn:Es; [discriminate|].
  destruct (beq q QUOTE); [|discriminate]. intros H. apply json_raw_len_bounds in H.
  assert (L : len (q :: tail) = len data - index).
  { rewrite <- Es, len_skipn. lia. }
  rewrite len_cons in L. lia.
Qed.

(* gjson's Raw, when it stands at Index, is the string that starts there *)
Definition raw_consistent (data : bytes) (index : Z) (raw : bytes) : Prop :=
  json_raw_at data index raw = Ok true -> json_raw_len_at data index = Some (len raw - 2).

Lemma json_cut_pos_total data index strlen limit raw :
  0 <= limit -> 0 <= index -> raw_consistent data index raw ->
  ensures (json_cut_pos data index strlen limit raw)
          (fun r => match r with Some (s, e) => 0 <= s <= e + 1 /\ e + 1 <= len data | None => True end).
Proof.
  intros Hl Hi Hr. unfold json_cut_pos. destruct (strlen <=? limit); [exact I|].
  destruct (json_raw_at_spec data index raw Hi) as ([|] & Eb & _); rewrite Eb; cbn [bind negb]; [|exact I].
  rewrite (Hr Eb), Z.eqb_refl. cbn [negb].
  pose proof (json_raw_len_at_inv _ _ _ (Hr Eb)) as (Hn & Hd).
  next_slice content. destruct (json_cut_keep_ok content limit Hl) as (k & -> & Hk & _). cbn. unfold len in *. lia.
Qed.

(* any document, any oracle values that point at a terminated string *)
Theorem json_cut_total : forall data index strlen limit raw p,
  0 <= limit -> 0 <= index -> raw_consistent data index raw ->
  json_cut data index strlen limit raw <> Panic p.
Proof.
  intros data index strlen limit raw p Hl Hi Hr. apply (post_total True _ (fun _ => True)). unfold json_cut.
  eapply post_bind; [apply json_cut_pos_total; assumption|]. intros [[s e]|] Hb; [|exact I].
  unfold json_cut_at. cbn [fst snd]. next_slice a. next_slice b. exact I.
Qed.

Definition pos_of (data : bytes) (x : jfound) : res (option (Z * Z)) :=
  let '(index, strlen, limit, raw) := x in json_cut_pos data index strlen limit raw.

(* answers that find nothing (Raw not at Index, or the string fits its limit) do not matter *)
Definition finds_nothing (data : bytes) (x : jfound) : Prop := pos_of data x = Ok None.

(* an answer whose Raw does not occur at Index (gjson: Index unknown) is skipped by that guard: it finds nothing *)
Lemma finds_nothing_unknown data index strlen limit raw :
  0 <= index -> ~ raw_occurs_at data index raw -> finds_nothing data (index, strlen, limit, raw).
Proof.
  intros Hi Hn. unfold finds_nothing, pos_of, json_cut_pos. destruct (strlen <=? limit); [reflexivity|].
  destruct (json_raw_at_spec data index raw Hi) as ([|] & -> & Hb); [|reflexivity].
  exfalso. apply Hn, Hb. reflexivity.
Qed.

Theorem json_cut_index_unknown : forall data index strlen limit raw,
  0 <= index -> ~ raw_occurs_at data index raw ->
  json_cut data index strlen limit raw = Ok data.
Proof.
  intros data index strlen limit raw Hi Hn. unfold json_cut.
  pose proof (finds_nothing_unknown data index strlen limit raw Hi Hn) as Hx. unfold finds_nothing, pos_of in Hx.
  rewrite Hx. reflexivity.
Qed.

(* the cut positions of one string, one per limit that its unescaped length exceeds *)
Definition field_poss (at_ : Z) (raw : bytes) (strlen : Z) (ls : list Z) : list (Z * Z) :=
  flat_map (fun l => if strlen <=? l then []
                     else [(at_ + Z.of_nat (json_kept raw strlen l) + 1, at_ + len raw)]) ls.

(* the cut positions of the fields in document order *)
Fixpoint jf_poss (at_ : Z) (fs : list jfield) : list (Z * Z) :=
  match fs with
  | [] => []
  | (raw, post, strlen, limit, more) :: r =>
      field_poss at_ raw strlen (limit :: more) ++ jf_poss (at_ + len raw + 2 + len post) r
  end.

Lemma jf_doc_cons raw post strlen limit more r :
  jf_doc ((raw, post, strlen, limit, more) :: r) = QUOTE :: raw ++ QUOTE :: post ++ jf_doc r.
Proof. reflexivity. Qed.

Lemma jf_cut_cons raw post strlen limit more r :
  jf_cut ((raw, post, strlen, limit, more) :: r) =
  QUOTE :: firstn (json_kept raw strlen (jf_limit limit more)) raw ++ QUOTE :: post ++ jf_cut r.
Proof. reflexivity. Qed.

(* what stands in front of the second field: the induction on the fields goes on with it as [pre] *)
Lemma doc_assoc (pre raw post tail : bytes) :
  pre ++ QUOTE :: raw ++ QUOTE :: post ++ tail = (pre ++ QUOTE :: raw ++ QUOTE :: post) ++ tail.
Proof. rewrite <- !app_assoc. cbn [app]. rewrite <- !app_assoc. reflexivity. Qed.

Lemma len_doc_prefix (pre raw post : bytes) :
  len (pre ++ QUOTE :: raw ++ QUOTE :: post) = len pre + len raw + 2 + len post.
Proof. rewrite len_app, len_cons, len_app, len_cons. lia. Qed.

Lemma jf_limit_in limit more : In (jf_limit limit more) (limit :: more).
Proof.
  induction more as [|m more IH]; [left; reflexivity|]. unfold jf_limit in *. cbn [fold_right].
  destruct (Z.min_spec m (fold_right Z.min limit more)) as [[_ ->]|[_ ->]].
  - right. left. reflexivity.
  - destruct IH as [IH|IH]; [left; exact IH|right; right; exact IH].
Qed.

Lemma jf_limit_le limit more l : In l (limit :: more) -> jf_limit limit more <= l.
Proof.
  induction more as [|m more IH]; intros H.
  - destruct H as [->|[]]. unfold jf_limit. cbn. lia.
  - unfold jf_limit in *. cbn [fold_right]. destruct H as [->|[->|H]].
    + specialize (IH (or_introl eq_refl)). lia.
    + lia.
    + specialize (IH (or_intror H)). lia.
Qed.

Lemma json_find_all_app data : forall a b,
  json_find_all data (a ++ b) = (pa <- json_find_all data a ;; pb <- json_find_all data b ;; Ok (pa ++ pb)).
Proof.
  induction a as [|[[[index strlen] limit] raw] a IH]; intros b.
  - cbn [app json_find_all bind]. destruct (json_find_all data b); reflexivity.
  - cbn [app json_find_all]. destruct (json_cut_pos data index strlen limit raw) as [p|e|e]; cbn [bind]; try reflexivity.
    rewrite IH. destruct (json_find_all data a) as [pa|e|e]; cbn [bind]; try reflexivity.
    destruct (json_find_all data b) as [pb|e|e]; cbn [bind]; try reflexivity. destruct p; reflexivity.
Qed.

Lemma json_find_all_nothing data : forall junk, Forall (finds_nothing data) junk -> json_find_all data junk = Ok [].
Proof.
  induction junk as [|[[[index strlen] limit] raw] junk IH]; intros H; [reflexivity|].
  inversion H as [|x junk' Hx Hj]; subst x junk'. unfold finds_nothing, pos_of in Hx.
  cbn [json_find_all]. rewrite Hx, (IH Hj). reflexivity.
Qed.

Lemma json_find_field data pre raw post strlen : esc_valid raw = true ->
  data = pre ++ QUOTE :: raw ++ QUOTE :: post ->
  forall ls, Forall (fun l => 0 <= l) ls ->
  json_find_all data (@map Z jfound (fun l => (len pre, strlen, l, QUOTE :: raw ++ [QUOTE])) ls) =
  Ok (field_poss (len pre) raw strlen ls).
Proof.
  intros Hv ->. induction 1 as [|l ls Hl _ IH]; [reflexivity|].
  cbn [map json_find_all]. rewrite json_cut_pos_doc, IH by assumption. cbn [bind].
  unfold field_poss. cbn [flat_map]. destruct (strlen <=? l); reflexivity.
Qed.

Lemma json_find_doc : forall fs, Forall jf_ok fs -> forall pre data, data = pre ++ jf_doc fs ->
  json_find_all data (jf_found (len pre) fs) = Ok (jf_poss (len pre) fs).
Proof.
  induction 1 as [|[[[[raw post] strlen] limit] more] r (Hv & Hl & Hm) _ IH]; intros pre data Hd; [reflexivity|].
  rewrite jf_doc_cons in Hd. cbn [jf_found jf_poss].
  rewrite json_find_all_app, (json_find_field data pre raw _ strlen Hv Hd _ (Forall_cons _ Hl Hm)).
  rewrite <- len_doc_prefix, (IH _ data) by (rewrite ?Hd, ?doc_assoc; trivial). reflexivity.
Qed.

(* gjson's answers arrive in the (random) iteration order of a Go map: the positions come in that order too *)
Lemma json_find_all_perm data found found' : Permutation found found' ->
  forall ps, json_find_all data found = Ok ps ->
  exists ps', json_find_all data found' = Ok ps' /\ Permutation ps ps'.
Proof.
  induction 1 as [|[[[i s] l] raw] f f' _ IH|[[[i s] l] raw] [[[i2 s2] l2] raw2] f|f f' f'' _ IH1 _ IH2]; intros ps H.
  - exists ps. split; [exact H|reflexivity].
  - cbn [json_find_all] in *. destruct (json_cut_pos data i s l raw) as [p| |]; try discriminate.
    destruct (json_find_all data f) as [q| |]; try discriminate. destruct (IH q eq_refl) as (q' & -> & Hq).
    injection H as <-. eexists. split; [reflexivity|]. destruct p; [constructor|]; exact Hq.
  - cbn [json_find_all] in *. destruct (json_cut_pos data i2 s2 l2 raw2) as [p2| |]; try discriminate.
    destruct (json_cut_pos data i s l raw) as [p| |]; try discriminate.
    destruct (json_find_all data f) as [q| |]; try discriminate.
    injection H as <-. eexists. split; [reflexivity|]. destruct p, p2; try reflexivity. apply perm_swap.
  - destruct (IH1 ps H) as (ps1 & H1 & P1). destruct (IH2 ps1 H1) as (ps2 & H2 & P2).
    exists ps2. split; [exact H2|]. transitivity ps1; assumption.
Qed.

(* the order of the cuts: descending start *)
Definition pos_ge (a b : Z * Z) : Prop := fst b <= fst a.

(* insert_desc is ListFacts.insert for this test *)
Definition starts_after (p q : Z * Z) : bool := fst q <? fst p.

Lemma sort_desc_perm l : Permutation (sort_desc l) l.
Proof.
  induction l as [|p r IH]; [reflexivity|]. unfold sort_desc in *. cbn [fold_right].
  change (insert_desc p) with (insert starts_after p). rewrite insert_perm. apply perm_skip. exact IH.
Qed.

Lemma sort_desc_sorted l : StronglySorted pos_ge (sort_desc l).
Proof.
  induction l as [|p r IH]; [constructor|]. unfold sort_desc in *. cbn [fold_right].
  change (insert_desc p) with (insert starts_after p).
  apply (insert_sorted starts_after pos_ge); [unfold starts_after, pos_ge; lia..|exact IH].
Qed.

(* a list sorted by descending start, its members being those of F (at or below a threshold) and of R (above it):
   a list with the members of R followed by one with those of F *)
Lemma sorted_split t F R : forall S, StronglySorted pos_ge S ->
  (forall p, In p S <-> In p (F ++ R)) -> (forall p, In p F -> fst p <= t) -> (forall p, In p R -> t < fst p) ->
  exists hi lo, S = hi ++ lo /\ (forall p, In p hi <-> In p R) /\ (forall p, In p lo <-> In p F).
Proof.
  intros S Hs Hin HF HR. exists (filter (fun p => t <? fst p) S), (filter (fun p => fst p <=? t) S). split.
  - clear Hin. induction Hs as [|a S _ IH Ha]; [reflexivity|]. cbn [filter]. destruct (Z.ltb_spec t (fst a)) as [H|H].
    + replace (fst a <=? t) with false by lia. cbn [app]. f_equal. exact IH.
    + replace (fst a <=? t) with true by lia. destruct (filter _ S) as [|x l] eqn:E; [cbn [app] in *; f_equal; exact IH|].
      (* a does not lie above t, and what stands behind a starts at or below fst a: nothing there lies above t *)
      assert (Hx : In x (filter (fun p => t <? fst p) S)) by (rewrite E; left; reflexivity).
      apply filter_In in Hx. destruct Hx as [Hx Ht]. rewrite Forall_forall in Ha. apply Ha in Hx. unfold pos_ge in Hx. lia.
  - split; intros p; rewrite filter_In, Hin, in_app_iff; split.
    + intros [[H|H] Ht]; [apply HF in H; lia|exact H].
    + intros H. split; [right; exact H|apply HR in H; lia].
    + intros [[H|H] Ht]; [exact H|apply HR in H; lia].
    + intros H. split; [left; exact H|apply HF in H; lia].
Qed.

Lemma field_poss_in at_ raw strlen ls p : In p (field_poss at_ raw strlen ls) ->
  exists l, In l ls /\ l < strlen /\ p = (at_ + Z.of_nat (json_kept raw strlen l) + 1, at_ + len raw).
Proof.
  intros Hp. unfold field_poss in Hp. apply in_flat_map in Hp. destruct Hp as (l & Hl & Hp).
  destruct (strlen <=? l) eqn:E; [destruct Hp|]. destruct Hp as [<-|[]].
  exists l. split; [exact Hl|]. split; [lia|reflexivity].
Qed.

(* where the positions lie: those of one string inside it, those of the fields behind [at_] *)
Lemma field_poss_range at_ raw strlen ls p : In p (field_poss at_ raw strlen ls) ->
  at_ < fst p <= at_ + len raw + 1 /\ snd p = at_ + len raw.
Proof.
  intros Hp. destruct (field_poss_in _ _ _ _ _ Hp) as (l & _ & _ & ->).
  pose proof (json_kept_le raw strlen l). cbn [fst snd]. unfold len. lia.
Qed.

Lemma jf_poss_after : forall fs at_ p, In p (jf_poss at_ fs) -> at_ < fst p /\ at_ <= snd p.
Proof.
  induction fs as [|[[[[raw post] strlen] limit] more] r IH]; intros at_ p Hp; [destruct Hp|]. cbn [jf_poss] in Hp.
  pose proof (len_nonneg raw). pose proof (len_nonneg post). apply in_app_or in Hp. destruct Hp as [Hp|Hp].
  - apply field_poss_range in Hp. lia.
  - apply IH in Hp. lia.
Qed.

(* the cuts: positions with different ends are cut independently *)
Lemma json_cut_all_app : forall a b data, (forall x y, In x a -> In y b -> snd y <> snd x) ->
  json_cut_all data (a ++ b) = (d <- json_cut_all data a ;; json_cut_all d b).
Proof.
  induction a as [|p a IH]; intros b data Hc; [reflexivity|].
  destruct a as [|q a].
  - cbn [app]. destruct b as [|y b].
    + cbn [json_cut_all]. destruct (json_cut_at data p); reflexivity.
    + cbn [json_cut_all]. specialize (Hc p y (or_introl eq_refl) (or_introl eq_refl)).
      replace (snd y =? snd p) with false by lia. destruct (json_cut_at data p); reflexivity.
  - change ((p :: q :: a) ++ b) with (p :: (q :: a) ++ b). cbn [json_cut_all app].
    assert (Hc' : forall x y, In x (q :: a) -> In y b -> snd y <> snd x)
      by (intros x y Hx Hy; apply Hc; [right; exact Hx|exact Hy]).
    destruct (snd q =? snd p).
    + apply (IH b data Hc').
    + destruct (json_cut_at data p) as [d|e|e]; cbn [bind]; [apply (IH b d Hc')|reflexivity|reflexivity].
Qed.

(* positions with the same end: only the last one - the smallest start - is cut *)
Lemma json_cut_all_group data e pstar : forall S,
  StronglySorted pos_ge S -> In pstar S -> Forall (fun p => snd p = e) S ->
  (forall p, In p S -> fst pstar <= fst p) ->
  json_cut_all data S = json_cut_at data pstar.
Proof.
  induction S as [|x S IH]; intros Hs Hin He Hmin; [destruct Hin|].
  inversion Hs as [|x' S' Ss Fx]; subst x' S'. inversion He as [|x' S' Ex Es]; subst x' S'.
  destruct S as [|y S].
  - destruct Hin as [->|[]]. cbn [json_cut_all]. destruct (json_cut_at data pstar); reflexivity.
  - cbn [json_cut_all]. inversion Es as [|y' S' Ey _]; subst y' S'.
    replace (snd y =? snd x) with true by lia. apply IH; [exact Ss| |exact Es|].
    + destruct Hin as [<-|Hin]; [|exact Hin]. left.
      inversion Fx as [|y' S' Fy _]; subst y' S'. unfold pos_ge in Fy.
      specialize (Hmin y (or_intror (or_introl eq_refl))).
      destruct x as [x1 x2], y as [y1 y2]. cbn [fst snd] in *. f_equal; lia.
    + intros p Hp. apply Hmin. right. exact Hp.
Qed.

(* one string: cut once, by the smallest of its limits, whatever sorted list has its positions as members *)
Lemma json_cut_all_field pre raw post strlen limit more S :
  esc_valid raw = true -> Forall (fun l => 0 <= l) (limit :: more) -> StronglySorted pos_ge S ->
  (forall p, In p S <-> In p (field_poss (len pre) raw strlen (limit :: more))) ->
  json_cut_all (pre ++ QUOTE :: raw ++ QUOTE :: post) S =
  Ok (pre ++ QUOTE :: firstn (json_kept raw strlen (jf_limit limit more)) raw ++ QUOTE :: post).
Proof.
  intros Hv Hls Hs Hin. set (m := jf_limit limit more).
  assert (Hm0 : 0 <= m) by (rewrite Forall_forall in Hls; apply Hls, jf_limit_in).
  pose proof (fun p Hp => field_poss_in _ _ _ _ p (proj1 (Hin p) Hp)) as HF.
  destruct (Z_le_gt_dec strlen m) as [Hsm|Hsm].
  - (* every limit fits: no position *)
    rewrite json_kept_fits, firstn_all by exact Hsm. destruct S as [|p S]; [reflexivity|].
    destruct (HF p (or_introl eq_refl)) as (l & Hl & Hlt & _). pose proof (jf_limit_le limit more l Hl). lia.
  - rewrite (json_cut_all_group _ (len pre + len raw) (len pre + Z.of_nat (json_kept raw strlen m) + 1, len pre + len raw)).
    + apply json_cut_at_doc, json_kept_le.
    + exact Hs.
    + apply Hin, in_flat_map. exists m. split; [apply jf_limit_in|].
      replace (strlen <=? m) with false by lia. left. reflexivity.
    + apply Forall_forall. intros p Hp. destruct (HF p Hp) as (l & _ & _ & ->). reflexivity.
    + intros p Hp. destruct (HF p Hp) as (l & Hl & _ & ->). cbn [fst].
      pose proof (jf_limit_le limit more l Hl). pose proof (json_kept_mono raw strlen m l Hv ltac:(lia)). lia.
Qed.

(* the cuts of a document depend on the SET of positions only: whatever list sorted by descending start has
   the positions of the fields as its members (in any multiplicity) cuts every field once.  So nothing is asked
   of the sort but a sorted list with these members: Go's slices.SortFunc is a pdqsort and not stable,
   sort_desc sorts by insertion, and the theorem holds of what either returns.  Sorted it has to be: the
   positions were found on the original document, and a cut moves whatever stands behind it.
   The sorted list falls into the positions behind the first field, cut first so that the first field stays
   where it is, and those of the first field *)
Theorem json_cut_all_doc : forall fs, Forall jf_ok fs -> forall pre S, StronglySorted pos_ge S ->
  (forall p, In p S <-> In p (jf_poss (len pre) fs)) ->
  json_cut_all (pre ++ jf_doc fs) S = Ok (pre ++ jf_cut fs).
Proof.
  induction 1 as [|[[[[raw post] strlen] limit] more] r (Hv & Hl0 & Hm) _ IH]; intros pre S Hs Hin.
  - destruct S as [|p S]; [reflexivity|]. destruct (proj1 (Hin p) (or_introl eq_refl)).
  - pose proof (Forall_cons _ Hl0 Hm) as Hls. cbn [jf_poss] in Hin.
    pose proof (len_nonneg post) as Hpost.
    destruct (sorted_split (len pre + len raw + 1) _ _ S Hs Hin) as (hi & lo & -> & Ehi & Elo).
    { intros p Hp. apply field_poss_range in Hp. lia. }
    { intros p Hp. apply jf_poss_after in Hp. lia. }
    apply sorted_app in Hs. destruct Hs as (Shi & Slo & _).
    rewrite jf_doc_cons, jf_cut_cons, json_cut_all_app.
    + rewrite doc_assoc, IH; [|exact Shi|rewrite len_doc_prefix; exact Ehi]. cbn [bind].
      rewrite <- doc_assoc. apply json_cut_all_field; assumption.
    + intros x y Hx Hy. apply Ehi, jf_poss_after in Hx. apply Elo, field_poss_range in Hy. lia.
Qed.

(* gjson's answers arrive in the (random) iteration order of a Go map: any permutation; several of them
   may name the same string; answers that find nothing (Raw not at Index) may be among them *)
Theorem json_cut_many_spec : forall pre fs junk found,
  Forall jf_ok fs -> Forall (finds_nothing (pre ++ jf_doc fs)) junk ->
  Permutation found (jf_found (len pre) fs ++ junk) ->
  json_cut_many (pre ++ jf_doc fs) found = Ok (pre ++ jf_cut fs).
Proof.
  intros pre fs junk found Hok Hj Hp. unfold json_cut_many.
  assert (Hall : json_find_all (pre ++ jf_doc fs) (jf_found (len pre) fs ++ junk) = Ok (jf_poss (len pre) fs)).
  { rewrite json_find_all_app, (json_find_doc fs Hok pre _ eq_refl), (json_find_all_nothing _ _ Hj). cbn [bind].
    rewrite app_nil_r. reflexivity. }
  destruct (json_find_all_perm _ _ _ (Permutation_sym Hp) _ Hall) as (ps & -> & Hps). cbn [bind].
  rewrite <- (sort_desc_perm ps) in Hps.
  apply json_cut_all_doc; [exact Hok|apply sort_desc_sorted|].
  intros p. split; apply Permutation_in; [symmetry|]; exact Hps.
Qed.

(* several paths: an answer that finds nothing is ignored, wherever it stands *)
Lemma json_cut_many_nothing data found1 x found2 : finds_nothing data x ->
  json_cut_many data (found1 ++ x :: found2) = json_cut_many data (found1 ++ found2).
Proof.
  destruct x as [[[index strlen] limit] raw]. unfold finds_nothing, pos_of, json_cut_many. intros Hx.
  rewrite !json_find_all_app. cbn [json_find_all]. rewrite Hx. cbn [bind].
  destruct (json_find_all data found1) as [pa|e|e]; cbn [bind]; try reflexivity.
  destruct (json_find_all data found2) as [pb|e|e]; reflexivity.
Qed.

Theorem json_cut_many_index_unknown : forall data found1 index strlen limit raw found2,
  0 <= index -> ~ raw_occurs_at data index raw ->
  json_cut_many data (found1 ++ (index, strlen, limit, raw) :: found2) = json_cut_many data (found1 ++ found2).
Proof.
  intros data found1 index strlen limit raw found2 Hi Hn.
  apply json_cut_many_nothing, finds_nothing_unknown; assumption.
Qed.

Lemma strip_prefix_iff : forall p l r, strip_prefix p l = Some r <-> l = p ++ r.
Proof.
  induction p as [|a p IH]; intros l r; cbn [strip_prefix app].
  - split; [intros H; injection H as ->; reflexivity|intros ->; reflexivity].
  - destruct l as [|b l]; [split; discriminate|]. destruct (beq a b) eqn:E.
    + apply N.eqb_eq in E. subst b. rewrite IH. split; [intros ->; reflexivity|intros H; injection H as ->; reflexivity].
    + split; [discriminate|]. intros H. injection H as <- _. unfold beq in E. rewrite N.eqb_refl in E. discriminate.
Qed.

Lemma strip_prefix_app p r : strip_prefix p (p ++ r) = Some r.
Proof. apply strip_prefix_iff. reflexivity. Qed.

(* "[out] starts with [p] and [K] holds of what follows", the test both runner predicates are made of *)
Lemma strip_then_iff (K : bytes -> bool) p out :
  match strip_prefix p out with Some o => K o | None => false end = true <-> exists o, out = p ++ o /\ K o = true.
Proof.
  destruct (strip_prefix p out) as [o|] eqn:E.
  - apply strip_prefix_iff in E. subst out. split; [intros HK; exists o; auto|].
    intros (o' & E & HK). apply app_inv_head in E. subst o'. exact HK.
  - split; [discriminate|]. intros (o & -> & _). rewrite strip_prefix_app in E. discriminate.
Qed.

Lemma field_framed_iff (K : bytes -> bool) post : forall raw out,
  field_framed K post raw out = true <->
  exists (k : nat) out', out = firstn k raw ++ QUOTE :: post ++ out' /\ K out' = true.
Proof.
  induction raw as [|c raw IH]; intros out; cbn [field_framed]; rewrite Bool.orb_true_iff, strip_then_iff; split.
  - intros [(o & -> & HK)|H]; [exists 0%nat, o; auto|discriminate].
  - intros (k & o & -> & HK). left. exists o. rewrite firstn_nil. auto.
  - intros [(o & -> & HK)|H]; [exists 0%nat, o; auto|].
    destruct out as [|d out]; [discriminate|]. apply andb_prop in H. destruct H as [Hc H].
    apply N.eqb_eq in Hc. subst d. apply IH in H. destruct H as (k & o & -> & HK). exists (S k), o. auto.
  - intros ([|k] & o & -> & HK); [left; exists o; auto|right].
    cbn [firstn app]. unfold beq at 1. rewrite N.eqb_refl. apply IH. exists k, o. auto.
Qed.

Theorem fields_framed_iff : forall fs out,
  fields_framed fs out = true <-> exists ks, length ks = length fs /\ out = cut_doc fs ks.
Proof.
  induction fs as [|[raw post] r IH]; intros out.
  - cbn [fields_framed]. split.
    + destruct out; [|discriminate]. intros _. exists []. split; reflexivity.
    + intros (ks & _ & ->). destruct ks; reflexivity.
  - cbn [fields_framed]. split.
    + destruct out as [|q out]; [discriminate|]. intros H. apply andb_prop in H. destruct H as [Hq H].
      apply N.eqb_eq in Hq. subst q. apply field_framed_iff in H. destruct H as (k & o & -> & HK).
      apply IH in HK. destruct HK as (ks & Hl & ->). exists (k :: ks). split; [cbn [length]; lia|].
      reflexivity.
    + intros (ks & Hl & ->). destruct ks as [|k ks]; [discriminate|]. cbn [cut_doc].
      change (beq QUOTE QUOTE) with true. cbn [andb]. apply field_framed_iff.
      exists k, (cut_doc r ks). split; [reflexivity|].
      apply IH. exists ks. split; [cbn [length] in Hl; lia|reflexivity].
Qed.

(* the named strings the runner finds in  pre ++ jf_doc fs  are the fields of fs *)
Fixpoint jf_strs (at_ : Z) (fs : list jfield) : list (Z * Z) :=
  match fs with
  | [] => []
  | (raw, post, _, _, _) :: r => (at_, len raw) :: jf_strs (at_ + len raw + 2 + len post) r
  end.

Lemma json_named_strings_cons data index strlen limit raw found :
  json_named_strings data ((index, strlen, limit, raw) :: found) =
  match json_named_strings data found, json_raw_at data index raw with
  | Some l, Ok true =>
      match json_raw_len_at data index with
      | Some rawlen => if rawlen =? len raw - 2 then Some (insert_asc (index, rawlen) l) else None
      | None => None
      end
  | Some l, Ok false => Some l
  | _, _ => None
  end.
Proof. reflexivity. Qed.

(* several answers for one string name it once *)
Lemma json_named_field data at_ strlen raw found (L : list (Z * Z)) :
  json_raw_at data at_ (QUOTE :: raw ++ [QUOTE]) = Ok true ->
  json_raw_len_at data at_ = Some (len raw) ->
  json_named_strings data found = Some L ->
  match L with [] => True | q :: _ => at_ < fst q end ->
  forall ls, ls <> [] ->
  json_named_strings data (@map Z jfound (fun l => (at_, strlen, l, QUOTE :: raw ++ [QUOTE])) ls ++ found) =
  Some ((at_, len raw) :: L).
Proof.
  intros Ha Hr Hf HL.
  induction ls as [|l ls IH]; [congruence|]. intros _. cbn [map app]. rewrite json_named_strings_cons.
  destruct ls as [|l2 ls].
  - cbn [map app]. rewrite Hf, Ha, Hr, len_quoted, Z.eqb_refl. f_equal.
    destruct L as [|q L]; [reflexivity|]. cbn [insert_asc fst].
    replace (at_ <? fst q) with true by lia. reflexivity.
  - rewrite IH by discriminate. rewrite Ha, Hr, len_quoted, Z.eqb_refl. f_equal. cbn [insert_asc fst].
    rewrite Z.ltb_irrefl, Z.eqb_refl. reflexivity.
Qed.

Lemma json_named_doc : forall fs, Forall jf_ok fs -> forall pre data, data = pre ++ jf_doc fs ->
  json_named_strings data (jf_found (len pre) fs) = Some (jf_strs (len pre) fs).
Proof.
  induction 1 as [|[[[[raw post] strlen] limit] more] r (Hv & _) _ IH]; intros pre data Hd; [reflexivity|].
  rewrite jf_doc_cons in Hd.
  cbn [jf_found jf_strs]. apply json_named_field; [| | | |discriminate].
  - rewrite Hd. apply json_raw_at_doc.
  - rewrite Hd. apply json_raw_len_at_doc. exact Hv.
  - rewrite <- len_doc_prefix. apply IH. rewrite Hd. apply doc_assoc.
  - destruct r as [|[[[[raw2 post2] ?] ?] ?] r]; cbn [jf_strs fst]; [exact I|].
    pose proof (len_nonneg raw). pose proof (len_nonneg post). lia.
Qed.

Lemma split_fields_doc : forall fs x at_,
  split_fields (x ++ jf_doc fs) at_ (jf_strs (at_ + len x) fs) = Some (x, jf_pairs fs).
Proof.
  induction fs as [|[[[[raw post] strlen] limit] more] r IH]; intros x at_.
  - cbn. rewrite app_nil_r. reflexivity.
  - rewrite jf_doc_cons. cbn [jf_strs split_fields jf_pairs map].
    pose proof (len_nonneg x). pose proof (len_nonneg raw). pose proof (len_nonneg post). pose proof (len_nonneg (jf_doc r)).
    replace ((at_ <=? at_ + len x) && (0 <=? len raw) &&
             (at_ + len x - at_ + len raw + 2 <=? len (x ++ QUOTE :: raw ++ QUOTE :: post ++ jf_doc r))) with true
      by (rewrite len_app, len_cons, len_app, len_cons, len_app; lia).
    replace (at_ + len x - at_) with (len x) by lia. rewrite !len_to_nat.
    (* the three pieces are cut off one after the other *)
    replace (S (S (length x)) + length raw)%nat with (length x + 1 + length raw + 1)%nat by lia.
    replace (S (length x)) with (length x + 1)%nat by lia.
    rewrite <- !skipn_plus, !skipn_length_app, firstn_length_app. cbn [skipn].
    rewrite firstn_length_app, skipn_length_app. cbn [skipn].
    replace (at_ + len x + len raw + 2 + len post) with ((at_ + len x + len raw + 2) + len post) by lia.
    rewrite IH. reflexivity.
Qed.

(* the runner's predicate says what the theorems say: only the named strings were shortened *)
Theorem json_cut_framed_doc : forall pre fs out, Forall jf_ok fs ->
  (json_cut_framed (pre ++ jf_doc fs) (jf_found (len pre) fs) out = Some true <->
   exists ks, length ks = length fs /\ out = pre ++ cut_doc (jf_pairs fs) ks).
Proof.
  intros pre fs out Hok. unfold json_cut_framed.
  rewrite (json_named_doc fs Hok pre _ eq_refl).
  pose proof (split_fields_doc fs pre 0) as Hs. cbn [Z.add] in Hs. rewrite Hs.
  assert (Hl : length (jf_pairs fs) = length fs) by apply map_length. split.
  - intros H. injection H as H. apply strip_then_iff in H. destruct H as (o & -> & H).
    apply fields_framed_iff in H. destruct H as (ks & Hk & ->). exists ks. split; [congruence|reflexivity].
  - intros (ks & Hk & ->). f_equal. apply strip_then_iff. eexists. split; [reflexivity|].
    apply fields_framed_iff. exists ks. split; [congruence|reflexivity].
Qed.

Lemma jf_cut_is_cut_doc : forall fs,
  jf_cut fs = cut_doc (jf_pairs fs)
                (map (fun '(raw, _, strlen, limit, more) => json_kept raw strlen (jf_limit limit more)) fs).
Proof.
  induction fs as [|[[[[raw post] strlen] limit] more] r IH]; [reflexivity|].
  rewrite jf_cut_cons. cbn [jf_pairs map cut_doc]. f_equal. f_equal. f_equal. f_equal. exact IH.
Qed.

(* what the model computes passes the runner's predicate *)
Corollary json_cut_many_framed : forall pre fs, Forall jf_ok fs ->
  json_cut_framed (pre ++ jf_doc fs) (jf_found (len pre) fs) (pre ++ jf_cut fs) = Some true.
Proof.
  intros pre fs Hok. apply json_cut_framed_doc; [exact Hok|].
  eexists. split; [|rewrite jf_cut_is_cut_doc; reflexivity]. rewrite map_length. reflexivity.
Qed.

(* Two paths that resolve to the SAME string (e.g. a and \a): cut once, by the smaller limit (a second cut of the
   string already cut would remove its closing quote and what follows it): limits 3 and 5 on the one string, in
   both orders.
   String is imported here, at the end, only for the literals. *)
From Coq Require Import Strings.String.
Local Open Scope string_scope.
Definition alias_pre : bytes := bs "{""a"":".
Definition alias_raw : bytes := bs "0123456789".
Definition alias_post : bytes := bs ",""z"":""tail""}".
Local Close Scope string_scope.
Local Open Scope Z_scope.

Lemma json_cut_many_aliased_repaired :
  let doc := alias_pre ++ QUOTE :: alias_raw ++ QUOTE :: alias_post in
  let q := QUOTE :: alias_raw ++ [QUOTE] in
  let out := Ok (alias_pre ++ QUOTE :: firstn 3 alias_raw ++ QUOTE :: alias_post) in
  esc_valid alias_raw = true /\
  json_cut_many doc [(len alias_pre, 10, 3, q); (len alias_pre, 10, 5, q)] = out /\
  json_cut_many doc [(len alias_pre, 10, 5, q); (len alias_pre, 10, 3, q)] = out /\
  json_cut_many doc [(len alias_pre, 10, 3, q); (len alias_pre, 10, 3, q)] = out /\
  (* a|@this next to a: gjson answers Index 0 for the modifier path *)
  json_cut_many doc [(len alias_pre, 10, 3, q); (0, 10, 5, q)] = out /\
  json_cut doc 0 10 5 q = Ok doc.
Proof. repeat split; vm_compute; reflexivity. Qed.

(* the hypothesis of c12_json_cut_index_unknown is satisfiable: Index 0 of that document is not a quote *)
Lemma alias_raw_not_at_0 :
  ~ raw_occurs_at (alias_pre ++ QUOTE :: alias_raw ++ QUOTE :: alias_post) 0 (QUOTE :: alias_raw ++ [QUOTE]).
Proof. intros (a & b & H & Hl). apply len_zero_nil in Hl. subst a. vm_compute in H. discriminate H. Qed.
