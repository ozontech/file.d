(* The loop of jsonCutKeep (decoder/json.go:150) is the loop of escapedCutKeep
   (plugin/input/k8s/multiline_action.go:256), copied, and esc_valid tests what esc_wf tests.  The two models
   are the same functions written twice (cut_loop with fuel and skipn, json_cut_keep_from by structural
   recursion): for a limit that is not negative json_cut_keep IS escaped_cut_keep (json_cut_keep_k8s), so what
   Proofs/K8sMultiline.v proves of escaped_cut_keep for ANY content (k8s_cut_keep_ok: it stops at the longest
   prefix within the limit that ends between two tokens, less than one \uXXXX short of the limit) is said here
   of json_cut_keep (json_cut_keep_ok).
   A file of its own because both models define BSLASH, QUOTE and is_hex: Proofs/Decoders/JsonCut.v imports
   this file and not Model.K8sMultiline. *)
From Verif Require Import Base.Sx Base.GoSem Model.Decoders.Common Model.Decoders.JsonCut Model.K8sMultiline
  Proofs.K8sMultiline.
From Coq Require Import Lia ZifyBool.

(* esc_valid asks for quote and control byte before the backslash, esc_wf for the backslash first: on 92 the
   other two tests compute *)
Lemma esc_valid_wf : forall l, esc_valid l = esc_wf l.
Proof.
  fix IH 1. intros [|c r]; [reflexivity|]. cbn [esc_valid esc_wf]. unfold beq, plain_ok.
  change JsonCut.BSLASH with BSLASH. change Common.QUOTE with QUOTE. change LOWER_U with CH_u.
  destruct (N.eqb c BSLASH) eqn:Eb.
  - apply N.eqb_eq in Eb. subst c. cbn. destruct r as [|e r1]; [reflexivity|].
    destruct (N.eqb e CH_u).
    + destruct r1 as [|h1 [|h2 [|h3 [|h4 r2]]]]; try reflexivity. rewrite (IH r2). reflexivity.
    + rewrite (IH r1). reflexivity.
  - rewrite (IH r), N.ltb_antisym. destruct (N.eqb c QUOTE), (32 <=? c)%N; reflexivity.
Qed.

Lemma cut_loop_nil f i limit : cut_loop (S f) [] i limit = json_keep_end i limit.
Proof. cbn [cut_loop]. unfold json_keep_end. destruct (Z.ltb_spec i limit), (Z.leb_spec limit i); try reflexivity; lia. Qed.

(* enough fuel is what cut_loop_ok asks for: every round that does not stop moves i towards the limit *)
Lemma cut_loop_json : forall fuel rest i limit, (Z.to_nat (limit - i) < fuel)%nat ->
  cut_loop fuel rest i limit = json_cut_keep_from rest i limit.
Proof.
  induction fuel as [|f IH]; intros rest i limit Hf; [lia|].
  destruct rest as [|c r]; [apply cut_loop_nil|].
  cbn [cut_loop json_cut_keep_from]. unfold beq. change JsonCut.BSLASH with BSLASH. change LOWER_U with CH_u.
  destruct (Z.ltb_spec i limit) as [Hlt|Hge].
  2:{ replace (limit <=? i) with true by lia. reflexivity. }
  replace (limit <=? i) with false by lia.
  destruct (N.eqb c BSLASH); cbn [negb]; [|apply IH; lia].
  destruct r as [|u r1].
  - replace (i + 2 >? limit) with (limit <? i + 2) by lia. destruct (Z.ltb_spec limit (i + 2)); [reflexivity|].
    destruct f; [lia|apply cut_loop_nil].
  - destruct (N.eqb u CH_u).
    + replace (i + 6 >? limit) with (limit <? i + 6) by lia. destruct (Z.ltb_spec limit (i + 6)); [reflexivity|].
      change (Z.to_nat 6) with 6%nat. destruct f as [|f']; [lia|].
      (* fewer than four bytes behind the u: both go on with the empty view *)
      destruct r1 as [|x1 [|x2 [|x3 [|x4 r2]]]]; cbn [skipn]; try apply cut_loop_nil. apply IH. lia.
    + replace (i + 2 >? limit) with (limit <? i + 2) by lia. destruct (Z.ltb_spec limit (i + 2)); [reflexivity|].
      change (Z.to_nat 2) with 2%nat. cbn [skipn]. apply IH. lia.
Qed.

(* jsonCutKeep is escapedCutKeep (which answers 0 to a negative limit, jsonCutKeep the limit itself) *)
Lemma json_cut_keep_k8s content limit : 0 <= limit -> json_cut_keep content limit = escaped_cut_keep content limit.
Proof.
  intros H. unfold json_cut_keep, escaped_cut_keep. replace (limit >=? len content) with (len content <=? limit) by lia.
  destruct (len content <=? limit); [reflexivity|]. replace (limit <? 0) with false by lia.
  symmetry. apply cut_loop_json. lia.
Qed.

(* k8s_cut_keep_ok, said of jsonCutKeep *)
Lemma json_cut_keep_ok content limit : 0 <= limit ->
  exists k : nat,
    json_cut_keep content limit = Ok (Z.of_nat k) /\ (k <= length content)%nat /\
    (esc_valid content = true -> esc_valid (firstn k content) = true) /\
    Z.of_nat k <= limit /\
    (forall k' : nat, (k < k' <= length content)%nat -> Z.of_nat k' <= limit -> esc_valid (firstn k' content) = false) /\
    (limit <= len content -> limit - 6 < Z.of_nat k).
Proof.
  intros H. rewrite json_cut_keep_k8s by exact H.
  destruct (k8s_cut_keep_ok content limit) as (E & Hle & Hlim & Hmax & Hwf & Hlong).
  exists (cut_keep content limit). rewrite !esc_valid_wf. split; [exact E|]. split; [exact Hle|]. split; [exact Hwf|].
  split; [clear - H Hlim; lia|]. split; [|clear - H Hmax; lia]. intros k' Hk Hk'. rewrite esc_valid_wf. apply Hlong; unfold len; clear - Hk Hk'; lia.
Qed.
