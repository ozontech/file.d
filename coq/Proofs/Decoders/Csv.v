(* decoder/csv.go CSVDecoder.Decode with CheckInvalidLine (Model/Decoders/Csv.v): it never panics, for any delimiter, any
   bytes.TrimSpace and every invalid_line_mode, and a record of plain unquoted fields decodes to exactly those fields. *)
From Verif Require Import Base.Sx Base.GoSem Model.Decoders.Common Model.Decoders.Csv Proofs.Decoders.Common.
From Coq Require Import Lia ZifyBool.

(* fieldIndexes of consecutive fields starting at [base] *)
Fixpoint ends (base : Z) (fs : list bytes) : list Z :=
  match fs with [] => [] | f :: r => (base + len f) :: ends (base + len f) r end.

Lemma ends_snoc f : forall fs base, ends base (fs ++ [f]) = ends base fs ++ [base + len (concat fs ++ f)].
Proof.
  induction fs as [|g fs IH]; intros base; cbn [app ends concat]; [reflexivity|].
  rewrite IH, <- app_assoc, (len_app g), Z.add_assoc. reflexivity.
Qed.

(* str[preIdx:idx] over the ends of the fields gives the fields back, whatever stands before and after them *)
Lemma cut_fields_concat cur : forall fs pre,
  cut_fields (pre ++ concat fs ++ cur) (len pre) (ends (len pre) fs) = Ok fs.
Proof.
  induction fs as [|f r IH]; intros pre; cbn [concat ends cut_fields]; [reflexivity|].
  rewrite <- app_assoc, slice_mid. cbn [bind]. rewrite <- len_app, app_assoc, IH. reflexivity.
Qed.

(* What the loop keeps: recordBuffer holds the fields read so far one after the other, then what has been read of the
   field still open; fieldIndexes are the ends of the closed ones. *)
Definition holds (rb : bytes) (idxs : list Z) : Prop := exists fs cur, rb = concat fs ++ cur /\ idxs = ends 0 fs.

(* recordBuffer = append(recordBuffer, more...) *)
Lemma holds_more rb idxs more : holds rb idxs -> holds (rb ++ more) idxs.
Proof. intros (fs & cur & -> & ->). exists fs, (cur ++ more). rewrite app_assoc. split; reflexivity. Qed.

(* fieldIndexes = append(fieldIndexes, len(recordBuffer)) *)
Lemma holds_close rb idxs : holds rb idxs -> holds rb (idxs ++ [len rb]).
Proof.
  intros (fs & cur & -> & ->). exists (fs ++ [cur]), []. rewrite concat_app, ends_snoc. cbn [concat]. rewrite !app_nil_r. split; reflexivity.
Qed.

(* row = str[preIdx:idx] for every idx: the closed fields, and no slice out of range *)
Lemma holds_cut rb idxs : holds rb idxs -> exists fs, cut_fields rb 0 idxs = Ok fs.
Proof. intros (fs & cur & -> & ->). exists fs. exact (cut_fields_concat cur fs []). Qed.

(* [holds] is the invariant and len data the measure: every turn goes on with a proper suffix of data (it consumes at least
   the quote or the delimiter it stopped at), so the fuel S (length data) of decode_csv is never used up *)
Lemma csv_loop_spec trim_space delim : forall fuel quoted data rb idxs,
  len data < Z.of_nat fuel -> holds rb idxs ->
  ensures (csv_loop trim_space delim fuel quoted data rb idxs) (fun '(rb', idxs') => holds rb' idxs').
Proof.
  induction fuel as [|f IH]; intros quoted data rb idxs Hf Ha; cbn [csv_loop].
  - pose proof (len_nonneg data). lia.
  - destruct quoted.
    + apply ensures_cut. intros pre d1 ->. rewrite len_app, len_cons in Hf.
      apply (holds_more _ _ pre) in Ha.
      destruct (len d1 =? 0) eqn:H0; [apply holds_close, Ha|].
      next_idx rn.
      destruct (beq rn QUOTE).
      { next_slice d2. apply IH; [pose_lens; lia|]. apply holds_more, Ha. }
      destruct (beq rn delim).
      { next_slice d2. apply IH; [pose_lens; lia|]. apply holds_close, Ha. }
      destruct ((len d1 =? 1) && beq rn NL); [|exact I].
      apply holds_close, Ha.
    + apply (post_bind _ _ (fun isq => isq = true -> 0 < len data)).
      { destruct (len data =? 0) eqn:H0; [discriminate|]. next_idx c. intros _. pose_lens. lia. }
      intros [|] Hq; cbn [negb].
      * specialize (Hq eq_refl). next_slice d. apply IH; [lia|exact Ha].
      * name_index_byte i. apply (post_bind _ _ (fun _ => True)).
        { destruct (0 <=? i) eqn:Hlt; [next_slice r; exact I|exact I]. }
        intros field _. destruct (0 <=? index_byte field QUOTE); [exact I|].
        apply (holds_more _ _ field), holds_close in Ha.
        destruct (0 <=? i) eqn:Hlt; [|exact Ha].
        next_slice d. apply IH; [lia|exact Ha].
Qed.

Lemma decode_csv_spec trim_space delim data : ensures (decode_csv trim_space delim data) (fun _ => True).
Proof.
  unfold decode_csv. destruct (len data =? 0) eqn:H0; [exact I|].
  apply (post_bind _ _ (fun _ => True)).
  { (* CRLF -> LF *)
    destruct (2 <=? len data) eqn:H2; [|exact I]. next_idx c1. next_idx c2.
    destruct (beq c1 13%N && beq c2 NL); [|exact I]. next_slice pre. exact I. }
  intros d _. eapply post_bind; [apply csv_loop_spec; [apply len_lt_fuel|exists [], []; split; reflexivity]|].
  intros [rb idxs] H. destruct (holds_cut rb idxs H) as [fs ->]. exact I.
Qed.

Lemma decode_csv_total trim_space delim data p : decode_csv trim_space delim data <> Panic p.
Proof. exact (post_total True _ _ p (decode_csv_spec trim_space delim data)). Qed.

Theorem decode_csv_checked_total : forall trim_space delim ncols cm data p,
  decode_csv_checked trim_space delim ncols cm data <> Panic p.
Proof.
  intros. apply bind_not_panic; [apply decode_csv_total|]. intros row. destruct (_ && _); discriminate.
Qed.

(* all three modes of invalid_line_mode ("fatal" ends in the distinguished error 5, never in a Panic) *)
Theorem decode_csv_mode_total : forall trim_space delim ncols mode data p,
  decode_csv_mode trim_space delim ncols mode data <> Panic p.
Proof.
  intros. apply bind_not_panic; [apply decode_csv_total|]. intros row.
  destruct (_ && _); [|discriminate]. destruct (mode =? 2); [discriminate|]. destruct (mode =? 1); discriminate.
Qed.

(* modes "default" / "continue" (and every unknown word) are the two-mode function the other theorems speak about;
   "fatal" differs from "default" only in the error it ends with *)
Lemma decode_csv_mode_checked : forall trim_space delim ncols mode data,
  mode <> 2 ->
  decode_csv_mode trim_space delim ncols mode data = decode_csv_checked trim_space delim ncols (mode =? 1) data.
Proof.
  intros trim_space delim ncols mode data Hm. unfold decode_csv_mode, decode_csv_checked.
  destruct (decode_csv trim_space delim data) as [row|e|q]; cbn [bind]; try reflexivity.
  destruct (Z.eqb_spec mode 2) as [->|_]; [contradiction|].
  destruct (negb (ncols =? 0) && negb (len row =? ncols)); cbn [andb]; [|reflexivity].
  destruct (mode =? 1); reflexivity.
Qed.

Definition csv_field_ok (delim : byte) (f : bytes) : Prop :=
  index_byte f delim = -1 /\ index_byte f QUOTE = -1 /\ index_byte f NL = -1.

(* a line that starts with an unquoted field does not start with a quote: the scanner takes the unquoted branch *)
Lemma csv_unquoted f tail data :
  data = f ++ tail -> index_byte f QUOTE = -1 -> (forall x r, tail = x :: r -> x <> QUOTE) ->
  (if len data =? 0 then Ok false else c <- idx data 0 ;; Ok (beq c QUOTE)) = Ok false.
Proof.
  intros E Hf Ht. destruct data as [|x r]; [reflexivity|].
  rewrite len_cons, idx_cons_0. pose proof (len_nonneg r). replace (len r + 1 =? 0) with false by lia. cbn [bind].
  f_equal. apply N.eqb_neq. destruct f as [|y f]; cbn [app] in E.
  - exact (Ht x r (eq_sym E)).
  - injection E as <- _. rewrite index_byte_cons in Hf. destruct (N.eqb_spec x QUOTE); [lia|assumption].
Qed.

Lemma csv_loop_fields trim_space delim : delim <> QUOTE ->
  forall fs fuel rb idxs,
  fs <> [] -> Forall (csv_field_ok delim) fs -> trim_space (last fs []) = last fs [] ->
  len (csv_line delim fs) < Z.of_nat fuel ->
  csv_loop trim_space delim fuel false (csv_line delim fs) rb idxs =
  Ok (rb ++ concat fs, idxs ++ ends (len rb) fs).
Proof.
  intros Hd. induction fs as [|f r IH]; intros fuel rb idxs Hne Hok Htrim Hfuel; [congruence|].
  inversion Hok as [|? ? [Hf1 [Hf2 Hf3]] Hok']; subst.
  destruct fuel as [|fuel]; [pose proof (len_nonneg (csv_line delim (f :: r))); lia|].
  destruct r as [|g r].
  - (* the last field: no delimiter, taken whole *)
    cbn [csv_line last] in *. cbn [csv_loop].
    rewrite (csv_unquoted f [] f (eq_sym (app_nil_r f)) Hf2) by discriminate. cbn [bind negb].
    rewrite Hf1. change (0 <=? -1) with false. cbn [bind]. rewrite Htrim, Hf2. change (0 <=? -1) with false. cbn [concat ends].
    rewrite app_nil_r, len_app. reflexivity.
  - change (csv_line delim (f :: g :: r)) with (f ++ delim :: csv_line delim (g :: r)) in *.
    set (rest := csv_line delim (g :: r)) in *. cbn [csv_loop].
    rewrite (csv_unquoted f (delim :: rest) _ eq_refl Hf2) by (intros x r0 E; injection E as <- _; exact Hd).
    cbn [bind negb]. rewrite (index_byte_app_notin f delim rest Hf1).
    pose proof (len_nonneg f) as Lf. replace (0 <=? len f) with true by lia.
    rewrite slice_to_app. cbn [bind]. rewrite Hf2. change (0 <=? -1) with false.
    rewrite slice_from_app_cons. cbn [bind].
    rewrite len_app, len_cons in Hfuel.
    rewrite IH; [|discriminate|exact Hok'|exact Htrim|lia].
    cbn [concat ends]. rewrite len_app, <- !app_assoc. reflexivity.
Qed.

Lemma csv_line_no_nl delim : delim <> NL -> forall fs, Forall (csv_field_ok delim) fs ->
  index_byte (csv_line delim fs) NL = -1.
Proof.
  intros Hd. induction fs as [|f r IH]; intros Hok; [reflexivity|].
  inversion Hok as [|? ? [Hf1 [Hf2 Hf3]] Hok']; subst.
  destruct r as [|g r]; [exact Hf3|].
  change (csv_line delim (f :: g :: r)) with (f ++ delim :: csv_line delim (g :: r)).
  rewrite (index_byte_app_skip f _ NL Hf3), index_byte_cons.
  replace (N.eqb delim NL) with false by (symmetry; apply N.eqb_neq; exact Hd).
  rewrite (IH Hok'). reflexivity.
Qed.

(* CRLF -> LF leaves a line without a newline as it is *)
Lemma decode_csv_no_nl trim_space delim line :
  line <> [] -> index_byte line NL = -1 ->
  decode_csv trim_space delim line =
  (' (rb, idxs) <- csv_loop trim_space delim (S (length line)) false line [] [] ;; cut_fields rb 0 idxs).
Proof.
  intros Hne Hnl. unfold decode_csv. pose proof (len_nonneg line).
  destruct (len line =? 0) eqn:E0; [exfalso; apply Hne, len_zero_nil; lia|].
  destruct (2 <=? len line) eqn:E2; [|reflexivity].
  next_idx c1. next_idx c2.
  replace (beq c2 NL) with false
    by (symmetry; apply N.eqb_neq, (index_byte_before line NL (len line - 1)); [right; lia|exact Ec2]).
  rewrite andb_false_r. reflexivity.
Qed.

(* a record of unquoted fields that contain no delimiter, quote or newline (the last one not
   ending or starting in white space) decodes to exactly those fields *)
Theorem decode_csv_faithful : forall trim_space delim fs,
  delim <> QUOTE -> delim <> NL ->
  Forall (csv_field_ok delim) fs -> csv_line delim fs <> [] ->
  trim_space (last fs []) = last fs [] ->
  decode_csv trim_space delim (csv_line delim fs) = Ok fs.
Proof.
  intros trim_space delim fs Hd1 Hd2 Hok Hne Htrim.
  assert (Hfs : fs <> []) by (intros ->; apply Hne; reflexivity).
  rewrite (decode_csv_no_nl _ _ _ Hne (csv_line_no_nl delim Hd2 fs Hok)).
  rewrite (csv_loop_fields trim_space delim Hd1 fs _ [] [] Hfs Hok Htrim) by apply len_lt_fuel.
  cbn [bind app]. change (len (@nil byte)) with 0.
  rewrite <- (app_nil_r (concat fs)). exact (cut_fields_concat [] fs []).
Qed.
