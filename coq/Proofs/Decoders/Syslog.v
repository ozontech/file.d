(* decoder/syslog.go syslogParsePriority (Model/Decoders/Syslog.v), shared by the two syslog decoders: it never panics, and
   the '>' it reports stands at 2..4 inside the data, with a priority in 0..191. *)
From Verif Require Import Base.Sx Base.GoSem Model.Decoders.Common Model.Decoders.Syslog Proofs.Decoders.Common.
From Coq Require Import Lia ZifyBool.

Lemma atoi_from_nonneg : forall l x y, 0 <= x -> atoi_from l x = Some y -> 0 <= y.
Proof.
  induction l as [|d l IH]; cbn [atoi_from]; intros x y Hx H; [injection H as <-; exact Hx|].
  destruct (is_digit d) eqn:Hd; [|discriminate]. apply IH in H; [exact H|]. unfold is_digit in Hd. lia.
Qed.

(* never panics; on success the offset of '>' is inside the data, so data[1:offset] and
   data[offset+1:] are in range *)
Lemma syslog_parse_priority_spec data :
  ensures (syslog_parse_priority data)
          (fun '(p, offset) => 2 <= offset <= 4 /\ offset < len data /\ 0 <= p <= 191).
Proof.
  unfold syslog_parse_priority.
  destruct (len data <? 3) eqn:Hl; [exact I|].
  next_idx c0. destruct (negb (beq c0 60%N)); [exact I|].
  name_index_byte offset. destruct ((offset <? 2) || (4 <? offset)) eqn:Ho; [exact I|].
  next_slice num.
  destruct (atoi num) as [v|] eqn:Ea; [|exact I].
  destruct (191 <? v) eqn:Hv; [exact I|]. cbn.
  unfold atoi in Ea. destruct num; [discriminate|]. apply atoi_from_nonneg in Ea; lia.
Qed.
