(* decoder/nginx.go nginxErrorDecoder.Decode with spaceSplit and extractCustomFields (Model/Decoders/Nginx.v): it never
   panics, for any line and any key test; what it rests on is that spaceSplit returns ascending positions of spaces. *)
From Verif Require Import Base.Sx Base.GoSem Model.Decoders.Common Model.Decoders.Nginx Proofs.Decoders.Common.
From Coq Require Import Lia ZifyBool.

(* spaceSplit: strictly ascending positions of spaces inside the input *)
Fixpoint spaces (data : bytes) (lo : Z) (l : list Z) : Prop :=
  match l with [] => True | e :: r => lo <= e < len data /\ idx data e = Ok SP /\ spaces data (e + 1) r end.

Lemma spaces_weaken data l : forall lo lo', lo' <= lo -> spaces data lo l -> spaces data lo' l.
Proof. destruct l; cbn; [trivial|]. intros lo lo' H (H1 & H2 & H3). repeat split; [lia|lia|exact H2|exact H3]. Qed.

Lemma space_split_from_spaces b : forall pre limit, spaces (pre ++ b) (len pre) (space_split_from b (len pre) limit).
Proof.
  induction b as [|c b IH]; intros pre limit; destruct limit as [|k]; cbn [space_split_from spaces]; trivial.
  specialize (IH (pre ++ [c])). rewrite <- app_assoc, len_app, len_cons, len_nil in IH. cbn [app] in IH.
  destruct (beq c SP) eqn:E; [|apply (spaces_weaken _ _ (len pre + 1)); [lia|apply IH]].
  cbn [spaces]. apply N.eqb_eq in E. subst c. rewrite idx_app, len_app, len_cons. pose_lens.
  repeat split; [lia|lia|apply IH].
Qed.

Lemma space_split_spaces data limit : spaces data 0 (space_split data limit).
Proof. exact (space_split_from_spaces data [] limit). Qed.

Lemma idx_1 {A} (a b : A) r : idx (a :: b :: r) 1 = Ok b.
Proof. exact (idx_app [a] b r). Qed.
Lemma idx_2 {A} (a b c : A) r : idx (a :: b :: c :: r) 2 = Ok c.
Proof. exact (idx_app [a; b] c r). Qed.
Lemma idx_3 {A} (a b c d : A) r : idx (a :: b :: c :: d :: r) 3 = Ok d.
Proof. exact (idx_app [a; b; c] d r). Qed.
Lemma idx_4 {A} (a b c d e : A) r : idx (a :: b :: c :: d :: e :: r) 4 = Ok e.
Proof. exact (idx_app [a; b; c; d] e r). Qed.

Lemma ng_pid_loop_total : forall n data i pidc pid tid,
  0 <= i -> i + Z.of_nat n <= len data -> ensures (ng_pid_loop n data i pidc pid tid) (fun _ => True).
Proof.
  induction n as [|k IH]; intros data i pidc pid tid Hi Hn; cbn [ng_pid_loop]; [exact I|].
  next_idx c.
  destruct (beq c 35%N); [apply IH; lia|].
  destruct (beq c 58%N); [exact I|].
  destruct pidc; apply IH; lia.
Qed.

Lemma ng_fields_loop_total only_letters : forall fuel data fields,
  len data < Z.of_nat fuel -> ensures (ng_fields_loop only_letters fuel data fields) (fun _ => True).
Proof.
  induction fuel as [|f IH]; intros data fields Hf; cbn [ng_fields_loop].
  - pose proof (len_nonneg data). lia.
  - destruct (len data <=? 0); [exact I|].
    pose proof (last_index_sub_bounds data [44%N; SP]) as Bs.
    change (len [44%N; SP]) with 2 in Bs.
    set (sepIdx := last_index_sub data [44%N; SP]) in *.
    destruct (sepIdx =? -1) eqn:Es; [exact I|].
    next_slice field.
    name_index_byte i. destruct (i =? -1) eqn:Ei; [exact I|].
    next_slice key.
    destruct (negb (only_letters key)); [exact I|].
    next_slice rest. apply (post_bind _ _ (fun _ => True)).
    { destruct (1 <? len rest) eqn:Er; [next_slice v|]; exact I. }
    intros value _. next_slice data'. apply IH. lia.
Qed.

Lemma ng_extract_total only_letters wc data : ensures (ng_extract only_letters wc data) (fun _ => True).
Proof.
  unfold ng_extract. destruct (negb wc); [exact I|].
  apply ng_fields_loop_total, len_lt_fuel.
Qed.

(* the message and its custom fields, read from any position inside the line, whatever row they end in *)
Lemma ng_msg_total {R} only_letters wc data from (row : bytes -> list (bytes * bytes) -> R) :
  0 <= from <= len data ->
  ensures (rest <- slice_from data from ;; ' (msg, fs) <- ng_extract only_letters wc rest ;; Ok (row msg fs)) (fun _ => True).
Proof.
  intros Hfrom. next_slice r0. eapply post_bind; [apply ng_extract_total|]. intros [msg fs] _. exact I.
Qed.

Theorem decode_nginx_total : forall only_letters with_custom data p,
  decode_nginx only_letters with_custom data <> Panic p.
Proof.
  intros only_letters wc data0 p. apply (post_total True _ (fun _ => True)). unfold decode_nginx.
  set (data := trim_nl data0). clearbody data. clear data0.
  pose proof (space_split_spaces data 5) as Hs.
  destruct (space_split data 5) as [|s0 [|s1 [|s2 [|s3 rest]]]]; try exact I.
  rewrite !len_cons. pose proof (len_nonneg rest) as Hrest.
  replace (len rest + 1 + 1 + 1 + 1 <? 4) with false by lia.
  rewrite idx_1, idx_2, idx_3. cbn [bind].
  cbn [spaces] in Hs. destruct Hs as (I0 & _ & I1 & _ & I2 & _ & I3 & _ & Hs).
  next_slice time.
  destruct (s2 - s1 <? 4) eqn:Hl; [exact I|].
  next_slice level.
  eapply post_bind; [apply ng_pid_loop_total; lia|]. intros [[[pidc tidc] pid] tid] _.
  destruct (negb (pidc && tidc)); [exact I|].
  destruct (len data <=? s3 + 1) eqn:Hd; [exact I|].
  destruct (4 <? len rest + 1 + 1 + 1 + 1) eqn:H4; [|apply ng_msg_total; lia].
  next_idx c.
  destruct (beq c 42%N) eqn:Hc; [|apply ng_msg_total; lia].
  destruct rest as [|s4 rest']; [rewrite len_nil in H4; lia|].
  rewrite idx_4. cbn [bind].
  cbn [spaces] in Hs. destruct Hs as (I4 & J4 & _).
  (* data[s3+2:s4] is in range: s4 is a space after s3, and not s3 + 1 because the byte there is '*' *)
  assert (s4 <> s3 + 1).
  { intros ->. rewrite J4 in Ec. injection Ec as <-. discriminate Hc. }
  next_slice cid.
  destruct (s4 + 1 <? len data) eqn:H5; [apply ng_msg_total; lia|exact I].
Qed.
