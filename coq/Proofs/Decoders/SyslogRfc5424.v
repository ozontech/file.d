(* decoder/syslog_rfc5424.go syslogRFC5424Decoder.Decode with validateTimestamp, parseStructuredData and
   readUntilSpaceOrNilValue (Model/Decoders/SyslogRfc5424.v): Decode never panics on any byte string (decode_s5424_total). *)
From Verif Require Import Base.Sx Base.GoSem Model.Decoders.Common Model.Decoders.Syslog Model.Decoders.SyslogRfc5424
  Proofs.Decoders.Common Proofs.Decoders.Syslog.
From Coq Require Import Lia ZifyBool.

Lemma read_until_spec data :
  ensures (read_until_sp_or_nil data)
          (fun '(o, ok) => ok = true -> (o = 0 /\ 2 <= len data) \/ 0 < o < len data).
Proof.
  unfold read_until_sp_or_nil. destruct (len data <? 2) eqn:Hl; [discriminate|].
  next_idx c0. next_idx c1.
  destruct (beq c0 DASH && beq c1 SP); [left; lia|].
  name_index_byte offset. cbn. lia.
Qed.

Lemma s5424_field_total data e : ensures (s5424_field data e) (fun _ => True).
Proof.
  unfold s5424_field. eapply post_bind; [apply read_until_spec|]. intros [o [|]] H; [|exact I].
  specialize (H eq_refl). cbn [negb]. destruct (o =? 0) eqn:Ho.
  - next_slice d. exact I.
  - next_slice v. next_slice d. exact I.
Qed.

Lemma count_digits_bounds l : 0 <= count_digits l <= len l.
Proof.
  induction l as [|c l IH]; cbn [count_digits]; [pose proof (len_nonneg (@nil byte)); lia|].
  rewrite len_cons. destruct (is_digit c); lia.
Qed.

Lemma s5424_validate_timestamp_total ts : ensures (s5424_validate_timestamp ts) (fun _ => True).
Proof.
  unfold s5424_validate_timestamp.
  destruct (len ts <? 20) eqn:Hl; [exact I|].
  next_idx c4. next_idx c7. next_idx c10. next_idx c13. next_idx c16.
  destruct (negb _); [exact I|].
  next_slice y. next_slice mo. next_slice d.
  destruct (negb _); [exact I|].
  next_slice hh. next_slice mi. next_slice ss.
  destruct (negb _); [exact I|].
  next_slice ts1.
  apply (post_bind _ _ (fun _ => True)).
  { (* nanoseconds *)
    destruct (2 <=? len ts1) eqn:H2; [|exact I].
    next_idx c0. next_idx c1. destruct (beq c0 46%N && is_digit c1); [|exact I].
    next_slice r2. pose proof (count_digits_bounds r2) as Bc.
    destruct (7 <? 2 + count_digits r2) eqn:H7; [exact I|]. next_slice t. exact I. }
  (* timezone *)
  intros [t|] _; [|exact I].
  apply (post_bind _ _ (fun _ => True)).
  { destruct (0 <? len t) eqn:H0; [next_idx c0|]; exact I. }
  intros [|] _; [exact I|].
  destruct (len t <? 6) eqn:H6; [exact I|].
  next_idx c0. next_idx c3. destruct (negb _); [exact I|].
  next_slice h2. next_slice m2. destruct (negb _); exact I.
Qed.

(* a closing bracket, when one is reported, stands inside the data *)
Definition sd_closed (data : bytes) (o : option (Z * sd_params)) : Prop :=
  match o with Some (j, _) => 0 <= j < len data | None => True end.

Lemma sd_params_loop_spec : forall r data i sI sV inside pid params,
  len r + i = len data -> 0 <= sI <= i -> 0 <= sV <= i ->
  ensures (sd_params_loop r data i sI sV inside pid params) (sd_closed data).
Proof.
  induction r as [|b r IH]; intros data i sI sV inside pid params Hlen HsI HsV; cbn [sd_params_loop]; [exact I|].
  rewrite len_cons in Hlen. pose proof (len_nonneg r) as Hr.
  destruct (beq b 93%N).
  { destruct (i =? 0) eqn:E0; [exact I|]. next_idx c. destruct (negb (beq c QUOTE)); [exact I|]. cbn. lia. }
  destruct (beq b SP && negb inside); [apply IH; lia|].
  destruct (beq b 61%N && negb inside).
  { apply (post_bind _ _ (fun _ => True)).
    - destruct (i + 1 <? len data) eqn:E1; [next_idx c|]; exact I.
    - intros [|] _; [exact I|]. next_slice pid'. apply IH; lia. }
  destruct (beq b QUOTE); [|apply IH; lia].
  apply (post_bind _ _ (fun _ => True)).
  - destruct (0 <? i) eqn:E0; [next_idx c|]; exact I.
  - intros [|] _; [apply IH; lia|]. destruct inside; [next_slice v|]; apply IH; lia.
Qed.

Lemma sd_loop_spec : forall fuel data offset wasOpen sd,
  len data < Z.of_nat fuel -> 0 <= offset ->
  ensures (sd_loop fuel data offset wasOpen sd) (fun '(_, o, _) => 0 <= o).
Proof.
  induction fuel as [|f IH]; intros data offset wasOpen sd Hf Ho; cbn [sd_loop].
  - pose proof (len_nonneg data). lia.
  - destruct (len data <=? 0) eqn:H0; [exact Ho|].
    next_idx c. destruct (negb (beq c 91%N)); [exact Ho|].
    next_slice d1.
    name_index_byte i. destruct (i <? 2) eqn:Hi2; [exact I|].
    next_slice sdID. next_slice d2.
    eapply post_bind; [apply (sd_params_loop_spec d2 d2 0 0 0); lia|]. intros [[j params]|] HP; [|exact I].
    cbn in HP. next_slice d3. apply IH; lia.
Qed.

Lemma parse_sd_spec data : ensures (parse_sd data) (fun '(_, o) => 0 <= o).
Proof.
  unfold parse_sd. apply (post_bind _ _ (fun dash => dash = true -> 0 < len data)).
  { destruct (0 <? len data) eqn:H0; [next_idx c0; intros _; lia|discriminate]. }
  intros [|] Hd.
  - specialize (Hd eq_refl). apply (post_bind _ _ (fun _ => True)).
    + destruct (len data =? 1) eqn:H1; [|next_idx c1]; exact I.
    + intros [|] _; cbn; lia.
  - eapply post_bind; [apply (sd_loop_spec (S (length data)) data 0 false []); [apply len_lt_fuel|lia]|].
    intros [[sd o] w] H. destruct (negb w); [exact I|exact H].
Qed.

Theorem decode_s5424_total : forall fac_str sev_str data p, decode_s5424 fac_str sev_str data <> Panic p.
Proof.
  intros fs ss data0 p. apply (post_total True _ (fun _ => True)). unfold decode_s5424.
  set (data := trim_nl data0). clearbody data. clear data0.
  destruct (len data =? 0) eqn:H0; [exact I|].
  eapply post_bind; [apply syslog_parse_priority_spec|]. intros [pri offset] (HP1 & HP2 & HP3).
  next_slice priority. next_slice d1.
  name_index_byte off1. destruct (off1 <=? 0) eqn:Ho1; [exact I|].
  next_slice ver. destruct (atoi ver); [|exact I].
  next_slice d2. clear Hoff1.
  eapply post_bind; [apply read_until_spec|]. intros [o [|]] HR; [|exact I].
  specialize (HR eq_refl). cbn [negb].
  apply (post_bind _ _ (fun _ => True)).
  { (* timestamp *)
    destruct (o =? 0) eqn:Eo; [next_slice d3; exact I|]. next_slice ts.
    eapply post_bind; [apply s5424_validate_timestamp_total|]. intros [|] _; [|exact I].
    cbn [negb]. next_slice d3. exact I. }
  intros [ts d3] _.
  eapply post_bind; [apply s5424_field_total|]. intros [host a1] _.
  eapply post_bind; [apply s5424_field_total|]. intros [appn a2] _.
  eapply post_bind; [apply s5424_field_total|]. intros [procid a3] _.
  eapply post_bind; [apply s5424_field_total|]. intros [msgid a4] _.
  eapply post_bind; [apply parse_sd_spec|]. intros [sd o4] HS.
  destruct (len a4 <=? o4) eqn:H4; [exact I|].
  next_slice a5.
  apply (post_bind _ _ (fun _ => True)).
  { destruct (0 <? len a5) eqn:H5; [|exact I]. next_idx c. destruct (beq c SP); [next_slice r; exact I|exact I]. }
  intros a6 _. apply (post_bind _ _ (fun _ => True)); [|intros; exact I].
  destruct (2 <? len a6) eqn:H6; [|exact I].
  next_slice pre. destruct (bytes_eqb pre BOM); [next_slice r; exact I|exact I].
Qed.
