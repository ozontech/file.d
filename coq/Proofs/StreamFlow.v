(* Proofs about Model/StreamFlow.v: the end-to-end life of the events of ONE stream = the logical
   processor of the stream (Model/Proc.v) + the queue of events handed to the output and not yet
   added to the batcher (outq) + the queue of events added and not yet committed (addq) + the commit
   history.  Everything rests on one equation kept by every step ([fi_split]):
       ordered events handed to the output, oldest first  =  committed ++ added ++ waiting
   and on the processor invariant [pinv] (Proofs/Proc.v), carried through the FProc steps.
   Here: the projection of a flow run onto a processor run ([fproj], [frun_proc]); the invariant [finv],
   kept by every step, with what is read off it ([split_sorted], [split_members], [fcommit_inv]); the
   one accounting identity [fconservation_cnt]; the commit frontier [frontier]; the model without guard
   F0.  The theorems of C01 and C02 are drawn from these in Proofs/StreamFlowTheorems.v. *)
From Verif Require Import Base.Sx Proofs.Lts Model.Proc Model.StreamFlow Proofs.ListFacts Proofs.Proc.
From Coq Require Import Lia ZifyBool Bool List ZArith Sorted Permutation.
Import ListNotations.
Local Open Scope Z_scope.

Lemma frun_app s a b : frun s (a ++ b) = match frun s a with Some s' => frun s' b | None => None end.
Proof. exact (run_app fstep s a b). Qed.

(* the processor labels of a flow trace *)
Fixpoint fproj (ls : list flabel) : list plabel :=
  match ls with
  | [] => []
  | FProc l :: r => l :: fproj r
  | _ :: r => fproj r
  end.

(* the ordered events taken from the stream along a flow trace, in order *)
Definition ftaken (ls : list flabel) : list pev := taken (fproj ls).

Lemma fproj_flat ls : fproj ls = flat_map (fun l => match l with FProc pl => [pl] | _ => [] end) ls.
Proof. induction ls as [|[] r IH]; cbn [fproj flat_map app]; congruence. Qed.

Lemma fproj_app a b : fproj (a ++ b) = fproj a ++ fproj b.
Proof. rewrite !fproj_flat. apply flat_map_app. Qed.

Lemma In_fproj l ls : In l (fproj ls) <-> In (FProc l) ls.
Proof.
  induction ls as [|x r IH]; cbn [fproj In]; [tauto|].
  destruct x; cbn [In]; rewrite IH; intuition congruence.
Qed.

Lemma In_ftaken e ls : In e (ftaken ls) <-> ordered e = true /\ exists start, In (FProc (PTake e start)) ls.
Proof.
  unfold ftaken. rewrite In_taken. split; intros [Ho [start H]]; (split; [exact Ho|exists start]); apply In_fproj; exact H.
Qed.

Lemma fstep_proc s l s' : fstep s l = Some s' ->
  sync_out s' = sync_out s /\
  match l with FProc pl => pstep (proc s) pl = Some (proc s') | _ => proc s' = proc s end.
Proof.
  destruct l as [pl|e|e]; cbn [fstep]; intros H; step_split H; injection H as <-; split; reflexivity.
Qed.

Lemma frun_proc ls : forall s s', frun s ls = Some s' -> prun (proc s) (fproj ls) = Some (proc s').
Proof.
  rewrite fproj_flat. apply (run_sim fstep pstep proc). intros s l s' E. destruct (fstep_proc _ _ _ E) as [_ Hp].
  destruct l; cbn [run]; rewrite Hp; reflexivity.
Qed.

(* what a processor step adds to the history of ordered events handed to the output: the [newout] of [fstep] *)
Lemma pstep_new_out p pl p' : pstep p pl = Some p' ->
  filter ordered (rev (outs p')) =
  filter ordered (rev (outs p)) ++
  match pl with
  | POut _ => match stack p with f :: _ => if ordered (fev f) then [fev f] else [] | [] => [] end
  | _ => []
  end.
Proof.
  intros H. apply pstep_inv in H as [_ H]. destruct H; cbn [set_stack set_held outs]; rewrite ?app_nil_r; try reflexivity.
  rewrite E. cbn [rev]. rewrite filter_app. reflexivity.
Qed.

Record finv (s : fst_) : Prop := {
  fi_proc : pinv (proc s);
  fi_split : filter ordered (rev (outs (proc s))) = rev (commits s) ++ addq s ++ outq s;
  fi_sync : sync_out s = true -> addq s = []
}.

Lemma finv_init n sync : finv (finit n sync).
Proof. split; cbn; [apply pinv_init|reflexivity|reflexivity]. Qed.

(* the FIFO guard of Add and Commit: the head of the queue carries the label's sequence number *)
Lemma pop_head {A} (q : list pev) (e : pev) (k : pev -> list pev -> A) (y : A) :
  match q with x :: r => if pseq x =? pseq e then Some (k x r) else None | [] => None end = Some y ->
  exists x r, q = x :: r /\ pseq x = pseq e /\ y = k x r.
Proof.
  destruct q as [|x r]; [discriminate|]. destruct (Z.eqb_spec (pseq x) (pseq e)); [|discriminate].
  intros H; injection H as <-. eauto.
Qed.

Lemma finv_step s l s' : finv s -> fstep s l = Some s' -> finv s'.
Proof.
  intros [Hp Hsplit Hsync] Hstep.
  destruct l as [pl|e|e]; cbn [fstep] in Hstep.
  - destruct (pstep (proc s) pl) as [p'|] eqn:E; [|discriminate]. injection Hstep as <-.
    split; cbn [proc outq addq commits sync_out]; [exact (pinv_step _ _ _ Hp E)| |exact Hsync].
    rewrite (pstep_new_out _ _ _ E), Hsplit, <- !app_assoc. reflexivity.
  - destruct (negb _); [injection Hstep as <-; split; assumption|].
    destruct (sync_out s) eqn:Es; [discriminate|]. apply pop_head in Hstep as (x & r & Eq & _ & ->).
    split; cbn [proc outq addq commits sync_out]; [exact Hp| |congruence].
    rewrite Hsplit, Eq, <- !app_assoc. reflexivity.
  - destruct (sync_out s) eqn:Es; apply pop_head in Hstep as (x & r & Eq & _ & ->);
      split; cbn [proc outq addq commits sync_out rev]; try assumption; try congruence;
      rewrite Hsplit, Eq, ?(Hsync eq_refl), <- !app_assoc; reflexivity.
Qed.

Lemma finv_reachable n sync ls s : frun (finit n sync) ls = Some s -> finv s.
Proof. apply (run_invariant fstep finv); [exact finv_step|apply finv_init]. Qed.

Lemma split_sorted s : finv s -> StronglySorted Z.lt (map pseq (rev (commits s) ++ addq s ++ outq s)).
Proof. intros [[_ Hord] Hsplit _]. rewrite <- Hsplit. exact (outs_sorted _ Hord). Qed.

Lemma sorted_app_l (l1 l2 : list Z) : StronglySorted Z.lt (l1 ++ l2) -> StronglySorted Z.lt l1.
Proof. intros H. apply sorted_app in H. tauto. Qed.

Lemma sorted_nodup (l : list Z) : StronglySorted Z.lt l -> NoDup l.
Proof.
  induction 1 as [|x l Hs IH Hall]; constructor; [|exact IH].
  intros Hin. rewrite Forall_forall in Hall. specialize (Hall _ Hin). lia.
Qed.

Lemma split_members s : finv s -> forall x, In x (commits s ++ addq s ++ outq s) ->
  ordered x = true /\ In x (outs (proc s)).
Proof.
  intros Hinv x Hin.
  assert (Hin' : In x (filter ordered (rev (outs (proc s))))).
  { rewrite (fi_split _ Hinv). apply in_app_or in Hin. apply in_or_app. destruct Hin as [Hin|Hin]; [left|right; exact Hin].
    apply -> in_rev. exact Hin. }
  apply filter_In in Hin' as [Hin' Ho]. split; [exact Ho|]. apply in_rev. exact Hin'.
Qed.

(* every place an accepted event of the stream can be *)
Definition fplaces (s : fst_) : list pev :=
  commits s ++ addq s ++ outq s ++ dropped (proc s) ++ map snd (held (proc s)) ++ map fev (stack (proc s)).

(* the queues and the commit history hold the ordered events of [outs], each as often *)
Lemma fplaces_cnt s : finv s -> forall e, ordered e = true -> cnt (fplaces s) e = cnt (places (proc s)) e.
Proof.
  intros Hinv e He. unfold fplaces, places.
  assert (H : cnt (outs (proc s)) e = cnt (commits s ++ addq s ++ outq s) e).
  { rewrite <- (count_occ_rev _ (outs (proc s))).
    pose proof (cnt_filter ordered (rev (outs (proc s))) e) as Hf. rewrite He in Hf. rewrite <- Hf, (fi_split _ Hinv).
    rewrite !count_occ_app, count_occ_rev. reflexivity. }
  rewrite !count_occ_app in *. lia.
Qed.

Lemma fconservation_cnt n sync ls s : frun (finit n sync) ls = Some s -> accounts (fplaces s) (fproj ls).
Proof.
  intros H. pose proof (finv_reachable _ _ _ _ H) as Hinv. apply frun_proc in H. cbn [finit proc] in H.
  destruct (conservation_cnt _ _ _ H) as [Hnd Hc]. split; [exact Hnd|].
  intros e He. rewrite (fplaces_cnt _ Hinv e He). apply Hc; exact He.
Qed.

(* a commit takes the oldest event handed to the output and not yet committed *)
Lemma fcommit_inv s e s' : finv s -> fstep s (FCommit e) = Some s' ->
  exists x rest, pseq x = pseq e /\ commits s' = x :: commits s /\ proc s' = proc s /\ addq s ++ outq s = x :: rest.
Proof.
  intros Hinv H. cbn [fstep] in H.
  destruct (sync_out s) eqn:Es; apply pop_head in H as (x & r & Eq & Ex & ->); cbn [proc commits];
    rewrite Eq, ?(fi_sync _ Hinv Es); cbn [app]; exists x; eexists; auto.
Qed.

(* in a list in read order, what is older than x stands before x *)
Lemma sorted_before (A B : list pev) x y :
  StronglySorted Z.lt (map pseq (A ++ x :: B)) -> In y (A ++ x :: B) -> pseq y < pseq x -> In y A.
Proof.
  rewrite map_app. intros Hs Hy Hlt. apply sorted_app in Hs as (_ & Hs & _). cbn [map] in Hs.
  inversion Hs as [|? ? _ Hall]; subst. rewrite Forall_forall in Hall.
  apply in_app_or in Hy as [Hy|[<-|Hy]]; [exact Hy|lia|]. specialize (Hall _ (in_map pseq _ _ Hy)). lia.
Qed.

(* when a commit is accepted, every older event taken from the stream is committed or was dropped *)
Lemma frontier n sync ls s e s' : frun (finit n sync) ls = Some s ->
  fstep s (FCommit e) = Some s' ->
  exists e', commits s' = e' :: commits s /\ pseq e' = pseq e /\
    forall x, In x (ftaken ls) -> pseq x < pseq e' -> In x (commits s') \/ In x (dropped (proc s')).
Proof.
  intros Hrun Hc. pose proof (finv_reachable _ _ _ _ Hrun) as Hinv.
  destruct (fcommit_inv _ _ _ Hinv Hc) as (x & rest & Hx & Hcm & Hp & Hq).
  exists x. split; [exact Hcm|]. split; [exact Hx|]. intros y Hy Hlt. rewrite Hcm, Hp.
  pose proof (proj1 (In_ftaken _ _) Hy) as [Hoy _].
  (* x is out, and y is in one of the places of the processor *)
  destruct (split_members _ Hinv x) as [Hox Hxout]; [rewrite Hq, !in_app_iff; cbn [In]; auto|].
  assert (Hyp : In y (places (proc s))).
  { apply frun_proc, conservation_cnt, accounts_perm in Hrun.
    eapply Permutation_in, filter_In in Hy; [apply Hy|symmetry; exact Hrun]. }
  destruct (older_than_out _ x y (pi_ord _ (fi_proc _ Hinv)) Hxout Hox Hyp Hoy Hlt) as [Hyo|Hyd]; [left|right; exact Hyd].
  (* handed to the output: before x in the history, hence committed *)
  right. apply in_rev. apply (sorted_before _ rest x); [| |exact Hlt]; rewrite <- Hq.
  - apply split_sorted, Hinv.
  - rewrite <- (fi_split _ Hinv). apply filter_In. split; [apply -> in_rev; exact Hyo|exact Hoy].
Qed.

(* necessity of guard F0 of [fstep]: the model that accepts Batcher.Add
   for a synchronous output loses the split and the frontier *)
Definition fstep_noF0 (s : fst_) (l : flabel) : option fst_ :=
  match l with
  | FAdd e =>
      if negb (Model.StreamFlow.ordered e) then Some s else
      match outq s with
      | x :: r => if pseq x =? pseq e
                  then Some {| proc := proc s; outq := r; addq := addq s ++ [x]; commits := commits s; sync_out := sync_out s |}
                  else None
      | [] => None
      end
  | _ => fstep s l
  end.

Fixpoint frun_noF0 (s : fst_) (ls : list flabel) : option fst_ :=
  match ls with
  | [] => Some s
  | l :: r => match fstep_noF0 s l with Some s' => frun_noF0 s' r | None => None end
  end.

(* synchronous output, no action: e1 and e2 are handed to the output, e1 is "added", e2 is committed *)
Definition w_sync_add : list flabel :=
  [FProc (PTake (ev 1 0) 0); FProc (POut (ev 1 0)); FProc (PTake (ev 2 0) 0); FProc (POut (ev 2 0));
   FAdd (ev 1 0); FCommit (ev 2 0)].
