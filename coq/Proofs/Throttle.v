(* Proofs about Model/Throttle.v: the ring of buckets refines never-reset per-id counters; every
   decision is "cell total within cell limit"; count / size / distribution bounds; keys independent. *)
From Verif Require Import Base.Sx Base.GoSem Model.Throttle Proofs.GoSemFacts Proofs.ListFacts.
From Coq Require Import Lia ZifyBool.

Lemma idx_ok {A} (l : list A) (i : Z) (d : A) :
  0 <= i < len l -> idx l i = Ok (nth (Z.to_nat i) l d).
Proof.
  intros Hi. destruct (idx_ok_ex l i Hi) as [x E]. rewrite E.
  apply idx_inv in E. rewrite (nth_error_nth _ _ d (proj2 E)). reflexivity.
Qed.

Lemma idx_panic {A} (l : list A) (i : Z) : ~ (0 <= i < len l) -> idx l i = Panic 2.
Proof. intros Hi. unfold idx. replace ((0 <=? i) && (i <? len l)) with false by lia. reflexivity. Qed.

Lemma nth_splice {A} (x d : A) : forall n l k, (n < length l)%nat ->
  nth k (firstn n l ++ x :: skipn (S n) l) d = if (k =? n)%nat then x else nth k l d.
Proof.
  induction n as [|n IH]; intros [|y l] k Hn; cbn [length] in Hn; try lia.
  - destruct k; reflexivity.
  - destruct k as [|k]; [reflexivity|]. apply (IH l k). lia.
Qed.

Lemma upd_ok {A} (l : list A) (i : Z) (x : A) :
  0 <= i < len l ->
  exists l', upd l i x = Ok l' /\ length l' = length l /\
    forall k d, 0 <= k -> nth (Z.to_nat k) l' d = if k =? i then x else nth (Z.to_nat k) l d.
Proof.
  intros Hi. unfold upd. replace ((0 <=? i) && (i <? len l)) with true by lia. unfold len in Hi.
  eexists. split; [reflexivity|]. split.
  - rewrite app_length, firstn_length. cbn [length]. rewrite skipn_length. lia.
  - intros k d Hk. rewrite nth_splice by lia.
    destruct (Z.eqb_spec k i) as [->|Hne]; [rewrite Nat.eqb_refl; reflexivity|].
    destruct (Nat.eqb_spec (Z.to_nat k) (Z.to_nat i)); [lia|reflexivity].
Qed.

Lemma nth_skipn {A} (l : list A) (n k : nat) (d : A) : nth k (skipn n l) d = nth (n + k) l d.
Proof.
  revert l. induction n as [|n IH]; intros l; [reflexivity|].
  destruct l as [|x l]; [destruct k; reflexivity|]. apply IH.
Qed.

Lemma nth_zero_row (row : list Z) (n : nat) : nth n (map (fun _ => 0) row) 0 = 0.
Proof. exact (map_nth (fun _ => 0) row 0 n). Qed.

Definition cellr (b : list (list Z)) (i j : Z) : Z := nth (Z.to_nat j) (nth (Z.to_nat i) b []) 0.

Definition wf_ring (n m : nat) (b : list (list Z)) : Prop :=
  length b = n /\ Forall (fun row => length row = m) b.

Lemma wf_ring_row n m b i : wf_ring n m b -> (i < n)%nat -> length (nth i b []) = m.
Proof. intros [Hn Hf] Hi. apply Forall_nth; [exact Hf|lia]. Qed.

Lemma get_ok n m b i j :
  wf_ring n m b -> 0 <= i < Z.of_nat n -> 0 <= j < Z.of_nat m -> get b i j = Ok (cellr b i j).
Proof.
  intros Hwf Hi Hj. unfold get, cellr.
  rewrite (idx_ok b i []) by (unfold len; destruct Hwf as [-> _]; lia). cbn [bind].
  apply idx_ok. unfold len. rewrite (wf_ring_row n m) by (auto; lia). lia.
Qed.

(* every write to the ring replaces one row by a row of the same length *)
Lemma ring_upd n m b i row :
  wf_ring n m b -> 0 <= i < Z.of_nat n -> length row = m ->
  exists b', upd b i row = Ok b' /\ wf_ring n m b' /\
    forall i', 0 <= i' -> nth (Z.to_nat i') b' [] = if i' =? i then row else nth (Z.to_nat i') b [].
Proof.
  intros [Hn Hf] Hi Hrow. destruct (upd_ok b i row) as (b' & E & Hlen & Hnth); [unfold len; lia|].
  exists b'. split; [exact E|]. split; [split; [lia|]|intros i'; apply Hnth].
  apply Forall_nth. intros k d Hk. specialize (Hnth (Z.of_nat k) d (Nat2Z.is_nonneg k)). rewrite Nat2Z.id in Hnth.
  rewrite Hnth. destruct (Z.of_nat k =? i); [exact Hrow|]. apply Forall_nth; [exact Hf|lia].
Qed.

Lemma add_ok n m b i j v :
  wf_ring n m b -> 0 <= i < Z.of_nat n -> 0 <= j < Z.of_nat m ->
  exists b', add b i j v = Ok b' /\ wf_ring n m b' /\
    forall i' j', 0 <= i' -> 0 <= j' ->
      cellr b' i' j' = (if (i =? i') && (j =? j') then v else 0) + cellr b i' j'.
Proof.
  intros Hwf Hi Hj. unfold add.
  rewrite (idx_ok b i []) by (destruct Hwf; unfold len; lia). cbn [bind].
  assert (Hrow : length (nth (Z.to_nat i) b []) = m) by (apply (wf_ring_row n m); [exact Hwf|lia]).
  rewrite (idx_ok _ j 0) by (unfold len; lia). cbn [bind]. fold (cellr b i j).
  destruct (upd_ok (nth (Z.to_nat i) b []) j (cellr b i j + v)) as (row' & E & Hlen & Hnth); [unfold len; lia|].
  rewrite E. cbn [bind].
  destruct (ring_upd n m b i row' Hwf Hi) as (b' & E' & Hwf' & Hrows); [lia|].
  exists b'. split; [exact E'|]. split; [exact Hwf'|].
  intros i' j' Hi' Hj'. unfold cellr at 1. rewrite Hrows by exact Hi'. rewrite (Z.eqb_sym i i'), (Z.eqb_sym j j').
  destruct (Z.eqb_spec i' i) as [->|_]; [|reflexivity]. rewrite Hnth by exact Hj'. fold (cellr b i j').
  destruct (Z.eqb_spec j' j) as [->|_]; cbn [andb]; lia.
Qed.

Lemma reset_fn_ok n m b k :
  wf_ring n m b -> 0 <= k <= Z.of_nat n ->
  exists b', reset_fn k b = Ok b' /\ wf_ring n m b' /\
    forall i j, 0 <= i < Z.of_nat n ->
      cellr b' i j = if i <? Z.of_nat n - k then cellr b (i + k) j else 0.
Proof.
  intros [Hn Hf] Hk. unfold reset_fn.
  rewrite slice_from_ok, slice_to_ok by (unfold len; lia). cbn [bind].
  eexists. split; [reflexivity|]. split.
  - split.
    + rewrite app_length, map_length, Nat.add_comm, <- app_length, firstn_skipn. exact Hn.
    + rewrite <- (firstn_skipn (Z.to_nat k) b) in Hf. apply Forall_app in Hf. destruct Hf as [Hhead Htail].
      apply Forall_app. split; [exact Htail|]. apply Forall_map.
      eapply Forall_impl; [|exact Hhead]. intros row Hrow. rewrite map_length. exact Hrow.
  - intros i j Hi. unfold cellr.
    destruct (Z.ltb_spec i (Z.of_nat n - k)) as [Hlt|Hge].
    + rewrite app_nth1 by (rewrite skipn_length; lia).
      rewrite nth_skipn. do 2 f_equal. lia.
    + rewrite app_nth2 by (rewrite skipn_length; lia).
      change (@nil Z) with (map (fun _ : Z => 0) []). rewrite map_nth. apply nth_zero_row.
Qed.

Definition wf_lim (c : cfg) (l : lim) : Prop := wf_ring (Z.to_nat (count c)) (nslots c) (ring l).

Lemma cell_cellr l id slot : cell l id slot = cellr (ring l) (id - minID l) slot.
Proof. reflexivity. Qed.

Definition hist_bounded (c : cfg) (hi : Z) (h : list charge) : Prop :=
  forall x, In x h -> c_id x <= hi /\ 0 <= c_slot x < Z.of_nat (nslots c).

(* the invariant of the runs (allow_R, lrun_R): fresh, or [live] (below) at s_hi s over s_hist s.  It is Model's [refines] with the
   last conjunct replaced by hist_bounded, which bounds the slots too; that conjunct follows by ctr_above (R_refines) *)
Inductive R (c : cfg) (l : lim) (s : spec) : Prop :=
| R_fresh : s_hi s = None -> s_hist s = [] -> l = lim0 c -> R c l s
| R_live (hi : Z) :
    s_hi s = Some hi -> maxID l = hi -> minID l = hi - count c + 1 -> 0 < minID l -> wf_lim c l ->
    (forall id slot, minID l <= id <= hi -> 0 <= slot < Z.of_nat (nslots c) ->
                     cell l id slot = ctr (s_hist s) id slot) ->
    hist_bounded c hi (s_hist s) -> R c l s.

(* a limiter whose window ends at bucket id [hi] holds the totals of history [h] *)
Record live (c : cfg) (l : lim) (hi : Z) (h : list charge) : Prop := {
  live_max : maxID l = hi;
  live_min : minID l = hi - count c + 1;
  live_pos : 0 < minID l;
  live_wf : wf_lim c l;
  live_cell : forall id slot, minID l <= id <= hi -> 0 <= slot < Z.of_nat (nslots c) ->
                              cell l id slot = ctr h id slot;
  live_hist : hist_bounded c hi h }.

Lemma live_R c l hi h : live c l hi h -> R c l {| s_hi := Some hi; s_hist := h |}.
Proof. intros []. apply (R_live _ _ _ hi); auto. Qed.

Lemma ctr_above c hi h id slot : hist_bounded c hi h -> hi < id -> ctr h id slot = 0.
Proof.
  induction h as [|x r IH]; intros Hb Hid; cbn [ctr]; [reflexivity|].
  rewrite IH by (auto; intros y Hy; apply Hb; right; exact Hy).
  destruct (Hb x (or_introl eq_refl)) as [Hx _].
  unfold in_cell. replace (c_id x =? id) with false by lia. reflexivity.
Qed.

Lemma hist_bounded_mono c hi hi' h : hist_bounded c hi h -> hi <= hi' -> hist_bounded c hi' h.
Proof. intros Hb Hle x Hx. destruct (Hb x Hx). lia. Qed.

Lemma hist_bounded_cons c hi h x :
  hist_bounded c hi h -> c_id x <= hi -> 0 <= c_slot x < Z.of_nat (nslots c) -> hist_bounded c hi (x :: h).
Proof. intros Hb Hid Hslot y [<-|Hy]; [split; assumption|exact (Hb y Hy)]. Qed.

Lemma wf_ring_zeros n m : wf_ring n m (repeat (zeros m) n).
Proof.
  split; [apply repeat_length|]. apply Forall_forall. intros row Hrow.
  apply repeat_spec in Hrow. subst row. apply repeat_length.
Qed.

Lemma cellr_zeros n m i j : cellr (repeat (zeros m) n) i j = 0.
Proof.
  unfold cellr. destruct (Nat.lt_ge_cases (Z.to_nat i) n) as [H|H].
  - rewrite (nth_indep _ [] (zeros m)) by (rewrite repeat_length; exact H). rewrite nth_repeat. apply nth_repeat.
  - rewrite (nth_overflow (repeat _ _)) by (rewrite repeat_length; exact H). destruct (Z.to_nat j); reflexivity.
Qed.

Lemma rebuild_eid c mn mx ts :
  mn = mx - count c + 1 ->
  (if (time_to_id c ts <? mn) || (time_to_id c ts >? mx) then mx else time_to_id c ts) = s_eid c mx ts.
Proof.
  intros ->. unfold s_eid. set (id := time_to_id c ts).
  replace ((id <? mx - count c + 1) || (id >? mx)) with (negb ((mx - count c + 1 <=? id) && (id <=? mx))) by lia.
  destruct (_ && _); reflexivity.
Qed.

(* rebuildBuckets on a limiter in use: the window slides up to the clock's bucket, never back *)
Lemma rebuild_live c l hi h now ts :
  1 <= count c -> live c l hi h ->
  exists l2, rebuild c now ts l = Ok (l2, s_eid c (Z.max hi (time_to_id c now)) ts) /\
             live c l2 (Z.max hi (time_to_id c now)) h.
Proof.
  intros Hc [Hmax Hmin Hpos Hwf Hcell Hb]. unfold rebuild.
  replace (minID l =? 0) with false by lia.
  replace (minID l + count c - 1) with hi by lia.
  set (cur := time_to_id c now).
  destruct (Z.gtb_spec cur hi) as [Hgt|Hle].
  - destruct (reset_fn_ok _ _ (ring l) (Z.min (cur - hi) (count c)) Hwf) as (b' & E & Hwf' & Hcells); [lia|].
    rewrite E. cbn [bind minID maxID]. replace (Z.max hi cur) with cur by lia.
    eexists. split; [f_equal; f_equal; apply rebuild_eid; lia|].
    constructor; cbn [minID maxID ring]; try lia; [exact Hwf'| |apply (hist_bounded_mono c hi); [exact Hb|lia]].
    intros id slot Hid Hslot. rewrite cell_cellr. cbn [ring minID]. rewrite Hcells by lia.
    destruct (Z.ltb_spec (id - (minID l + (cur - hi))) (Z.of_nat (Z.to_nat (count c)) - Z.min (cur - hi) (count c))).
    + rewrite <- Hcell by lia. rewrite cell_cellr. f_equal. lia.
    + symmetry. apply (ctr_above c hi); [exact Hb|lia].
  - replace (Z.max hi cur) with hi by lia. cbn [bind].
    exists l. split; [f_equal; f_equal; rewrite Hmax; apply rebuild_eid; lia|].
    constructor; assumption.
Qed.

(* on a fresh limiter the minID = 0 sentinel makes rebuildBuckets start the window at the clock's bucket *)
Lemma rebuild_R c l s now ts :
  wf_cfg c = true -> count c * interval c <= now -> R c l s ->
  exists l2, rebuild c now ts l = Ok (l2, s_eid c (s_window c s now) ts) /\
             live c l2 (s_window c s now) (s_hist s).
Proof.
  intros Hc Hnow HR. unfold wf_cfg in Hc. unfold s_window.
  assert (Hcur : count c <= time_to_id c now).
  { unfold time_to_id. rewrite Z.quot_div_nonneg by nia. apply Z.div_le_lower_bound; lia. }
  destruct HR as [-> -> ->|hi -> Hmax Hmin Hpos Hwf Hcell Hb].
  - set (cur := time_to_id c now) in *.
    set (l1 := {| minID := cur - count c + 1; maxID := cur; ring := ring (lim0 c) |}).
    assert (E : rebuild c now ts (lim0 c) = rebuild c now ts l1).
    { unfold rebuild. fold cur. cbn [lim0 minID Z.eqb l1]. replace (cur - count c + 1 =? 0) with false by lia. reflexivity. }
    rewrite E, <- (Z.max_id cur). apply rebuild_live; [lia|].
    constructor; cbn [l1 minID maxID]; try lia; [apply wf_ring_zeros| |intros x []].
    intros id slot _ _. rewrite cell_cellr. apply cellr_zeros.
  - apply rebuild_live; [lia|]. constructor; assumption.
Qed.

Lemma cell_limit_ne c slot : shares c <> [] ->
  cell_limit c slot = if slot =? 0 then deflimit c else nth (Z.to_nat (slot - 1)) (shares c) 0.
Proof. unfold cell_limit. destruct (shares c); [congruence|reflexivity]. Qed.

(* [ds] holds the limits of the slots i + 1, i + 2, ... *)
Definition lists (lim : Z -> Z) (i : Z) (ds : list Z) : Prop :=
  forall k, (k < length ds)%nat -> nth k ds 0 = lim (i + 1 + Z.of_nat k).

Lemma lists_cons lim i d ds : lists lim i (d :: ds) -> d = lim (i + 1) /\ lists lim (i + 1) ds.
Proof.
  intros H. split.
  - rewrite <- (Z.add_0_r (i + 1)). exact (H 0%nat (Nat.lt_0_succ _)).
  - intros k Hk. replace (i + 1 + 1 + Z.of_nat k) with (i + 1 + Z.of_nat (S k)) by lia.
    apply (H (S k)). cbn [length]. lia.
Qed.

Lemma lists_shares c : lists (cell_limit c) 0 (shares c).
Proof.
  intros k Hk. unfold cell_limit. destruct (shares c); [inversion Hk|].
  replace (0 + 1 + Z.of_nat k =? 0) with false by lia. f_equal. lia.
Qed.

(* the loop over the row of the ring is the loop over the counters [cv] the row holds, and the limit it
   carries along is the limit of the slot it carries *)
Lemma steal_spec lim row val cv : forall ds i md bi,
  lists lim i ds -> 0 <= i -> i + len ds < len row ->
  (forall j, 0 <= j < len row -> nth (Z.to_nat j) row 0 = cv j) ->
  steal row val ds i (md, bi, lim bi) =
  Ok (fst (s_steal cv val ds i (md, bi)), snd (s_steal cv val ds i (md, bi)), lim (snd (s_steal cv val ds i (md, bi)))).
Proof.
  induction ds as [|d ds IH]; intros i md bi Hds Hi Hlen Hcv; [reflexivity|].
  rewrite len_cons in Hlen. pose proof (len_nonneg ds).
  apply lists_cons in Hds. destruct Hds as [-> Hds].
  cbn [steal s_steal]. rewrite (idx_ok row (i + 1) 0), Hcv by lia. cbn [bind fst].
  destruct (lim (i + 1) - (cv (i + 1) + val) >? md); apply IH; auto; lia.
Qed.

(* [r] = (room, slot): no slot up to n has more room than r, which is the untouched start value or a
   slot with room *)
Definition is_best (room : Z -> Z) (n : Z) (r : Z * Z) : Prop :=
  (forall j, 1 <= j <= n -> room j <= fst r) /\
  (snd r = 0 /\ fst r = -1 \/ 1 <= snd r <= n /\ fst r = room (snd r) /\ 0 <= fst r).

Lemma s_steal_best lim cv val : forall ds i best,
  lists lim i ds -> 0 <= i ->
  is_best (fun j => lim j - (cv j + val)) i best ->
  is_best (fun j => lim j - (cv j + val)) (i + len ds) (s_steal cv val ds i best).
Proof.
  induction ds as [|d ds IH]; intros i best Hds Hi Hbest.
  - rewrite len_nil, Z.add_0_r. exact Hbest.
  - apply lists_cons in Hds. destruct Hds as [-> Hds].
    rewrite len_cons. replace (i + (len ds + 1)) with (i + 1 + len ds) by lia.
    cbn [s_steal]. apply IH; [exact Hds|lia|]. clear IH Hds.
    destruct Hbest as [Hall Hb].
    destruct (Z.gtb_spec (lim (i + 1) - (cv (i + 1) + val)) (fst best)) as [Hgt|Hle]; split; cbn [fst snd].
    + intros j Hj. destruct (Z.eq_dec j (i + 1)) as [->|Hne]; [lia|]. specialize (Hall j ltac:(lia)). lia.
    + right. lia.
    + intros j Hj. destruct (Z.eq_dec j (i + 1)) as [->|Hne]; [lia|]. apply Hall. lia.
    + destruct Hb as [Hb|Hb]; [left; exact Hb|right; lia].
Qed.

Lemma s_steal_shares c cv val :
  is_best (fun j => cell_limit c j - (cv j + val)) (len (shares c)) (s_steal cv val (shares c) 0 (-1, 0)).
Proof.
  apply (s_steal_best (cell_limit c) cv val (shares c) 0 (-1, 0) (lists_shares c)); [lia|].
  split; [intros j Hj; lia|left; split; reflexivity].
Qed.

Lemma s_slot_range c cv val o : dv_ok c o = true -> 0 <= s_slot c cv val (o_dv o) < Z.of_nat (nslots c).
Proof.
  intros Hdv. pose proof (s_steal_shares c cv val) as [_ Hbest]. unfold s_slot, dv_ok, nslots, len in *.
  destruct (shares c) as [|d0 ds]; [lia|]. destruct (o_dv o) as [i|]; [lia|].
  destruct (cv 0 + val <=? deflimit c); lia.
Qed.

(* getDistrData picks the slot and the limit the reference semantics prescribes *)
Lemma slot_R c l hi h eid val o :
  live c l hi h -> minID l <= eid <= hi -> dv_ok c o = true ->
  let slot := s_slot c (ctr h eid) val (o_dv o) in
  (match shares c with
   | [] => Ok (0, limit c)
   | _ :: _ => distr_data c (ring l) (eid - minID l) val (o_dv o)
   end) = Ok (slot, cell_limit c slot).
Proof.
  intros [Hmax Hmin Hpos Hwf Hcell Hb] Hid Hdv. specialize (Hcell eid). cbv zeta. unfold s_slot.
  destruct (shares c) as [|d0 ds] eqn:Esh.
  - unfold cell_limit. rewrite Esh. reflexivity.
  - rewrite <- Esh in *. assert (Hne : shares c <> []) by (rewrite Esh; discriminate).
    assert (Hn : Z.of_nat (nslots c) = len (shares c) + 1) by (unfold nslots, len; lia).
    pose proof (len_nonneg (shares c)). clear Esh.
    unfold distr_data, dv_ok in *. destruct (o_dv o) as [i|].
    + rewrite (idx_ok _ i 0) by lia. cbn [bind]. rewrite (cell_limit_ne c _ Hne).
      replace (i + 1 =? 0) with false by lia. replace (i + 1 - 1) with i by lia. reflexivity.
    + rewrite (get_ok _ _ _ _ _ Hwf) by lia.
      cbn [bind]. rewrite <- cell_cellr, Hcell by lia.
      rewrite <- (cell_limit_ne c 0 Hne : cell_limit c 0 = deflimit c).
      destruct (ctr h eid 0 + val <=? cell_limit c 0); [reflexivity|].
      rewrite (idx_ok _ _ []) by (destruct Hwf as [Hlen _]; unfold len; lia). cbn [bind].
      rewrite (steal_spec (cell_limit c) _ val (ctr h eid) (shares c) 0 (-1) 0 (lists_shares c)).
      * reflexivity.
      * lia.
      * unfold len at 2. rewrite (wf_ring_row _ _ _ _ Hwf) by lia. lia.
      * intros j Hj. unfold len in Hj. rewrite (wf_ring_row _ _ _ _ Hwf) in Hj by lia. apply Hcell; lia.
Qed.

Lemma s_eid_range c hi ts : 1 <= count c -> hi - count c + 1 <= s_eid c hi ts <= hi.
Proof.
  intros Hc. unfold s_eid.
  destruct ((hi - count c + 1 <=? time_to_id c ts) && (time_to_id c ts <=? hi)) eqn:E; lia.
Qed.

(* what the reference semantics books for op o in state s *)
Definition s_charge (c : cfg) (s : spec) (o : op) : charge :=
  let eid := s_eid c (s_window c s (o_now o)) (o_ts o) in
  let val := if size_kind c then o_size o else 1 in
  let slot := s_slot c (ctr (s_hist s) eid) val (o_dv o) in
  {| c_id := eid; c_slot := slot; c_val := val; c_pass := ctr (s_hist s) eid slot + val <=? cell_limit c slot |}.

Lemma s_step_eq c s o :
  s_step c s o =
  if limit c <? 0 then (s, true)
  else ({| s_hi := Some (s_window c s (o_now o)); s_hist := s_charge c s o :: s_hist s |}, c_pass (s_charge c s o)).
Proof. reflexivity. Qed.

Lemma s_step_nonneg c s o : 0 <= limit c ->
  s_step c s o =
  ({| s_hi := Some (s_window c s (o_now o)); s_hist := s_charge c s o :: s_hist s |}, c_pass (s_charge c s o)).
Proof. intros Hl. rewrite s_step_eq. replace (limit c <? 0) with false by lia. reflexivity. Qed.

Lemma eqb_shift a b m : (a - m =? b - m) = (a =? b).
Proof. lia. Qed.

(* buckets.add followed by buckets.get on a limiter in use: the charge is booked, the new total read *)
Lemma live_charge c l hi h x :
  live c l hi h -> minID l <= c_id x <= hi -> 0 <= c_slot x < Z.of_nat (nslots c) ->
  exists b, add (ring l) (c_id x - minID l) (c_slot x) (c_val x) = Ok b /\
            get b (c_id x - minID l) (c_slot x) = Ok (ctr h (c_id x) (c_slot x) + c_val x) /\
            live c {| minID := minID l; maxID := maxID l; ring := b |} hi (x :: h).
Proof.
  intros [Hmax Hmin Hpos Hwf Hcell Hb] Hid Hslot.
  destruct (add_ok _ _ (ring l) (c_id x - minID l) (c_slot x) (c_val x) Hwf) as (b & E & Hwf' & Hcells); [lia|lia|].
  assert (Hnew : forall id slot, minID l <= id <= hi -> 0 <= slot < Z.of_nat (nslots c) ->
                   cellr b (id - minID l) slot = ctr (x :: h) id slot).
  { intros id slot Hid' Hslot'. rewrite Hcells, <- cell_cellr, Hcell by lia. rewrite eqb_shift. reflexivity. }
  exists b. split; [exact E|]. split.
  - rewrite (get_ok _ _ _ _ _ Hwf') by lia. rewrite Hnew by lia. cbn [ctr]. unfold in_cell.
    rewrite !Z.eqb_refl. cbn [andb]. f_equal. lia.
  - constructor; cbn [minID maxID ring]; try assumption.
    apply hist_bounded_cons; [exact Hb|lia|exact Hslot].
Qed.

Lemma allow_R c l s o :
  wf_cfg c = true -> timed c o = true -> dv_ok c o = true -> R c l s ->
  exists l', allow c l (o_now o) (o_ts o) (o_size o) (o_dv o) = Ok (l', snd (s_step c s o)) /\
             R c l' (fst (s_step c s o)).
Proof.
  intros Hc Ht Hdv HR. unfold allow. rewrite s_step_eq.
  destruct (limit c <? 0); [exists l; split; [reflexivity|exact HR]|].
  unfold timed in Ht. assert (Hcnt : 1 <= count c) by (unfold wf_cfg in Hc; lia).
  destruct (rebuild_R c l s (o_now o) (o_ts o) Hc ltac:(lia) HR) as (l2 & E & Hlive). rewrite E. cbn [bind fst snd].
  assert (Hid : minID l2 <= s_eid c (s_window c s (o_now o)) (o_ts o) <= s_window c s (o_now o)).
  { rewrite (live_min _ _ _ _ Hlive). apply s_eid_range. exact Hcnt. }
  rewrite (slot_R c l2 _ _ _ _ o Hlive Hid Hdv). cbn [bind].
  destruct (live_charge c l2 _ _ (s_charge c s o) Hlive Hid (s_slot_range c _ _ o Hdv)) as (b & Eadd & Eget & Hlive').
  cbn [s_charge c_id c_slot c_val] in Eadd, Eget. rewrite Eadd. cbn [bind]. rewrite Eget. cbn [bind].
  eexists. split; [reflexivity|]. exact (live_R _ _ _ _ Hlive').
Qed.

Lemma s_run_cons c s o ops :
  s_run c s (o :: ops) =
  (fst (s_run c (fst (s_step c s o)) ops), snd (s_step c s o) :: snd (s_run c (fst (s_step c s o)) ops)).
Proof. cbn [s_run]. destruct (s_step c s o) as [s1 b]. cbn [fst snd]. destruct (s_run c s1 ops). reflexivity. Qed.

Lemma lrun_cons c l o ops l' b :
  allow c l (o_now o) (o_ts o) (o_size o) (o_dv o) = Ok (l', b) ->
  lrun c l (o :: ops) = (b :: fst (lrun c l' ops), snd (lrun c l' ops)).
Proof. intros H. cbn [lrun]. rewrite H. destruct (lrun c l' ops). reflexivity. Qed.

Lemma lrun_R c : forall ops l s,
  wf_cfg c = true -> well_timed c ops = true -> R c l s ->
  exists l', lrun c l ops = (snd (s_run c s ops), Ok l') /\ R c l' (fst (s_run c s ops)).
Proof.
  induction ops as [|o ops IH]; intros l s Hc Hw HR; [exists l; split; [reflexivity|exact HR]|].
  cbn [well_timed forallb] in Hw. apply andb_prop in Hw. destruct Hw as [Ho Hw].
  apply andb_prop in Ho. destruct Ho as [Ht Hdv].
  destruct (allow_R c l s o Hc Ht Hdv HR) as (l1 & Hal & HR1).
  destruct (IH l1 _ Hc Hw HR1) as (l' & Hrun & HR').
  exists l'. rewrite (lrun_cons _ _ _ _ _ _ Hal), s_run_cons, Hrun. split; [reflexivity|exact HR'].
Qed.

Lemma R_spec0 c : R c (lim0 c) spec0.
Proof. apply R_fresh; reflexivity. Qed.

Lemma R_refines c l s : R c l s -> refines c l s.
Proof.
  intros [Hhi Hh Hl|hi Hhi Hmax Hmin Hpos Hwf Hcell Hb]; unfold refines; rewrite Hhi.
  - split; assumption.
  - destruct Hwf as [Hn Hf]. repeat (split; [assumption|]). split.
    + intros id slot Hid Hs. apply Hcell; lia.
    + intros id slot Hid. apply (ctr_above c hi); [exact Hb|lia].
Qed.

Theorem ring_refines_map c ops :
  wf_cfg c = true -> well_timed c ops = true ->
  exists l, lrun c (lim0 c) ops = (snd (s_run c spec0 ops), Ok l) /\
            refines c l (fst (s_run c spec0 ops)).
Proof.
  intros Hc Hw. destruct (lrun_R c ops (lim0 c) spec0 Hc Hw (R_spec0 c)) as [l [Hrun HR]].
  exists l. split; [exact Hrun|]. apply R_refines. exact HR.
Qed.

Lemma s_run_hist c (P : list charge -> Prop) ops :
  Forall (fun o => forall s, P (s_hist s) -> P (s_charge c s o :: s_hist s)) ops ->
  forall s, P (s_hist s) -> P (s_hist (fst (s_run c s ops))).
Proof.
  induction 1 as [|o ops Ho _ IH]; intros s H; [exact H|].
  rewrite s_run_cons. apply IH. rewrite s_step_eq. destruct (limit c <? 0); [exact H|]. exact (Ho s H).
Qed.

Theorem decisions_exact c ops : hist_exact c (s_hist (fst (s_run c spec0 ops))).
Proof.
  apply (s_run_hist c (hist_exact c)); [|exact I].
  apply Forall_forall. intros o _ s H. split; [reflexivity|exact H].
Qed.

Lemma hist_vals_count c ops : size_kind c = false -> Forall (fun x => c_val x = 1) (hist_of c ops).
Proof.
  intros Hk. apply (s_run_hist c (Forall _)); [|constructor].
  apply Forall_forall. intros o _ s H. constructor; [|exact H]. cbn [s_charge c_val]. rewrite Hk. reflexivity.
Qed.

Lemma hist_vals_nonneg c ops :
  Forall (fun o => 0 <= o_size o) ops -> Forall (fun x => 0 <= c_val x) (hist_of c ops).
Proof.
  intros Hs. apply (s_run_hist c (Forall _)); [|constructor].
  eapply Forall_impl; [|exact Hs]. intros o Ho s H. constructor; [|exact H].
  cbn [s_charge c_val]. cbv beta in Ho. destruct (size_kind c); lia.
Qed.

Lemma hist_slots0 c ops : shares c = [] -> Forall (fun x => c_slot x = 0) (hist_of c ops).
Proof.
  intros Hsh. apply (s_run_hist c (Forall _)); [|constructor].
  apply Forall_forall. intros o _ s H. constructor; [|exact H]. cbn [s_charge c_slot]. unfold s_slot. rewrite Hsh. reflexivity.
Qed.

Lemma s_run_trace c : forall ops s, 0 <= limit c ->
  map c_id (rev (s_hist (fst (s_run c s ops)))) = map c_id (rev (s_hist s)) ++ eids_from c (s_hi s) ops /\
  map c_pass (rev (s_hist (fst (s_run c s ops)))) = map c_pass (rev (s_hist s)) ++ snd (s_run c s ops).
Proof.
  induction ops as [|o ops IH]; intros s Hl; [split; symmetry; apply app_nil_r|].
  rewrite s_run_cons. cbn [fst snd]. destruct (IH (fst (s_step c s o)) Hl) as [-> ->]. rewrite s_step_nonneg by exact Hl.
  cbn [fst snd s_hi s_hist rev]. rewrite !map_app, <- !app_assoc. split; reflexivity.
Qed.

Theorem effective_bucket c ops : 0 <= limit c ->
  map c_id (rev (s_hist (fst (s_run c spec0 ops)))) = eids_from c None ops.
Proof. intros Hl. rewrite (proj1 (s_run_trace c ops spec0 Hl)). reflexivity. Qed.

Lemma s_run_hi c : forall ops s, 0 <= limit c ->
  s_hi (fst (s_run c s ops)) =
  match ops with [] => s_hi s | o :: r => Some (max_cur c (s_window c s (o_now o)) r) end.
Proof.
  induction ops as [|o ops IH]; intros s Hl; [reflexivity|].
  rewrite s_run_cons. cbn [fst]. rewrite IH, s_step_nonneg by exact Hl. destruct ops; reflexivity.
Qed.

Lemma run_is_history c ops :
  wf_cfg c = true -> well_timed c ops = true -> 0 <= limit c ->
  exists l, lrun c (lim0 c) ops = (map c_pass (rev (hist_of c ops)), Ok l) /\
            map c_id (rev (hist_of c ops)) = eids_from c None ops.
Proof.
  intros Hc Hw Hl. destruct (ring_refines_map c ops Hc Hw) as [l [Hrun _]].
  exists l. split; [|apply effective_bucket; exact Hl].
  rewrite Hrun. f_equal. symmetry. exact (proj2 (s_run_trace c ops spec0 Hl)).
Qed.

Lemma eids_from_length c : forall ops hi, length (eids_from c hi ops) = length ops.
Proof. induction ops as [|o ops IH]; intros hi; [reflexivity|]. cbn [eids_from length]. rewrite IH. reflexivity. Qed.

Lemma zcount_cons {A} (f : A -> bool) x r : zcount f (x :: r) = (if f x then 1 else 0) + zcount f r.
Proof. unfold zcount. cbn [filter]. destruct (f x); [rewrite len_cons|]; lia. Qed.

Lemma zcount_nonneg {A} (f : A -> bool) l : 0 <= zcount f l.
Proof. apply len_nonneg. Qed.

Lemma zcount_rev {A} (f : A -> bool) l : zcount f (rev l) = zcount f l.
Proof. unfold zcount, len. rewrite filter_rev, rev_length. reflexivity. Qed.

Lemma zcount_map {A B} (f : B -> bool) (g : A -> B) l : zcount f (map g l) = zcount (fun x => f (g x)) l.
Proof. induction l as [|x l IH]; [reflexivity|]. cbn [map]. rewrite !zcount_cons, IH. reflexivity. Qed.

Lemma zcount_ext {A} (f g : A -> bool) l : Forall (fun x => f x = g x) l -> zcount f l = zcount g l.
Proof. intros H. unfold zcount. rewrite (filter_ext_in f g l); [reflexivity|]. apply Forall_forall. exact H. Qed.

Lemma in_cell_eq id slot x : in_cell id slot x = true -> c_id x = id /\ c_slot x = slot.
Proof. unfold in_cell. lia. Qed.

Lemma ctr_arrivals h id slot :
  Forall (fun x => c_val x = 1) h -> ctr h id slot = arrivals h id slot.
Proof.
  unfold arrivals. induction 1 as [|x r Hx _ IH]; [reflexivity|].
  cbn [ctr]. rewrite zcount_cons, IH, Hx. reflexivity.
Qed.

Lemma passes_count c h id slot :
  hist_exact c h -> Forall (fun x => c_val x = 1) h ->
  passes h id slot = Z.max 0 (Z.min (arrivals h id slot) (cell_limit c slot)).
Proof.
  intros He Hv. induction Hv as [|x r Hx Hr IH]; [change (0 = Z.max 0 (Z.min 0 (cell_limit c slot))); lia|].
  destruct He as [Hp He]. specialize (IH He). rewrite (ctr_arrivals r _ _ Hr), Hx in Hp.
  unfold passes, arrivals in *. rewrite !zcount_cons, IH.
  destruct (in_cell id slot x) eqn:Ecell; cbn [andb]; [|reflexivity].
  apply in_cell_eq in Ecell. destruct Ecell as [<- <-]. rewrite Hp.
  (* one more arrival in a cell that has seen a: it passes iff a is still below the limit *)
  pose proof (zcount_nonneg (in_cell (c_id x) (c_slot x)) r).
  destruct (Z.leb_spec (zcount (in_cell (c_id x) (c_slot x)) r + 1) (cell_limit c (c_slot x))); lia.
Qed.

Lemma passed_size_le_ctr h id slot :
  Forall (fun x => 0 <= c_val x) h -> passed_size h id slot <= ctr h id slot.
Proof.
  induction 1 as [|x r Hx _ IH]; cbn [passed_size ctr]; [lia|].
  destruct (in_cell id slot x); cbn [andb]; [destruct (c_pass x)|]; lia.
Qed.

Lemma passed_size_limit c h id slot :
  hist_exact c h -> Forall (fun x => 0 <= c_val x) h ->
  passed_size h id slot <= Z.max 0 (cell_limit c slot).
Proof.
  intros He Hv. induction Hv as [|x r Hx Hr IH]; cbn [passed_size]; [lia|].
  destruct He as [Hp He]. specialize (IH He). pose proof (passed_size_le_ctr r id slot Hr).
  destruct (in_cell id slot x) eqn:Ecell; cbn [andb]; [|lia].
  apply in_cell_eq in Ecell. destruct Ecell as [<- <-]. rewrite Hp.
  destruct (Z.leb_spec (ctr r (c_id x) (c_slot x) + c_val x) (cell_limit c (c_slot x))); lia.
Qed.

Theorem count_limit c ops :
  wf_cfg c = true -> well_timed c ops = true -> size_kind c = false -> 0 <= limit c ->
  exists l, lrun c (lim0 c) ops = (map c_pass (rev (hist_of c ops)), Ok l) /\
    map c_id (rev (hist_of c ops)) = eids_from c None ops /\
    forall id slot,
      passes (hist_of c ops) id slot = Z.max 0 (Z.min (arrivals (hist_of c ops) id slot) (cell_limit c slot)).
Proof.
  intros Hc Hw Hk Hl. destruct (run_is_history c ops Hc Hw Hl) as [l [Hrun He]].
  exists l. split; [exact Hrun|]. split; [exact He|]. intros id slot.
  apply passes_count; [apply decisions_exact|apply hist_vals_count; exact Hk].
Qed.

Theorem size_limit c ops :
  wf_cfg c = true -> well_timed c ops = true -> 0 <= limit c ->
  Forall (fun o => 0 <= o_size o) ops ->
  exists l, lrun c (lim0 c) ops = (map c_pass (rev (hist_of c ops)), Ok l) /\
    map c_id (rev (hist_of c ops)) = eids_from c None ops /\
    hist_exact c (hist_of c ops) /\
    forall id slot, passed_size (hist_of c ops) id slot <= Z.max 0 (cell_limit c slot).
Proof.
  intros Hc Hw Hl Hs. destruct (run_is_history c ops Hc Hw Hl) as [l [Hrun He]].
  exists l. split; [exact Hrun|]. split; [exact He|]. split; [apply decisions_exact|]. intros id slot.
  apply passed_size_limit; [apply decisions_exact|apply hist_vals_nonneg; exact Hs].
Qed.

Lemma count_pairs h id :
  Forall (fun x => c_slot x = 0) h ->
  arrivals h id 0 = arrivals_at (map c_id (rev h)) id /\
  passes h id 0 = passes_at (map c_id (rev h)) (map c_pass (rev h)) id.
Proof.
  intros Hs. unfold arrivals, arrivals_at, passes, passes_at.
  rewrite combine_map, !zcount_map, !zcount_rev.
  split; apply zcount_ext; (eapply Forall_impl; [|exact Hs]); intros x Hx; cbv beta in Hx;
    unfold in_cell; rewrite Hx; change (0 =? 0) with true; rewrite andb_true_r; reflexivity.
Qed.

Theorem count_limit_plain c ops :
  wf_cfg c = true -> well_timed c ops = true ->
  size_kind c = false -> shares c = [] -> 0 <= limit c ->
  exists ds l, lrun c (lim0 c) ops = (ds, Ok l) /\ length ds = length ops /\
    forall id, passes_at (eids_from c None ops) ds id = Z.min (arrivals_at (eids_from c None ops) id) (limit c).
Proof.
  intros Hc Hw Hk Hsh Hl. destruct (count_limit c ops Hc Hw Hk Hl) as (l & Hrun & He & Hcount).
  exists (map c_pass (rev (hist_of c ops))), l. split; [exact Hrun|]. split.
  - rewrite <- (eids_from_length c ops None), <- He, !map_length. reflexivity.
  - intros id. destruct (count_pairs (hist_of c ops) id (hist_slots0 c ops Hsh)) as [Ha Hp].
    rewrite <- He, <- Ha, <- Hp, Hcount. unfold cell_limit. rewrite Hsh.
    pose proof (zcount_nonneg (in_cell id 0) (hist_of c ops)). unfold arrivals. lia.
Qed.

Lemma sumZ_cons x l : sumZ (x :: l) = x + sumZ l.
Proof. reflexivity. Qed.

Lemma sumZ_app a b : sumZ (a ++ b) = sumZ a + sumZ b.
Proof. unfold sumZ. induction a as [|x a IH]; cbn [app fold_right]; lia. Qed.

Lemma sumZ_map_add {A} (f g : A -> Z) l : sumZ (map (fun j => f j + g j) l) = sumZ (map f l) + sumZ (map g l).
Proof. unfold sumZ. induction l as [|j l IH]; cbn [map fold_right]; lia. Qed.

Lemma sumZ_map_le {A} (f g : A -> Z) l : (forall j, f j <= g j) -> sumZ (map f l) <= sumZ (map g l).
Proof. intros H. unfold sumZ. induction l as [|j l IH]; cbn [map fold_right]; [lia|]. specialize (H j). lia. Qed.

(* one term of a sum over 0 .. n-1 *)
Lemma sumZ_indicator (s v : Z) : forall n : nat,
  sumZ (map (fun j => if s =? Z.of_nat j then v else 0) (seq 0 n)) = if (0 <=? s) && (s <? Z.of_nat n) then v else 0.
Proof.
  induction n as [|n IH]; [replace ((0 <=? s) && (s <? Z.of_nat 0)) with false by lia; reflexivity|].
  rewrite seq_S, map_app, sumZ_app, IH. cbn [map sumZ fold_right Nat.add].
  destruct (Z.eqb_spec s (Z.of_nat n)), (Z.leb_spec 0 s), (Z.ltb_spec s (Z.of_nat n)), (Z.ltb_spec s (Z.of_nat (S n)));
    cbn [andb]; lia.
Qed.

Lemma passed_id_slots h id (n : nat) :
  (forall x, In x h -> 0 <= c_slot x < Z.of_nat n) ->
  passed_size_id h id = sumZ (map (fun j => passed_size h id (Z.of_nat j)) (seq 0 n)).
Proof.
  induction h as [|x r IH]; intros Hs; cbn [passed_size_id passed_size].
  - induction (seq 0 n) as [|j l IHl]; [reflexivity|]. exact IHl.
  - rewrite sumZ_map_add, <- IH by (intros y Hy; apply Hs; right; exact Hy). f_equal.
    specialize (Hs x (or_introl eq_refl)). unfold in_cell, in_id.
    rewrite (map_ext _ (fun j => if c_slot x =? Z.of_nat j then (if (c_id x =? id) && c_pass x then c_val x else 0) else 0)).
    + rewrite sumZ_indicator. replace ((0 <=? c_slot x) && (c_slot x <? Z.of_nat n)) with true by lia. reflexivity.
    + intros j. destruct (c_slot x =? Z.of_nat j), (c_id x =? id); reflexivity.
Qed.

Lemma sum_nth (f : Z -> Z) (l : list Z) :
  sumZ (map (fun j => f (nth j l 0)) (seq 0 (length l))) = sumZ (map f l).
Proof.
  induction l as [|a l IH]; [reflexivity|].
  cbn [length]. rewrite <- cons_seq, <- seq_shift. cbn [map]. rewrite map_map. cbn [nth].
  rewrite !sumZ_cons, IH. reflexivity.
Qed.

Lemma cell_sum c : shares c <> [] ->
  sumZ (map (fun j => Z.max 0 (cell_limit c (Z.of_nat j))) (seq 0 (nslots c))) =
  Z.max 0 (deflimit c) + sumZ (map (Z.max 0) (shares c)).
Proof.
  intros Hne. unfold nslots. rewrite <- cons_seq, <- seq_shift. cbn [map]. rewrite map_map.
  rewrite <- (sum_nth (Z.max 0)), !(cell_limit_ne c _ Hne), sumZ_cons. do 2 f_equal.
  apply map_ext. intros j. rewrite (cell_limit_ne c _ Hne).
  replace (Z.of_nat (S j) =? 0) with false by lia.
  replace (Z.to_nat (Z.of_nat (S j) - 1)) with j by lia. reflexivity.
Qed.

Lemma distr_total c h id :
  hist_exact c h -> Forall (fun x => 0 <= c_val x) h ->
  (forall x, In x h -> 0 <= c_slot x < Z.of_nat (nslots c)) -> shares c <> [] ->
  passed_size_id h id <= Z.max 0 (deflimit c) + sumZ (map (Z.max 0) (shares c)).
Proof.
  intros He Hv Hs Hne. rewrite (passed_id_slots h id (nslots c) Hs), <- (cell_sum c Hne).
  apply sumZ_map_le. intros j. apply (passed_size_limit c h id _ He Hv).
Qed.

(* stealing is sound (only into a slot with room) and complete (rejected only if nothing has room) *)
Lemma s_charge_ok c s o : shares c <> [] -> charge_ok c o (s_hist s) (s_charge c s o).
Proof.
  intros Hne. unfold charge_ok, s_charge. cbn [c_slot c_pass c_id c_val].
  set (eid := s_eid c (s_window c s (o_now o)) (o_ts o)).
  set (val := if size_kind c then o_size o else 1).
  set (cv := ctr (s_hist s) eid).
  unfold s_slot. destruct (shares c) as [|d0 ds] eqn:Esh; [congruence|]. rewrite <- Esh in *. clear d0 ds Esh.
  destruct (o_dv o) as [i|]; [reflexivity|].
  assert (Hn : Z.of_nat (nslots c) = len (shares c) + 1) by (unfold nslots, len; lia).
  destruct (Z.leb_spec (cv 0 + val) (deflimit c)) as [Hroom|Hfull].
  - split; [|intros H; congruence].
    rewrite (cell_limit_ne c 0 Hne). cbn [Z.eqb]. lia.
  - destruct (s_steal_shares c cv val) as [Hall Hbest].
    set (r := s_steal cv val (shares c) 0 (-1, 0)) in *. split.
    + intros Hrej slot Hslot.
      destruct (Z.eq_dec slot 0) as [->|Hs0]; [rewrite (cell_limit_ne c 0 Hne); cbn [Z.eqb]; lia|].
      specialize (Hall slot ltac:(lia)). lia.
    + lia.
Qed.

Lemma s_run_attr c : forall ops s rops,
  0 <= limit c -> shares c <> [] -> hist_attr c rops (s_hist s) ->
  hist_attr c (rev ops ++ rops) (s_hist (fst (s_run c s ops))).
Proof.
  induction ops as [|o ops IH]; intros s rops Hl Hne H; [exact H|].
  rewrite s_run_cons. cbn [fst rev]. rewrite <- app_assoc. apply IH; [exact Hl|exact Hne|].
  rewrite s_step_nonneg by exact Hl. split; [apply s_charge_ok; exact Hne|exact H].
Qed.

Theorem distr_attribution c ops :
  0 <= limit c -> shares c <> [] -> hist_attr c (rev ops) (hist_of c ops).
Proof.
  intros Hl Hne. pose proof (s_run_attr c ops spec0 [] Hl Hne I) as H.
  rewrite app_nil_r in H. exact H.
Qed.

Lemma hist_slots_range c ops :
  well_timed c ops = true -> Forall (fun x => 0 <= c_slot x < Z.of_nat (nslots c)) (hist_of c ops).
Proof.
  intros Hw. apply (s_run_hist c (Forall _)); [|constructor].
  apply Forall_forall. intros o Ho s H. constructor; [|exact H]. apply s_slot_range.
  unfold well_timed in Hw. rewrite forallb_forall in Hw. specialize (Hw o Ho). lia.
Qed.

Theorem distr_shares c ops :
  wf_cfg c = true -> well_timed c ops = true -> 0 <= limit c -> shares c <> [] ->
  Forall (fun o => 0 <= o_size o) ops ->
  (forall id slot, passed_size (hist_of c ops) id slot <= Z.max 0 (cell_limit c slot)) /\
  (forall id, passed_size_id (hist_of c ops) id <= Z.max 0 (deflimit c) + sumZ (map (Z.max 0) (shares c))) /\
  hist_attr c (rev ops) (hist_of c ops).
Proof.
  intros Hc Hw Hl Hne Hs. pose proof (hist_vals_nonneg c ops Hs) as Hv.
  split; [|split].
  - intros id slot. apply passed_size_limit; [apply decisions_exact|exact Hv].
  - intros id. apply distr_total; [apply decisions_exact|exact Hv| |exact Hne].
    apply Forall_forall, hist_slots_range. exact Hw.
  - apply distr_attribution; assumption.
Qed.

Theorem window_closed_form c o ops :
  wf_cfg c = true -> well_timed c (o :: ops) = true -> 0 <= limit c ->
  exists ds l, lrun c (lim0 c) (o :: ops) = (ds, Ok l) /\
    maxID l = max_cur c (time_to_id c (o_now o)) ops /\ minID l = maxID l - count c + 1.
Proof.
  intros Hc Hw Hl. destruct (ring_refines_map c (o :: ops) Hc Hw) as [l [Hrun Href]].
  exists (snd (s_run c spec0 (o :: ops))), l. split; [exact Hrun|].
  unfold refines in Href. rewrite (s_run_hi c (o :: ops) spec0 Hl) in Href.
  destruct Href as [Hmax [Hmin _]]. unfold s_window in Hmax, Hmin. cbn [spec0 s_hi] in Hmax, Hmin. lia.
Qed.

Lemma a_get_set {A} (m : list (bytes * A)) k' k v :
  a_get (a_set m k' v) k = if bytes_eqb k' k then Some v else a_get m k.
Proof.
  induction m as [|[k0 v0] m IH]; cbn [a_set a_get]; [reflexivity|].
  destruct (bytes_eqb_spec k0 k') as [->|N]; cbn [a_get].
  - destruct (bytes_eqb k' k); reflexivity.
  - rewrite IH. destruct (bytes_eqb_spec k0 k), (bytes_eqb_spec k' k); congruence.
Qed.

(* the limiters map of the plugin is such an association list *)
Lemma lm_get_a m k : lm_get m k = a_get m k.
Proof. induction m as [|[k0 v0] m IH]; cbn [lm_get a_get]; [|rewrite IH]; reflexivity. Qed.

Lemma lm_set_a m k v : lm_set m k v = a_set m k v.
Proof. induction m as [|[k0 v0] m IH]; cbn [lm_set a_set]; [|rewrite IH]; reflexivity. Qed.

Lemma lm_get_set m k' k v : lm_get (lm_set m k' v) k = if bytes_eqb k' k then Some v else lm_get m k.
Proof. rewrite lm_set_a, !lm_get_a. apply a_get_set. Qed.

Definition ops_for (p : pcfg) (k : bytes) (es : list pev) : list op := map pev_op (filter (for_key p k) es).

Lemma ops_for_cons p k e es :
  ops_for p k (e :: es) = if for_key p k e then pev_op e :: ops_for p k es else ops_for p k es.
Proof. unfold ops_for. cbn [filter]. destruct (for_key p k e); reflexivity. Qed.

Lemma key_cfg_cons p k e es :
  key_cfg p k (e :: es) = if for_key p k e then ev_cfg p e else key_cfg p k es.
Proof. unfold key_cfg. cbn [filter]. destruct (for_key p k e); reflexivity. Qed.

(* what the theorem says of key k when its limiter, if it has one already, is x *)
Definition keyed (p : pcfg) (k : bytes) (x : option (cfg * lim)) (es : list pev) (ds : list bool) : Prop :=
  match x with
  | Some (c, l) => pick (for_key p k) es ds = fst (lrun c l (ops_for p k es))
  | None =>
      match key_cfg p k es with
      | Some c => pick (for_key p k) es ds = fst (lrun c (lim0 c) (ops_for p k es))
      | None => pick (for_key p k) es ds = []
      end
  end.

Lemma keyed_skip p k x e es b bs :
  for_key p k e = false -> keyed p k x es bs -> keyed p k x (e :: es) (b :: bs).
Proof.
  intros Hfk H. unfold keyed in *. cbn [pick]. rewrite ops_for_cons, key_cfg_cons, Hfk. exact H.
Qed.

Lemma keyed_hit p k x e es b bs c0 c l l' :
  for_key p k e = true -> ev_cfg p e = Some c0 ->
  match x with Some y => y | None => (c0, lim0 c0) end = (c, l) ->
  allow c l (e_now e) (e_ts e) (e_size e) None = Ok (l', b) ->
  keyed p k (Some (c, l')) es bs -> keyed p k x (e :: es) (b :: bs).
Proof.
  intros Hfk Hcfg Hfind Hal H. unfold keyed in *. cbn [pick]. rewrite ops_for_cons, key_cfg_cons, Hfk, Hcfg.
  destruct x as [[c1 l1]|]; injection Hfind as -> ->; rewrite (lrun_cons _ _ (pev_op e) _ _ _ Hal), H; reflexivity.
Qed.

Lemma keys_independent_gen p k : forall es m ds m',
  prun p m es = (ds, Ok m') -> keyed p k (lm_get m k) es ds.
Proof.
  induction es as [|e es IH]; intros m ds m' Hrun; cbn [prun] in Hrun.
  - injection Hrun as <- _. unfold keyed. destruct (lm_get m k) as [[c l]|]; reflexivity.
  - unfold pstep in Hrun.
    destruct (first_match (p_rules p) 0 (e_fields e)) as [[n r]|] eqn:Efm.
    + set (k' := lim_key n (throttle_key (e_fields e))) in *.
      assert (Hfk : for_key p k e = bytes_eqb k' k) by (unfold for_key, ev_key; rewrite Efm; reflexivity).
      assert (Hcfg : ev_cfg p e = Some (rule_cfg p r)) by (unfold ev_cfg; rewrite Efm; reflexivity).
      destruct (lm_find p m k' r) as [c l] eqn:Efind.
      destruct (allow c l (e_now e) (e_ts e) (e_size e) None) as [[l' b]| |] eqn:Eal; cbn [bind] in Hrun;
        try discriminate Hrun.
      destruct (prun p (lm_set m k' (c, l')) es) as [bs fin] eqn:Erest.
      injection Hrun as <- ->. specialize (IH _ _ _ Erest). rewrite lm_get_set in IH.
      destruct (bytes_eqb k' k) eqn:Ek.
      * apply bytes_eqb_eq in Ek. subst k. exact (keyed_hit p k' _ e es b bs _ c l l' Hfk Hcfg Efind Eal IH).
      * exact (keyed_skip p k _ e es b bs Hfk IH).
    + destruct (prun p m es) as [bs fin] eqn:Erest. injection Hrun as <- ->.
      apply keyed_skip; [unfold for_key, ev_key; rewrite Efm; reflexivity|exact (IH _ _ _ Erest)].
Qed.

Theorem keys_independent p es ds m' k :
  prun p [] es = (ds, Ok m') ->
  match key_cfg p k es with
  | Some c => pick (for_key p k) es ds = fst (lrun c (lim0 c) (ops_for p k es))
  | None => pick (for_key p k) es ds = []
  end.
Proof. intros H. exact (keys_independent_gen p k es [] ds m' H). Qed.

Lemma lim_key_inj n n' k k' :
  0 <= n < 256 -> 0 <= n' < 256 -> lim_key n k = lim_key n' k' -> n = n' /\ k = k'.
Proof.
  intros Hn Hn' H. unfold lim_key in H.
  remember (97 + n) as a eqn:Ea. remember (97 + n') as a' eqn:Ea'.
  injection H as H1 H2. split; [|exact H2].
  apply (f_equal Z.of_N) in H1.
  rewrite !Z2N.id in H1 by (apply Z.mod_pos_bound; lia).
  Z.div_mod_to_equations. lia.
Qed.

Lemma map_zero_wf n m (b : list (list Z)) :
  wf_ring n m b -> map (map (fun _ => 0)) b = repeat (zeros m) n.
Proof.
  intros [<- Hf]. induction Hf as [|row b <- _ IH]; [reflexivity|]. cbn [map length repeat]. rewrite IH. f_equal.
  clear. unfold zeros. induction row as [|x row IH]; [reflexivity|]. cbn [map length repeat]. rewrite IH. reflexivity.
Qed.

(* expiry: dropping a limiter that has been idle for a whole window changes nothing.  Stated on rebuild: for 0 <= limit c, allow
   reads nothing of the limiter but what rebuild returns; for limit c < 0 it answers true and returns its argument unchanged *)
Theorem expiry_transparent c l now ts :
  wf_cfg c = true -> wf_lim c l -> 0 < minID l -> maxID l = minID l + count c - 1 ->
  maxID l + count c <= time_to_id c now ->
  rebuild c now ts l = rebuild c now ts (lim0 c).
Proof.
  intros Hc Hwf Hpos Hmax Hidle. unfold wf_cfg in Hc. unfold rebuild.
  replace (minID l =? 0) with false by lia. cbn [lim0 minID maxID ring Z.eqb].
  set (cur := time_to_id c now) in *.
  replace (cur >? minID l + count c - 1) with true by lia.
  replace (cur >? cur - count c + 1 + count c - 1) with false by lia.
  replace (Z.min (cur - (minID l + count c - 1)) (count c)) with (count c) by lia.
  unfold reset_fn. pose proof Hwf as [Hn Hf].
  rewrite slice_from_ok, slice_to_ok by (unfold len; lia). cbn [bind].
  rewrite skipn_all2, firstn_all2 by lia. cbn [app minID maxID].
  rewrite (map_zero_wf _ _ _ Hwf).
  replace (minID l + (cur - (minID l + count c - 1))) with (cur - count c + 1) by lia.
  reflexivity.
Qed.

(* without the clock hypothesis the minID = 0 sentinel misfires: a clock inside the first window after
   the epoch makes minID 0 again, the next call re-initialises the ids WITHOUT rotating the ring *)
Definition c_small : cfg := {| count := 2; interval := 10; size_kind := false; limit := 1; deflimit := 0; shares := [] |}.
Definition mk (now ts size : Z) : op := {| o_now := now; o_ts := ts; o_size := size; o_dv := None |}.

Lemma sentinel_refuted :
  exists c ops, wf_cfg c = true /\ well_timed c ops = false /\
    fst (lrun c (lim0 c) ops) = [true; false] /\ snd (s_run c spec0 ops) = [true; true].
Proof. exists c_small, [mk 10 10 1; mk 20 20 1]. vm_compute. repeat split. Qed.

(* a limiter dropped after less than a window of idleness forgets buckets that are still retained:
   bucket 2 (limit 1) lets a second event through *)
Lemma short_expiry_refuted :
  exists c l o, lrun c (lim0 c) [mk 20 20 1] = ([true], Ok l) /\
    time_to_id c (o_now o) < maxID l + count c /\
    fst (lrun c l [o]) = [false] /\ fst (lrun c (lim0 c) [o]) = [true].
Proof.
  exists c_small. eexists. exists (mk 30 25 1). split; [vm_compute; reflexivity|].
  vm_compute. repeat split.
Qed.

(* size kind: rejected events are charged too, so after one oversized event the bucket stays closed
   although nothing has passed and the next event alone would fit *)
Lemma size_rejected_are_charged :
  exists c ops, wf_cfg c = true /\ well_timed c ops = true /\
    fst (lrun c (lim0 c) ops) = [false; false] /\
    passed_size (hist_of c ops) 2 0 = 0 /\ 0 + 1 <= limit c.
Proof.
  exists {| count := 2; interval := 10; size_kind := true; limit := 10; deflimit := 0; shares := [] |},
         [mk 20 20 100; mk 20 20 1].
  vm_compute. repeat split; congruence.
Qed.
