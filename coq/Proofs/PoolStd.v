(* The standard event pool (eventPool of pipeline/event.go).  The invariant [sinv] of [sstep] is three invariants, none of
   which needs another - A the two-flag protocol of a slot, B where the event objects are, C the counters - each proved from
   a frame lemma and one lemma per kind of label that touches it; what is read off them, each from the groups it needs (held
   <= capacity from B and C, counters zero when idle and a sleeper counted from C, take and back() alternate per object from
   B); and the four tick labels as the heartbeat goroutine of Pool.v, hence [std_no_stuck_waiter]. *)
From Verif Require Import Base.Sx Model.Pool Proofs.ListFacts Proofs.Pool.
From Coq Require Import Lia Bool List ZArith.
Import ListNotations.
Local Open Scope Z_scope.

(* who is in the middle of an operation on slot x *)
Definition own_g (x : Z) (p : gpc) : bool := match p with GTook x' | GTaken x' => x =? x' | _ => false end.
Definition own_b (x : Z) (p : bpc) : bool := match p with BWon y | BPut y => x =? y | _ => false end.

Lemma gwake_idle : gwake GIdle = GIdle. Proof. reflexivity. Qed.

(* a state after a step, in terms of fget / fset on the components of the state before *)
Ltac sst_unfold :=
  unfold gpc_of, bpc_of, slot_of, sset_g, sset_b, sset_slot, sset_lock, sset_waiters, sset_inuse, sset_holders,
         sset_tick, sset_pend, sbcast, sbroadcast in *;
  cbn [s_slots s_getc s_backc s_inuse s_waiters s_lock s_gthr s_bthr s_holders s_pdec s_pbc s_tick supd] in *.

(* Opens a step along the branch that returned Some, with its guards as propositions.  Ep is the guard on the pc of the
   getter or back() call that the label names. *)
Ltac sstep_open H :=
  unfold sstep in H; step_split H; injection H as <-; bnorm; subst;
  try match goal with E : gpc_of _ _ = _ |- _ => rename E into Ep | E : bpc_of _ _ = _ |- _ => rename E into Ep end.

Lemma slot_init n x :
  fget slot0 x (init_slots n) = if (0 <=? x) && (x <? Z.of_nat n) then {| f1 := true; f2 := true; sev := Some x |} else slot0.
Proof.
  induction n as [|k IH]; cbn [init_slots fget].
  - destruct (Z.leb_spec 0 x), (Z.ltb_spec x (Z.of_nat 0)); try reflexivity; lia.
  - destruct (Z.eqb_spec x (Z.of_nat k)) as [->|Hne].
    + destruct (Z.leb_spec 0 (Z.of_nat k)), (Z.ltb_spec (Z.of_nat k) (Z.of_nat (S k))); try reflexivity; lia.
    + rewrite IH. destruct (Z.leb_spec 0 x), (Z.ltb_spec x (Z.of_nat k)), (Z.ltb_spec x (Z.of_nat (S k))); try reflexivity; lia.
Qed.

(* Group A: the two-flag protocol of a slot (free1[x] / free2[x] around events[x]).  It treats a getter and a back() call
   alike: a thread t (inl g or inr e) at a program point that owns slot x, and the slot looks as that program point left it. *)
Definition pc_of (s : sst) (t : Z + Z) : gpc + bpc :=
  match t with inl g => inl (gpc_of s g) | inr e => inr (bpc_of s e) end.
Definition own (x : Z) (p : gpc + bpc) : bool := match p with inl p => own_g x p | inr q => own_b x q end.
(* an owned slot has free1 = false, free2 = true; its event is still in it for a getter before the take (GTook), is the
   caller's own after the put of a back() (BPut), and is out otherwise (GTaken, BWon) *)
Definition suits (t : Z + Z) (p : gpc + bpc) (v : slot) : Prop :=
  f1 v = false /\ f2 v = true /\
  match p, t with
  | inl (GTook _), _ => sev v <> None
  | inr (BPut _), inr e => sev v = Some e
  | _, _ => sev v = None
  end.
Definition free_ok (v : slot) : Prop := (f1 v = true -> f2 v = true /\ sev v <> None) /\ (f2 v = false -> sev v = None).

Lemma thread_eq_dec (t t' : Z + Z) : {t = t'} + {t <> t'}.
Proof. decide equality; apply Z.eq_dec. Qed.

Lemma suits_free t p v : suits t p v -> free_ok v.
Proof. intros (F1 & F2 & _). split; intros F; congruence. Qed.

Definition sinvA (s : sst) : Prop :=
  (forall x t, own x (pc_of s t) = true -> suits t (pc_of s t) (slot_of s x)) /\
  (forall x t t', own x (pc_of s t) = true -> own x (pc_of s t') = true -> t = t') /\
  (forall x, free_ok (slot_of s x)).

Lemma a_f1 s (HA : sinvA s) x : f1 (slot_of s x) = true -> f2 (slot_of s x) = true /\ sev (slot_of s x) <> None.
Proof. exact (proj1 (proj2 (proj2 HA) x)). Qed.
Lemma a_f2 s (HA : sinvA s) x : f2 (slot_of s x) = false -> sev (slot_of s x) = None.
Proof. exact (proj2 (proj2 (proj2 HA) x)). Qed.
Lemma a_at_g s (HA : sinvA s) g x p : gpc_of s g = p -> own_g x p = true -> suits (inl g) (inl p) (slot_of s x).
Proof. intros <-. exact (proj1 HA x (inl g)). Qed.
Lemma a_at_b s (HA : sinvA s) e x q : bpc_of s e = q -> own_b x q = true -> suits (inr e) (inr q) (slot_of s x).
Proof. intros <-. exact (proj1 HA x (inr e)). Qed.

Lemma sinvA_init c : sinvA (sinit c).
Proof.
  split; [|split].
  - intros x [g|e]; discriminate.
  - intros x [g|e]; discriminate.
  - intros x. unfold slot_of, sinit, free_ok. cbn [s_slots]. rewrite slot_init.
    destruct ((0 <=? x) && (x <? _)); cbn [f1 f2 sev slot0].
    + split; [intros _; split; [reflexivity|discriminate]|discriminate].
    + split; [discriminate|reflexivity].
Qed.

(* The thread that is about to write slot x has it to itself: it owns x, or the flag it has just won shows that nobody does
   (a slot somebody works on has free1 = false and free2 = true). *)
Lemma exclusive s x t : sinvA s ->
  own x (pc_of s t) = true \/ f1 (slot_of s x) = true \/ f2 (slot_of s x) = false ->
  forall t', t' <> t -> own x (pc_of s t') = false.
Proof.
  intros (Hsuit & Huniq & _) Hpre t' Hne. destruct (own x (pc_of s t')) eqn:E; [exfalso|reflexivity].
  destruct Hpre as [Ho|Hf]; [exact (Hne (Huniq x t' t E Ho))|]. destruct (Hsuit x t' E) as (F1 & F2 & _). destruct Hf; congruence.
Qed.

(* Frame: the slots are untouched, and a thread that owns a slot afterwards is where it was before.  This is every label
   but the six that write a slot. *)
Lemma sinvA_frame s s' :
  sinvA s -> s_slots s' = s_slots s ->
  (forall g x, own_g x (gpc_of s' g) = true -> gpc_of s' g = gpc_of s g) ->
  (forall e x, own_b x (bpc_of s' e) = true -> bpc_of s' e = bpc_of s e) ->
  sinvA s'.
Proof.
  intros (Hsuit & Huniq & Hfree) Es Hg Hb.
  assert (Hpc : forall t x, own x (pc_of s' t) = true -> pc_of s' t = pc_of s t) by (intros [g|e] x H; cbn [pc_of own] in *; f_equal; eauto).
  unfold sinvA, slot_of in *. rewrite Es. split; [|split; [|exact Hfree]].
  - intros x t H. pose proof (Hpc t x H) as E. rewrite E in *. exact (Hsuit x t H).
  - intros x t t' H1 H2. rewrite (Hpc t x H1) in H1. rewrite (Hpc t' x H2) in H2. exact (Huniq x t t' H1 H2).
Qed.

(* The protocol: thread t moves to p while slot x, which it has to itself, becomes v; p owns x and v suits it, or p owns
   nothing and v is a consistent unowned slot. *)
Lemma sinvA_set s s' t p x v :
  sinvA s ->
  (forall x', slot_of s' x' = if x' =? x then v else slot_of s x') ->
  pc_of s' t = p /\ (forall t', t' <> t -> pc_of s' t' = pc_of s t') ->
  own x (pc_of s t) = true \/ f1 (slot_of s x) = true \/ f2 (slot_of s x) = false ->
  match p with
  | inl (GTook y) | inl (GTaken y) | inr (BWon y) | inr (BPut y) => y = x /\ suits t p v
  | _ => free_ok v
  end ->
  sinvA s'.
Proof.
  intros HA Hs [Ht Hpc] Hpre Hv. pose proof (exclusive s x t HA Hpre) as Hex.
  destruct HA as (Hsuit & Huniq & Hfree).
  assert (Hp : forall x', x' <> x -> own x' p = false).
  { intros x' N. destruct p as [[]|[]]; try reflexivity; destruct Hv as [-> _]; exact (proj2 (Z.eqb_neq x' x) N). }
  (* afterwards: at x only t can be at work; away from x those at work are where they were *)
  assert (Hx : forall t', own x (pc_of s' t') = true -> t' = t).
  { intros t' H. destruct (thread_eq_dec t' t) as [E|N]; [exact E|]. rewrite (Hpc t' N), (Hex t' N) in H. discriminate. }
  assert (Hy : forall t' x', x' <> x -> own x' (pc_of s' t') = true -> pc_of s' t' = pc_of s t').
  { intros t' x' N H. destruct (thread_eq_dec t' t) as [->|Nt]; [rewrite Ht, (Hp x' N) in H; discriminate|exact (Hpc t' Nt)]. }
  split; [|split].
  - intros x' t' H. rewrite Hs. destruct (Z.eqb_spec x' x) as [->|N].
    + pose proof (Hx t' H) as ->. rewrite Ht in *. destruct p as [[]|[]]; try discriminate H; exact (proj2 Hv).
    + pose proof (Hy t' x' N H) as E. rewrite E in *. exact (Hsuit x' t' H).
  - intros x' t1 t2 H1 H2. destruct (Z.eq_dec x' x) as [->|N].
    + rewrite (Hx t1 H1), (Hx t2 H2). reflexivity.
    + rewrite (Hy t1 x' N H1) in H1. rewrite (Hy t2 x' N H2) in H2. exact (Huniq x' t1 t2 H1 H2).
  - intros x'. rewrite Hs. destruct (Z.eqb_spec x' x) as [->|_]; [|apply Hfree].
    destruct p as [[]|[]]; try exact Hv; exact (suits_free t _ v (proj2 Hv)).
Qed.

(* a getter / a back() call moves: everybody else stays *)
Lemma pc_set_g s s' g p : s_gthr s' = fset g p (s_gthr s) -> s_bthr s' = s_bthr s ->
  pc_of s' (inl g) = inl p /\ (forall t', t' <> inl g -> pc_of s' t' = pc_of s t').
Proof.
  intros Eg Eb. unfold pc_of, gpc_of, bpc_of. rewrite Eg, Eb. split; [rewrite fget_fset, Z.eqb_refl; reflexivity|].
  intros [g'|e'] N; [|reflexivity]. rewrite fget_fset. destruct (Z.eqb_spec g' g); congruence.
Qed.
Lemma pc_set_b s s' e q : s_gthr s' = s_gthr s -> s_bthr s' = fset e q (s_bthr s) ->
  pc_of s' (inr e) = inr q /\ (forall t', t' <> inr e -> pc_of s' t' = pc_of s t').
Proof.
  intros Eg Eb. unfold pc_of, gpc_of, bpc_of. rewrite Eg, Eb. split; [rewrite fget_fset, Z.eqb_refl; reflexivity|].
  intros [g'|e'] N; [reflexivity|]. rewrite fget_fset. destruct (Z.eqb_spec e' e); congruence.
Qed.

(* a thread that moves to a program point owning nothing, and a broadcast, change no owner *)
Lemma own_g_fset g p m : (forall x, own_g x p = false) ->
  forall g' x, own_g x (fget GIdle g' (fset g p m)) = true -> fget GIdle g' (fset g p m) = fget GIdle g' m.
Proof. intros Hp g' x. rewrite fget_fset. destruct (g' =? g); [rewrite Hp; discriminate|reflexivity]. Qed.
Lemma own_b_fset e q m : (forall x, own_b x q = false) ->
  forall e' x, own_b x (fget BIdle e' (fset e q m)) = true -> fget BIdle e' (fset e q m) = fget BIdle e' m.
Proof. intros Hq e' x. rewrite fget_fset. destruct (e' =? e); [rewrite Hq; discriminate|reflexivity]. Qed.
Lemma own_g_bcast m g x : own_g x (fget GIdle g (fmapv gwake m)) = true -> fget GIdle g (fmapv gwake m) = fget GIdle g m.
Proof. rewrite (fget_fmapv GIdle gwake) by reflexivity. destruct (fget GIdle g m); cbn [gwake own_g]; (reflexivity || discriminate). Qed.
Create HintDb sframe discriminated.
#[local] Hint Resolve own_g_fset own_b_fset own_g_bcast : sframe.

Lemma sinvA_step c s l s' : sinvA s -> sstep c s l = Some s' -> sinvA s'.
Proof.
  intros HA H. destruct l; sstep_open H.
  all: try (apply (sinvA_frame s _ HA); [reflexivity|sst_unfold; solve [eauto with sframe]..]).
  all: (eapply (sinvA_set s _ (inl g)) || eapply (sinvA_set s _ (inr e)));
       [exact HA|intro; apply fget_fset|(apply pc_set_g || apply pc_set_b); reflexivity|cbn [own pc_of]..].
  - (* SCas: free1[x] was true, so nobody was working on x *) auto.
  - repeat split. all: apply (a_f1 s HA x0); auto.
  - (* STake *) left. rewrite Ep. apply Z.eqb_refl.
  - destruct (a_at_g s HA g x0 _ Ep (Z.eqb_refl _)) as (F1 & F2 & _). repeat split; assumption.
  - (* SF2 *) left. rewrite Ep. apply Z.eqb_refl.
  - destruct (a_at_g s HA g x _ Ep (Z.eqb_refl _)) as (F1 & _ & Fs). split; cbn [f1 f2 sev]; [rewrite F1; discriminate|intros _; exact Fs].
  - (* SBCas: free2[y] was false, so nobody was working on y *) right. right. apply negb_true_iff. auto.
  - assert (F2 : f2 (slot_of s y0) = false) by (apply negb_true_iff; auto). repeat split; [|exact (a_f2 s HA y0 F2)].
    cbn [f1]. destruct (f1 (slot_of s y0)) eqn:F1; [|reflexivity]. destruct (a_f1 s HA y0 F1). congruence.
  - (* SBPut *) left. rewrite Ep. apply Z.eqb_refl.
  - destruct (a_at_b s HA e y _ Ep (Z.eqb_refl _)) as (F1 & F2 & _). repeat split; assumption.
  - (* SBF1 *) left. rewrite Ep. apply Z.eqb_refl.
  - destruct (a_at_b s HA e y _ Ep (Z.eqb_refl _)) as (_ & F2 & Fs). cbn in Fs. unfold free_ok. cbn [f1 f2 sev]. rewrite F2, Fs. repeat split; discriminate.
Qed.

(* Group B: where the event objects are.  Object e lies in a slot, is with a holder, or is carried towards a slot by its
   back() call ([transit]: from the claim until the put).  The three places exclude one another, none holds an object twice,
   and whatever is in one of them is an object of the pool, in [0, cap). *)
Definition transit (p : bpc) : bool := match p with BSpin _ | BWon _ => true | _ => false end.

Record sinvB (c : pcfg) (s : sst) : Prop := {
  b_u1 : forall x x' e, sev (slot_of s x) = Some e -> sev (slot_of s x') = Some e -> x = x';
  b_u2 : forall x e, sev (slot_of s x) = Some e -> ~ In e (s_holders s) /\ transit (bpc_of s e) = false;
  b_nd : NoDup (s_holders s);
  b_ht : forall e, In e (s_holders s) -> transit (bpc_of s e) = false;
  b_rs : forall x e, sev (slot_of s x) = Some e -> 0 <= e < cap c;
  b_rh : forall e, In e (s_holders s) -> 0 <= e < cap c;
  b_rt : forall e, transit (bpc_of s e) = true -> 0 <= e < cap c
}.

Lemma sinvB_init c : sinvB c (sinit c).
Proof.
  split; unfold gpc_of, bpc_of, slot_of, sinit; cbn [s_gthr s_bthr s_slots s_holders fget In transit].
  - intros x x' e. rewrite !slot_init. destruct ((0 <=? x) && (x <? _)); destruct ((0 <=? x') && (x' <? _)); cbn [sev slot0]; congruence.
  - intros x e. rewrite slot_init. destruct ((0 <=? x) && (x <? _)); cbn [sev slot0]; [tauto|discriminate].
  - constructor.
  - tauto.
  - intros x e. rewrite slot_init. destruct ((0 <=? x) && (x <? _)) eqn:E; cbn [sev slot0]; [|discriminate]. intros H; inversion H; subst. bnorm. lia.
  - tauto.
  - discriminate.
Qed.

(* Frame: no object moves: the events fields, the holders, and which back() calls carry their object are as before. *)
Lemma sinvB_frame c s s' :
  sinvB c s ->
  (forall x, sev (slot_of s' x) = sev (slot_of s x)) -> s_holders s' = s_holders s ->
  (forall e, transit (bpc_of s' e) = transit (bpc_of s e)) ->
  sinvB c s'.
Proof.
  intros [Hu1 Hu2 Hnd Hht Hrs Hrh Hrt] Es Eh Hb. split; rewrite ?Eh; try assumption; intros *; rewrite ?Es, ?Hb; eauto.
Qed.

Lemma sev_fset x v m : sev v = sev (fget slot0 x m) -> forall x', sev (fget slot0 x' (fset x v m)) = sev (fget slot0 x' m).
Proof. intros E x'. rewrite fget_fset. destruct (Z.eqb_spec x' x) as [->|_]; [exact E|reflexivity]. Qed.

Lemma transit_fset e q m : transit q = transit (fget BIdle e m) ->
  forall e', transit (fget BIdle e' (fset e q m)) = transit (fget BIdle e' m).
Proof. intros Et e'. rewrite fget_fset. destruct (Z.eqb_spec e' e) as [->|_]; auto. Qed.

(* STake: the object in slot x goes to the holders *)
Lemma sinvB_take c s s' x e v :
  sinvB c s -> sev (slot_of s x) = Some e ->
  s_slots s' = fset x v (s_slots s) -> sev v = None -> s_holders s' = e :: s_holders s -> s_bthr s' = s_bthr s ->
  sinvB c s'.
Proof.
  intros [Hu1 Hu2 Hnd Hht Hrs Hrh Hrt] Ex Es Ev Eh Eb. destruct (Hu2 x e Ex) as [Hni Htr].
  assert (Hs : forall x' e', sev (slot_of s' x') = Some e' -> x' <> x /\ sev (slot_of s x') = Some e').
  { intros x' e'. unfold slot_of. rewrite Es, fget_fset. destruct (Z.eqb_spec x' x) as [->|N]; [congruence|auto]. }
  split; unfold bpc_of; rewrite ?Eh, ?Eb; try assumption.
  - intros x1 x2 e' [_ H1]%Hs [_ H2]%Hs. exact (Hu1 x1 x2 e' H1 H2).
  - intros x' e' [N H1]%Hs. destruct (Hu2 x' e' H1) as [Hni' Htr']. split; [|exact Htr'].
    intros [<-|Hin]; [exact (N (Hu1 x' x e H1 Ex))|exact (Hni' Hin)].
  - constructor; assumption.
  - intros e' [<-|Hin]; [exact Htr|exact (Hht e' Hin)].
  - intros x' e' [_ H1]%Hs. exact (Hrs x' e' H1).
  - intros e' [<-|Hin]; [exact (Hrs x e Ex)|exact (Hrh e' Hin)].
Qed.

(* SBClaim: back() begins for a held object *)
Lemma sinvB_claim c s s' e y :
  sinvB c s -> In e (s_holders s) ->
  s_slots s' = s_slots s -> s_holders s' = rem1 e (s_holders s) -> s_bthr s' = fset e (BSpin y) (s_bthr s) ->
  sinvB c s'.
Proof.
  intros [Hu1 Hu2 Hnd Hht Hrs Hrh Hrt] He Es Eh Eb. apply (NoDup_rem1 e) in Hnd as [Hout Hnd].
  assert (Hb : forall e', bpc_of s' e' = if e' =? e then BSpin y else bpc_of s e') by (intros; unfold bpc_of; rewrite Eb; apply fget_fset).
  split; unfold slot_of; rewrite ?Es, ?Eh; try assumption.
  - intros x e' Hx. destruct (Hu2 x e' Hx) as [Hni Htr]. split; [intros Hin; exact (Hni (In_rem1 _ _ _ Hin))|].
    rewrite Hb. destruct (Z.eqb_spec e' e) as [->|_]; [contradiction|exact Htr].
  - intros e' Hin. rewrite Hb. destruct (Z.eqb_spec e' e) as [->|_]; [destruct (Hout Hin)|].
    exact (Hht e' (In_rem1 _ _ _ Hin)).
  - intros e' Hin. exact (Hrh e' (In_rem1 _ _ _ Hin)).
  - intros e'. rewrite Hb. destruct (Z.eqb_spec e' e) as [->|_]; [intros _; exact (Hrh e He)|apply Hrt].
Qed.

(* SBPut: the object arrives in slot y *)
Lemma sinvB_put c s s' e y v :
  sinvB c s -> bpc_of s e = BWon y ->
  s_slots s' = fset y v (s_slots s) -> sev v = Some e -> s_holders s' = s_holders s -> s_bthr s' = fset e (BPut y) (s_bthr s) ->
  sinvB c s'.
Proof.
  intros [Hu1 Hu2 Hnd Hht Hrs Hrh Hrt] Ee Es Ev Eh Eb.
  assert (Hb : forall e', bpc_of s' e' = if e' =? e then BPut y else bpc_of s e') by (intros; unfold bpc_of; rewrite Eb; apply fget_fset).
  assert (Ht : transit (bpc_of s e) = true) by (rewrite Ee; reflexivity).
  assert (Hs : forall x e', sev (slot_of s' x) = Some e' -> (x = y /\ e' = e) \/ (e' <> e /\ sev (slot_of s x) = Some e')).
  { intros x e'. unfold slot_of. rewrite Es, fget_fset. destruct (Z.eqb_spec x y) as [->|_]; [left; split; congruence|].
    intros H. right. split; [|exact H]. intros ->. destruct (Hu2 x e H) as [_ Htr]. congruence. }
  split; rewrite ?Eh; try assumption.
  - intros x1 x2 e' [[-> ->]|[N1 H1]]%Hs [[-> E2]|[N2 H2]]%Hs; try congruence. exact (Hu1 x1 x2 e' H1 H2).
  - intros x e'. rewrite Hb. intros [[-> ->]|[N H1]]%Hs.
    + rewrite Z.eqb_refl. split; [|reflexivity]. intros Hin. rewrite (Hht e Hin) in Ht. discriminate.
    + rewrite (proj2 (Z.eqb_neq e' e) N). exact (Hu2 x e' H1).
  - intros e' Hin. rewrite Hb. destruct (Z.eqb_spec e' e) as [->|_]; [reflexivity|exact (Hht e' Hin)].
  - intros x e' [[-> ->]|[_ H1]]%Hs; [exact (Hrt e Ht)|exact (Hrs x e' H1)].
  - intros e'. rewrite Hb. destruct (Z.eqb_spec e' e) as [->|_]; [discriminate|apply Hrt].
Qed.

Lemma sinvB_step c s l s' : sinvB c s -> sstep c s l = Some s' -> sinvB c s'.
Proof.
  intros HB H. destruct l; sstep_open H.
  all: try (apply (sinvB_frame c s _ HB); sst_unfold; solve [auto using sev_fset]).
  - (* STake *) eapply (sinvB_take c s); try eassumption; reflexivity.
  - (* SBClaim *) eapply (sinvB_claim c s); try eassumption; try reflexivity. apply mem_z_In. assumption.
  - (* SBCas *) apply (sinvB_frame c s _ HB); sst_unfold; auto using sev_fset. apply transit_fset. rewrite Ep. reflexivity.
  - (* SBPut *) eapply (sinvB_put c s); try eassumption; reflexivity.
  - (* SBF1 *) apply (sinvB_frame c s _ HB); sst_unfold; auto using sev_fset. apply transit_fset. rewrite Ep. reflexivity.
Qed.

(* Group C: the counters. *)
Definition gwaiting (p : gpc) : bool :=
  match p with GWaiting _ | GLocked _ | GSleep _ | GWoken _ | GReady _ | GUnlocked _ => true | _ => false end.
Definition gmid (p : gpc) : bool := match p with GTaken _ | GF2 => true | _ => false end.
Definition bmid (p : bpc) : bool := match p with BSpin _ | BWon _ | BPut _ => true | _ => false end.
Lemma gwaiting_gwake p : gwaiting (gwake p) = gwaiting p. Proof. destruct p; reflexivity. Qed.
Lemma gmid_gwake p : gmid (gwake p) = gmid p. Proof. destruct p; reflexivity. Qed.

Record sinvC (s : sst) : Prop := {
  c_ndg : NoDup (keys (s_gthr s));
  c_ndb : NoDup (keys (s_bthr s));
  c_waiters : s_waiters s = fcnt gwaiting (s_gthr s);
  (* inUseEvents = objects out of the pool - getters that have the object but not yet counted it
                   + back() calls that have not yet decremented *)
  c_inuse : s_inuse s = len (s_holders s) - fcnt gmid (s_gthr s) + fcnt bmid (s_bthr s) + s_pdec s
}.

Lemma sinvC_init c : sinvC (sinit c).
Proof. split; cbn; try constructor; reflexivity. Qed.

(* A getter moves from pc p to pc q: by [fcnt_fset] the two counts over the getters lose p and gain q. *)
Lemma sinvC_gmove s s' g p q :
  sinvC s -> gpc_of s g = p ->
  s_gthr s' = fset g q (s_gthr s) -> s_bthr s' = s_bthr s -> s_pdec s' = s_pdec s ->
  s_waiters s' = s_waiters s - b2z (gwaiting p) + b2z (gwaiting q) ->
  s_inuse s' - len (s_holders s') = s_inuse s - len (s_holders s) + b2z (gmid p) - b2z (gmid q) ->
  sinvC s'.
Proof.
  unfold gpc_of. intros [Hg Hb Hw Hin] <- Eg Eb Epd Ew Ei. split; rewrite ?Eg, ?Eb, ?Epd; try assumption.
  - apply NoDup_fset, Hg.
  - rewrite (fcnt_fset GIdle gwaiting _ _ _ Hg eq_refl). lia.
  - rewrite (fcnt_fset GIdle gmid _ _ _ Hg eq_refl). lia.
Qed.

(* A back() call moves from pc p to pc q; on its last move it joins those that have not yet decremented. *)
Lemma sinvC_bmove s s' e p q :
  sinvC s -> bpc_of s e = p ->
  s_bthr s' = fset e q (s_bthr s) -> s_gthr s' = s_gthr s -> s_waiters s' = s_waiters s ->
  s_inuse s' - len (s_holders s') - s_pdec s' = s_inuse s - len (s_holders s) - s_pdec s - b2z (bmid p) + b2z (bmid q) ->
  sinvC s'.
Proof.
  unfold bpc_of. intros [Hg Hb Hw Hin] <- Eb Eg Ew Ei. split; rewrite ?Eg, ?Eb, ?Ew; try assumption.
  - apply NoDup_fset, Hb.
  - rewrite (fcnt_fset BIdle bmid _ _ _ Hb eq_refl). lia.
Qed.

(* no count tells GSleep from GWoken *)
Lemma sinvC_bcast s : sinvC s -> sinvC (sbcast s).
Proof.
  intros [Hg Hb Hw Hin]. unfold sbcast, sbroadcast. split; cbn [s_gthr s_bthr s_waiters s_inuse s_holders s_pdec s_pbc supd]; try assumption.
  - rewrite keys_fmapv. exact Hg.
  - rewrite (fcnt_fmapv_same gwaiting gwake _ gwaiting_gwake). exact Hw.
  - rewrite (fcnt_fmapv_same gmid gwake _ gmid_gwake). exact Hin.
Qed.

Lemma sinvC_tick s t : sinvC s -> sinvC (sset_tick s t).
Proof. intros [Hg Hb Hw Hin]. split; assumption. Qed.

Lemma sinvC_pbc s pb : sinvC s -> sinvC (sset_pend s (s_pdec s) pb).
Proof. intros [Hg Hb Hw Hin]. split; assumption. Qed.

(* the step moves the getter, or the back() call, that its label names: what is left are the conditions on the counters *)
Ltac gmoves :=
  eapply sinvC_gmove; [eassumption|eassumption|reflexivity..| |];
  cbn [s_waiters s_inuse s_holders supd sset_g sset_slot sset_lock sset_waiters sset_inuse sset_holders gwaiting gmid b2z].
Ltac bmoves :=
  eapply sinvC_bmove; [eassumption|eassumption|reflexivity..|];
  cbn [s_inuse s_holders s_pdec supd sset_pend sset_b sset_slot bmid b2z].

Lemma sinvC_step c s l s' : sinvC s -> sstep c s l = Some s' -> sinvC s'.
Proof.
  intros HC H. destruct l; sstep_open H.
  - (* SClaim *) gmoves; lia.
  - (* SCas, won *) gmoves; lia.
  - (* SCas, lost *) exact HC.
  - (* SWInc *) gmoves; lia.
  - (* SLock *) gmoves; lia.
  - (* SReg *) gmoves; lia.
  - (* SWake *) gmoves; lia.
  - (* SUnlock *) gmoves; lia.
  - (* SWDec *) gmoves; lia.
  - (* STake *) gmoves; rewrite ?len_cons; lia.
  - (* SF2 *) gmoves; lia.
  - (* SInc *) gmoves; lia.
  - (* SBClaim: the event was held *) bmoves; rewrite ?len_rem1 by (apply mem_z_In; assumption); lia.
  - (* SBCas, won *) bmoves; lia.
  - (* SBCas, lost *) exact HC.
  - (* SBPut *) bmoves; lia.
  - (* SBF1 *) bmoves; lia.
  - (* SBDec *) destruct HC as [Hg Hb Hw Hin]. split; sst_unfold; try assumption; lia.
  - (* SBBc *) apply (sinvC_pbc (sbcast s)), sinvC_bcast, HC.
  - (* STickW *) apply sinvC_tick, HC.
  - (* STickA *) apply sinvC_tick, HC.
  - (* STickFire *) apply sinvC_tick, sinvC_bcast, HC.
  - (* STickEnd, not fired *) apply sinvC_tick, HC.
  - (* STickEnd, fired *) apply sinvC_tick, HC.
  - (* SEnvBc *) apply sinvC_bcast, HC.
Qed.

Definition sinv (c : pcfg) (s : sst) : Prop := sinvA s /\ sinvB c s /\ sinvC s.

Lemma sinv_init c : sinv c (sinit c).
Proof. split; [apply sinvA_init|split; [apply sinvB_init|apply sinvC_init]]. Qed.

Lemma sinv_step c s l s' : sinv c s -> sstep c s l = Some s' -> sinv c s'.
Proof.
  intros (HA & HB & HC) H. split; [exact (sinvA_step c s l s' HA H)|split; [exact (sinvB_step c s l s' HB H)|exact (sinvC_step c s l s' HC H)]].
Qed.

Lemma sinv_run c ls s s' : sinv c s -> srun c s ls = Some s' -> sinv c s'.
Proof. rewrite srun_run. apply run_invariant. apply sinv_step. Qed.

Lemma sinv_reach c ls s : srun c (sinit c) ls = Some s -> sinv c s.
Proof. apply sinv_run. apply sinv_init. Qed.

(* C05: holders + objects inside back() that are not yet in a slot never exceed the capacity: they are distinct
   objects, all in [0, capacity) *)
Lemma std_held_le_capacity c s : 0 <= cap c -> sinv c s -> len (s_holders s) + fcnt transit (s_bthr s) <= cap c.
Proof.
  intros Hc (_ & HB & HC). set (tr := keys (filter (fun kv => transit (snd kv)) (s_bthr s))).
  replace (fcnt transit (s_bthr s)) with (len tr) by (unfold fcnt, len, tr, keys; rewrite map_length; reflexivity).
  replace (len (s_holders s) + len tr) with (len (s_holders s ++ tr)) by (unfold len; rewrite app_length; lia).
  assert (Htr : forall e, In e tr -> transit (bpc_of s e) = true).
  { intros e [p [Hp Ht]]%In_keys_filter. unfold bpc_of. rewrite (fget_In BIdle e p _ (c_ndb s HC) Hp). exact Ht. }
  apply NoDup_range_len; [exact Hc| |].
  - apply NoDup_app_iff. split; [exact (b_nd c s HB)|split; [apply NoDup_keys_filter; exact (c_ndb s HC)|]].
    intros e Hh Ht. specialize (Htr e Ht). rewrite (b_ht c s HB e Hh) in Htr. discriminate.
  - intros e [He|He]%in_app_iff; [exact (b_rh c s HB e He)|].
    exact (b_rt c s HB e (Htr e He)).
Qed.

(* C05: quiescence => counters are zero *)
Definition squiescent (s : sst) : Prop :=
  (forall g, gpc_of s g = GIdle) /\ (forall e, bpc_of s e = BIdle) /\ s_holders s = [] /\ s_pdec s = 0.

Lemma std_quiescent_zero s : sinvC s -> squiescent s -> s_inuse s = 0 /\ s_waiters s = 0.
Proof.
  intros [Hng Hnb Hw Hin] (Hg & Hb & Hh & Hp).
  rewrite Hin, Hw, Hh, Hp, !(fcnt_zero GIdle _ _ Hng eq_refl Hg), (fcnt_zero BIdle _ _ Hnb eq_refl Hb). split; reflexivity.
Qed.

Lemma std_sleeper_counted s g x : sinvC s -> gpc_of s g = GSleep x -> 1 <= s_waiters s.
Proof.
  intros HC Hg. rewrite (c_waiters s HC). apply (fcnt_pos GIdle gwaiting g); [reflexivity|].
  unfold gpc_of in Hg. rewrite Hg. reflexivity.
Qed.

(* C05: no event object is handed out twice / returned twice.  Per object e: "taken out of a slot" and "back() begun"
   alternate; [out] = e is currently held *)
Fixpoint alt (e : Z) (out : bool) (ls : list slabel) : bool :=
  match ls with
  | [] => true
  | STake _ _ e' :: r => if e' =? e then negb out && alt e true r else alt e out r
  | SBClaim e' _ :: r => if e' =? e then out && alt e false r else alt e out r
  | _ :: r => alt e out r
  end.

(* one step: only STake and SBClaim change the holders, and their guards are what [alt] asks for *)
Lemma alt_step c e s l s1 r : sinvB c s -> sstep c s l = Some s1 ->
  alt e (mem_z e (s_holders s)) (l :: r) = alt e (mem_z e (s_holders s1)) r.
Proof.
  intros HB H.
  destruct l; sstep_open H; try reflexivity; cbn [alt].
  - (* STake: the object was in a slot, hence not held *)
    sst_unfold. cbn [mem_z]. destruct (Z.eqb_spec z e) as [->|Hne].
    + rewrite Z.eqb_refl. destruct (mem_z e (s_holders s)) eqn:Em; [|reflexivity].
      apply mem_z_In in Em. exfalso. eapply (b_u2 c s HB); eassumption.
    + replace (e =? z) with false by lia. reflexivity.
  - (* SBClaim: the object was held, once *)
    sst_unfold. destruct (Z.eqb_spec e0 e) as [->|Hne].
    + replace (mem_z e (s_holders s)) with true. destruct (mem_z e (rem1 e (s_holders s))) eqn:Em; [|reflexivity].
      apply mem_z_In in Em. destruct (proj1 (NoDup_rem1 _ _ (b_nd c s HB)) Em).
    + rewrite mem_z_rem1_other by congruence. reflexivity.
Qed.

Lemma std_alternation c e ls : forall s s', sinvB c s -> srun c s ls = Some s' -> alt e (mem_z e (s_holders s)) ls = true.
Proof.
  induction ls as [|l r IH]; intros s s' Hs Hr; cbn [srun] in Hr; [reflexivity|].
  destruct (sstep c s l) as [s1|] eqn:E; [|discriminate].
  rewrite (alt_step c e s l s1 r Hs E). exact (IH s1 s' (sinvB_step c s l s1 Hs E) Hr).
Qed.

(* C04 (pool clause): a sleeping getter of the standard pool is woken within one heartbeat *)
Definition s_nonenv (ls : list slabel) : Prop := forallb (fun l => negb (s_env l)) ls = true.
Definition s_ticks (ls : list slabel) : nat := length (filter s_is_tickw ls).

Lemma gpc_sset_tick s t g : gpc_of (sset_tick s t) g = gpc_of s g. Proof. reflexivity. Qed.
Lemma gpc_sbcast s g : gpc_of (sbcast s) g = gwake (gpc_of s g).
Proof. unfold gpc_of, sbcast, sbroadcast. cbn [s_gthr supd]. apply fget_fmapv. reflexivity. Qed.

(* the tick labels are the heartbeat goroutine of Pool.v *)
Definition s_of_tick (k : tlab) : slabel :=
  match k with KW w => STickW w | KA a => STickA a | KFire => STickFire | KEnd => STickEnd end.

Lemma sstep_tick c s k :
  sstep c s (s_of_tick k) =
  match tick_step c (s_waiters s) (avail c (s_inuse s) (cap c)) (s_tick s) k with
  | Some (t, bc) => Some ((if bc then sset_tick (sbcast s) else sset_tick s) t)
  | None => None
  end.
Proof.
  destruct k; cbn [s_of_tick sstep tick_step]; destruct (s_tick s); try reflexivity;
    match goal with |- context [if ?b then _ else _] => destruct b end; reflexivity.
Qed.

Lemma s_is_tick_inv l : s_is_tick l = true -> exists k, l = s_of_tick k.
Proof. destruct l; try discriminate; intros _; [exists (KW w)|exists (KA a)|exists KFire|exists KEnd]; reflexivity. Qed.

Lemma sset_tick_self s : sset_tick s (s_tick s) = s.
Proof. destruct s; reflexivity. Qed.

Section StdLive.
  Variable c : pcfg.
  Hypothesis Htick : tickc c true true = true.

  Lemma std_no_stuck_waiter s g x :
    sinvC s -> gpc_of s g = GSleep x -> avail c (s_inuse s) (cap c) = true ->
    exists ls s', s_nonenv ls /\ (s_ticks ls <= 1)%nat /\ srun c s ls = Some s' /\ gpc_of s' g = GWoken x.
  Proof.
    intros HC Hg Ha. pose proof (std_sleeper_counted s g x HC Hg) as Hw.
    destruct (tick_wakes (sstep c) s_of_tick s_env s_is_tickw c (s_waiters s) (sset_tick s) (sset_tick (sbcast s))) with (t := s_tick s)
      as (ls & Hne & Hti & Hr); trivial; try (intros []; reflexivity).
    - (* Hstep: a tick label reads the waiter count and the availability, and the goroutine's pc is in neither *)
      intros t k. rewrite sstep_tick. cbn [sset_tick supd s_waiters s_inuse s_tick]. rewrite Ha. reflexivity.
    - exists ls, (sset_tick (sbcast s) TFired). rewrite sset_tick_self, <- srun_run in Hr. repeat split; trivial.
      rewrite gpc_sset_tick, gpc_sbcast, Hg. reflexivity.
  Qed.
End StdLive.

(* the getter that owns ticket x can take the slot as soon as free1[x] is set *)
Lemma std_getter_enabled c s g x :
  gpc_of s g = GSpin x -> f1 (slot_of s x) = true -> exists s', sstep c s (SCas g x true) = Some s' /\ gpc_of s' g = GTook x.
Proof.
  intros Hg Hf. unfold sstep. rewrite Hg, Hf, Z.eqb_refl. cbn [andb Bool.eqb]. eexists. split; [reflexivity|].
  unfold gpc_of, sset_g. cbn [s_gthr supd]. rewrite fget_fset, Z.eqb_refl. reflexivity.
Qed.
