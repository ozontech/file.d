(* Proofs about Model/OffsetsSnap.v: a snapshot never runs ahead of the commits. *)
From Verif Require Import Base.Sx Base.GoSem Model.OffsetsSnap Proofs.GoSemFacts Proofs.Lts.
From Coq Require Import Lia.

Lemma sget_sset m k v k' : sget (sset m k v) k' = if bytes_eqb k k' then v else sget m k'.
Proof.
  induction m as [|[k0 v0] m IH]; cbn [sset sget]; [reflexivity|].
  destruct (bytes_eqb_spec k0 k) as [->|N]; cbn [sget].
  - destruct (bytes_eqb k k'); reflexivity.
  - rewrite IH. destruct (bytes_eqb_spec k0 k'), (bytes_eqb_spec k k'); congruence.
Qed.

Lemma sset_mono m k v : sget m k < v -> forall s, sget m s <= sget (sset m k v) s.
Proof.
  intros H s. rewrite sget_sset. destruct (bytes_eqb k s) eqn:E; [apply bytes_eqb_eq in E as <-|]; lia.
Qed.

Lemma tget_tset t j m j' :
  tget (tset t j m) j' = if N.eqb j j' then option_map (fun _ => m) (tget t j) else tget t j'.
Proof.
  induction t as [|[j0 m0] t IH]; cbn [tget tset]; [now destruct (N.eqb j j')|].
  destruct (N.eqb_spec j0 j) as [->|Hne]; cbn [tget].
  - now destruct (N.eqb j j').
  - rewrite IH. destruct (N.eqb_spec j0 j') as [->|]; [|reflexivity]. destruct (N.eqb_spec j j'); [congruence | reflexivity].
Qed.

Lemma tget_app_fresh t : forall j j' m, tget t j = None -> j' <> j -> tget (t ++ [(j, m)]) j' = tget t j'.
Proof.
  induction t as [|[j0 m0] t IH]; intros j j' m Hn Hne; cbn [app tget] in *.
  - destruct (N.eqb_spec j j'); [congruence | reflexivity].
  - destruct (N.eqb j0 j); [discriminate|]. destruct (N.eqb j0 j'); [reflexivity | now apply IH].
Qed.

(* every job of t exists in t' with offsets at least as large *)
Definition tle (t t' : table) : Prop :=
  forall j m, tget t j = Some m -> exists m', tget t' j = Some m' /\ forall s, sget m s <= sget m' s.

Lemma tle_refl t : tle t t.
Proof. intros j m H. exists m. split; [exact H | intros; lia]. Qed.

Lemma tle_trans a b c : tle a b -> tle b c -> tle a c.
Proof.
  intros H1 H2 j m H. destruct (H1 j m H) as (m1 & G1 & L1). destruct (H2 j m1 G1) as (m2 & G2 & L2).
  exists m2. split; [exact G2|]. intros s. specialize (L1 s). specialize (L2 s). lia.
Qed.

Lemma sv_get_in l : forall i p, sv_get l i = Some p -> In (i, p) l.
Proof.
  induction l as [|[k q] l IH]; intros i p H; cbn [sv_get] in H; [discriminate|].
  destruct (Nat.eqb_spec k i) as [->|Hne]; [injection H as ->; now left | right; now apply IH].
Qed.

Lemma sv_del_in l i : forall k p, In (k, p) (sv_del l i) -> k <> i /\ In (k, p) l.
Proof.
  induction l as [|[k0 q] l IH]; intros k p H; cbn [sv_del] in H; [destruct H|].
  destruct (Nat.eqb_spec k0 i) as [->|Hne]; [|destruct H as [[= <- <-]|H]; [split; [exact Hne | now left]|]];
    destruct (IH _ _ H) as [A B]; (split; [exact A | now right]).
Qed.

Lemma sv_set_in l i q k p : In (k, p) (sv_set l i q) -> p = q \/ In (k, p) l.
Proof. intros [[= <- <-]|H]; [now left | right; now apply sv_del_in in H]. Qed.

(* every block anywhere (file, shared buffer, temp files, finished serialisations) is a past job state *)
Definition block_of (c : cst) (j : N) (m : smap) : Prop :=
  In (j, m) (file c) \/ In (j, m) (buf c) \/
  (exists i tmp, In (i, Written tmp) (saves c) /\ In (j, m) tmp) \/
  (exists i b, In (i, b) (built c) /\ In (j, m) b).

(* every block of [t] is the offsets map its job has in one of the tables [h] *)
Definition past (h : list table) (t : table) : Prop :=
  forall j m, In (j, m) t -> exists t0, In t0 h /\ tget t0 j = Some m.

Lemma past_incl h h' t : incl h h' -> past h t -> past h' t.
Proof. intros Hi P j m H. destruct (P j m H) as (t0 & H0 & G). exists t0. split; [now apply Hi | exact G]. Qed.

(* what one step can do, whatever its label.  The table only moves on in the order [tle], its earlier value joining
   the history; a save changes neither, and what it appends to the shared buffer is the present state of a job. *)
Inductive Step (hold : bool) (c : cst) : cst -> Prop :=
| SStay : Step hold c c
| SLive t' : tle (live c) t' ->
    Step hold c {| live := t'; mu := mu c; buf := buf c; saves := saves c; file := file c; renamed := renamed c;
                   built := built c; hist := live c :: hist c |}
| SBegin i js : mu c = None ->
    Step hold c {| live := live c; mu := Some i; buf := []; saves := sv_set (saves c) i (Building js); file := file c;
                   renamed := renamed c; built := built c; hist := hist c |}
| SJob i j rest : mu c = Some i ->
    Step hold c {| live := live c; mu := mu c;
                   buf := match tget (live c) j with Some ((_ :: _) as m) => buf c ++ [(j, m)] | _ => buf c end;
                   saves := sv_set (saves c) i (Building rest);
                   file := file c; renamed := renamed c; built := built c; hist := hist c |}
| SBuilt i : mu c = Some i ->
    Step hold c {| live := live c; mu := if hold then mu c else None; buf := buf c; saves := sv_set (saves c) i Ready;
                   file := file c; renamed := renamed c; built := (i, buf c) :: built c; hist := hist c |}
| SWrite i : In (i, Ready) (saves c) ->
    Step hold c {| live := live c; mu := mu c; buf := buf c; saves := sv_set (saves c) i (Written (buf c));
                   file := file c; renamed := renamed c; built := built c; hist := hist c |}
| SRename i tmp : In (i, Written tmp) (saves c) ->
    Step hold c {| live := live c; mu := if hold then None else mu c; buf := buf c; saves := sv_del (saves c) i;
                   file := tmp; renamed := true; built := built c; hist := hist c |}.

Lemma holds_mu_eq c i : holds_mu c i = true -> mu c = Some i.
Proof. unfold holds_mu. destruct (mu c) as [k|]; [|discriminate]. intros H. apply Nat.eqb_eq in H. congruence. Qed.

Lemma step_Step hold c l c' : step hold c l = Some c' -> Step hold c c'.
Proof.
  destruct l as [j|j s v|i|i|i|i|i]; cbn [step].
  - destruct (tget (live c) j) eqn:G; intros [= <-]. apply SLive.
    intros j' m Hj'. exists m. split; [|intros; lia].
    rewrite tget_app_fresh; [exact Hj' | exact G | intros ->; congruence].
  - destruct (tget (live c) j) as [m0|] eqn:G; [|intros [= <-]; apply SStay].
    destruct (Z.ltb_spec (sget m0 s) v) as [Hlt|]; intros [= <-]. apply SLive.
    intros j' m Hj'. rewrite tget_tset. destruct (N.eqb_spec j j') as [<-|Hne].
    + rewrite G in *. injection Hj' as <-. eexists. split; [reflexivity | now apply sset_mono].
    + exists m. split; [exact Hj' | intros; lia].
  - destruct (mu c) eqn:M; [discriminate|]. destruct (sv_get (saves c) i); intros [= <-]. now apply SBegin.
  - destruct (sv_get (saves c) i) as [[[|j rest]| |]|]; try discriminate.
    destruct (holds_mu c i) eqn:HM; intros [= <-]. apply SJob. now apply holds_mu_eq.
  - destruct (sv_get (saves c) i) as [[[|j rest]| |]|]; try discriminate.
    destruct (holds_mu c i) eqn:HM; intros [= <-]. apply SBuilt. now apply holds_mu_eq.
  - destruct (sv_get (saves c) i) as [[| |]|] eqn:P; intros [= <-]. apply SWrite. now apply sv_get_in.
  - destruct (sv_get (saves c) i) as [[| |tmp]|] eqn:P; intros [= <-]. apply SRename. now apply sv_get_in.
Qed.

Lemma run_Step hold (P : cst -> Prop) :
  (forall c c', P c -> Step hold c c' -> P c') ->
  forall ls c c', P c -> run_lts hold c ls = Some c' -> P c'.
Proof.
  intros Hstep ls c c'. rewrite (run_unique (step hold) (run_lts hold) (fun _ => eq_refl) (fun _ _ _ => eq_refl)).
  apply (run_invariant (step hold) P). intros c0 l c1 H0 H. exact (Hstep c0 c1 H0 (step_Step hold c0 l c1 H)).
Qed.

Record inv (c : cst) : Prop := {
  inv_hist : forall t, In t (hist c) -> tle t (live c);
  inv_file : past (live c :: hist c) (file c);
  inv_buf : past (live c :: hist c) (buf c);
  inv_tmp : forall i tmp, In (i, Written tmp) (saves c) -> past (live c :: hist c) tmp;
  inv_built : forall i b, In (i, b) (built c) -> past (live c :: hist c) b
}.

Lemma inv0 : inv cst0.
Proof. constructor; cbn; [intros ? [] | intros ? ? [] ..]. Qed.

Lemma inv_step hold c c' : inv c -> Step hold c c' -> inv c'.
Proof.
  intros I [|t' Hle|i js M|i j rest M|i M|i P|i tmp P].
  - exact I.
  - (* the table moves on: every earlier table is below the new one, and the history has only grown *)
    destruct I as [IH IF IB IT IU]. pose proof (incl_tl t' (incl_refl (live c :: hist c))) as Hi.
    constructor; cbn [live hist file buf saves built]; eauto using past_incl.
    intros t [<-|Ht]; [exact Hle | eapply tle_trans; [apply IH; exact Ht | exact Hle]].
  - (* save begins: the buffer is reset *)
    constructor; cbn [live hist file buf saves built]; try apply I.
    + intros ? ? [].
    + intros k tmp Hk. apply sv_set_in in Hk as [[=]|Hk]. now apply (inv_tmp _ I k).
  - (* save visits a job: its block is the current state of the job *)
    constructor; cbn [live hist file buf saves built]; try apply I.
    + destruct (tget (live c) j) as [[|kv m0]|] eqn:G; try apply I.
      intros j' m Hb. apply in_app_or in Hb as [Hb|[[= <- <-]|[]]]; [now apply (inv_buf _ I)|].
      exists (live c). split; [now left | exact G].
    + intros k tmp Hk. apply sv_set_in in Hk as [[=]|Hk]. now apply (inv_tmp _ I k).
  - (* buffer built *)
    constructor; cbn [live hist file buf saves built]; try apply I.
    + intros k tmp Hk. apply sv_set_in in Hk as [[=]|Hk]. now apply (inv_tmp _ I k).
    + intros k b [[= <- <-]|Hk]; [apply I | now apply (inv_built _ I k)].
  - (* write: the temp file gets what the shared buffer holds *)
    constructor; cbn [live hist file buf saves built]; try apply I.
    intros k tmp Hk. apply sv_set_in in Hk as [[= ->]|Hk]; [apply I | now apply (inv_tmp _ I k)].
  - (* rename: the temp file becomes the file *)
    constructor; cbn [live hist file buf saves built]; try apply I.
    + now apply (inv_tmp _ I i).
    + intros k tmp' Hk. apply sv_del_in in Hk as [_ Hk]. now apply (inv_tmp _ I k).
Qed.

(* every block of the offsets file (and of the shared buffer, of every temp file) is the offsets map one job
   had at an earlier instant — the instant a save held that job's lock — and no offset in it exceeds what is
   committed now; whether or not save keeps o.mu until the rename *)
Theorem snapshot_not_ahead : forall hold ls c,
  run_lts hold cst0 ls = Some c ->
  forall j m, block_of c j m ->
    (exists t, In t (live c :: hist c) /\ tget t j = Some m) /\
    (exists m', tget (live c) j = Some m' /\ forall s, sget m s <= sget m' s).
Proof.
  intros hold ls c H j m Hs. pose proof (run_Step hold inv (inv_step hold) ls cst0 c inv0 H) as I.
  assert (P : exists t, In t (live c :: hist c) /\ tget t j = Some m).
  { destruct Hs as [Hs|[Hs|[(i & t & Hi & Hs)|(i & t & Hi & Hs)]]];
      [apply (inv_file _ I) | apply (inv_buf _ I) | apply (inv_tmp _ I i t Hi) | apply (inv_built _ I i t Hi)]; exact Hs. }
  split; [exact P|]. destruct P as (t & [<-|Ht] & G); [now apply (tle_refl (live c)) | now apply (inv_hist _ I t Ht)].
Qed.

(* with o.mu held until after the rename the file is always ONE complete snapshot *)
Record hinv (c : cst) : Prop := {
  h_saves : forall i p, In (i, p) (saves c) ->
      mu c = Some i /\
      match p with
      | Building _ => True
      | Ready => In (i, buf c) (built c)
      | Written tmp => In (i, tmp) (built c)
      end;
  h_file : file_complete c
}.

Lemma hinv0 : hinv cst0.
Proof. constructor; cbn; [intros ? ? [] | reflexivity]. Qed.

(* a save that holds o.mu is the only one in flight: after its step, its new phase is the only entry *)
Lemma sv_set_owner c i q k p :
  hinv c -> mu c = Some i -> In (k, p) (sv_set (saves c) i q) -> k = i /\ p = q.
Proof.
  intros Hh Hm [[= <- <-]|Hk]; [now split|]. apply sv_del_in in Hk as [Hne Hk].
  apply (h_saves _ Hh) in Hk as [Hk _]. congruence.
Qed.

Lemma hinv_step c c' : hinv c -> Step true c c' -> hinv c'.
Proof.
  intros Hh [|t' Hle|i js M|i j rest M|i M|i P|i tmp P].
  - exact Hh.
  - destruct Hh. now constructor.
  - (* begin: o.mu was free, so no other save is in flight *)
    constructor; cbn [saves mu buf built file renamed]; [|exact (h_file c Hh)].
    intros k p [[= <- <-]|Hk]; [now split|]. apply sv_del_in in Hk as [_ Hk]. apply (h_saves _ Hh) in Hk as [Hk _]. congruence.
  - (* visit a job *)
    constructor; cbn [saves mu buf built file renamed]; [|exact (h_file c Hh)].
    intros k p Hk. apply (sv_set_owner _ _ _ _ _ Hh M) in Hk as [-> ->]. now split.
  - (* built: the lock is kept, the buffer is what this save serialised *)
    constructor; cbn [saves mu buf built file renamed].
    + intros k p Hk. apply (sv_set_owner _ _ _ _ _ Hh M) in Hk as [-> ->]. split; [exact M | now left].
    + pose proof (h_file c Hh) as F. unfold file_complete in *. cbn [renamed file built].
      destruct (renamed c); [destruct F as (k & F); exists k; now right | exact F].
  - (* write: the shared buffer is still what this save built *)
    destruct (h_saves c Hh _ _ P) as [M Hb].
    constructor; cbn [saves mu buf built file renamed]; [|exact (h_file c Hh)].
    intros k p Hk. apply (sv_set_owner _ _ _ _ _ Hh M) in Hk as [-> ->]. now split.
  - (* rename: nothing is left in flight, the file is what this save serialised *)
    destruct (h_saves c Hh _ _ P) as [M Hb].
    constructor; cbn [saves mu buf built file renamed]; [|now exists i].
    intros k p Hk. apply sv_del_in in Hk as [Hne Hk]. apply (h_saves c Hh) in Hk as [Hk _]. congruence.
Qed.

Theorem file_complete_when_mu_held : forall ls c, run_lts true cst0 ls = Some c -> file_complete c.
Proof. intros ls c H. exact (h_file c (run_Step true hinv hinv_step ls cst0 c hinv0 H)). Qed.

(* ... and with the lock released before the write it is not: save 1 serialises jobs 1 and 2 and unlocks;
   save 2 starts, resets the shared buffer and visits job 1; save 1 now writes the buffer — only job 1 — and
   renames: the file has lost job 2 *)
Definition overlap_trace : list label :=
  [LAddJob 1; LAddJob 2; LCommit 1 [97%N] 5; LCommit 2 [97%N] 6;
   LSaveBegin 1; LSaveJob 1; LSaveJob 1; LSaveBuilt 1;
   LSaveBegin 2; LSaveJob 2; LSaveWrite 1; LSaveRename 1].

Lemma file_complete_refuted_when_mu_released :
  exists c, run_lts false cst0 overlap_trace = Some c /\
            file c = [(1%N, [([97%N], 5)])] /\
            built c = [(1%nat, [(1%N, [([97%N], 5)]); (2%N, [([97%N], 6)])])] /\
            ~ file_complete c.
Proof.
  eexists. split; [vm_compute; reflexivity|]. split; [reflexivity|]. split; [reflexivity|].
  unfold file_complete. cbn. intros (i & [E|[]]). inversion E.
Qed.
