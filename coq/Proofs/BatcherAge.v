(* Proofs about the timed layer of the batcher (Model/BatcherAge.v): in every timed run the age of the OLDEST event of the
   current batch - counted from the first Add into the empty batch - bounds the time to the Seal and to the hand-over to the
   output, for every event of the batch, whatever arrives later and whatever the sizes are. *)
From Verif Require Import Base.Sx Model.Batcher Model.BatcherGlue Model.BatcherAge Proofs.ListFacts Proofs.Batcher
  Gen.BatcherGen.
From Verif Require Proofs.Lts.
From Coq Require Import Lia ZifyBool Bool List ZArith.
Import ListNotations.
Local Open Scope Z_scope.

(* opening one timed step: the time does not go back, the untimed LTS takes the same label to [b]; what is left in [H]
   is the timed part *)
Ltac tstep_open H b Ht Es :=
  unfold tstep in H;
  destruct (_ <? _) eqn:Ht in H; [discriminate H|]; apply Z.ltb_ge in Ht;
  destruct (step _ _ _) as [b|] eqn:Es in H; [|discriminate H].

Lemma tstep_base c tc s t l s' :
  tstep c tc s t l = Some s' -> step c (base s) l = Some (base s').
Proof.
  intros H. tstep_open H b Ht Es. rewrite Es.
  destruct l; step_split H; injection H as <-; reflexivity.
Qed.

(* [trun c tc] is the [run] of Proofs/Lts.v at [tstep c tc], a label being a pair (time, label of the batcher) *)
Lemma trun_lts c tc tls s : trun c tc s tls = Lts.run (fun s p => tstep c tc s (fst p) (snd p)) s tls.
Proof. apply Lts.run_unique; [reflexivity|intros s0 [t l] r; reflexivity]. Qed.

(* a timed run is a run of the untimed LTS: every theorem of Properties/C08.v holds of its base state *)
Lemma trun_is_run c tc : forall tls s s',
  trun c tc s tls = Some s' -> run c (base s) (map snd tls) = Some (base s').
Proof.
  intros tls s s'. rewrite trun_lts, run_lts.
  replace (map snd tls) with (flat_map (fun p => [snd p]) tls) by (induction tls; cbn; congruence).
  apply Lts.run_sim. intros a p a' E%tstep_base. cbn [Lts.run]. rewrite E. reflexivity.
Qed.

Lemma trun_invariant c tc (P : tst -> Prop) :
  (forall s t l s', P s -> tstep c tc s t l = Some s' -> P s') ->
  forall tls s s', P s -> trun c tc s tls = Some s' -> P s'.
Proof. intros Hstep tls s s'. rewrite trun_lts. apply Lts.run_invariant. intros s0 [t l] s1. apply Hstep. Qed.

(* the timed history mirrors the LTS: tcur = the current batch, tsealed = the sealed batches *)
Definition tmirror (s : tst) : Prop :=
  map fst (tcur s) = cur_list (base s) /\
  map (fun r : trec => rev (map fst (snd r))) (tsealed s) = sealed_hist (base s).

Lemma tmirror_step c tc s t l s' : tmirror s -> tstep c tc s t l = Some s' -> tmirror s'.
Proof.
  intros [H1 H2] H. tstep_open H b Ht Es. destruct (step_cur_sealed _ _ _ _ Es) as [Ec Eh]. unfold tmirror.
  destruct l; step_split H; injection H as <-; cbn [base tcur tsealed tset]; rewrite Ec, Eh; cbn [map fst snd] in *; split; congruence.
Qed.

Lemma tmirror_reach c tc tls s : trun c tc (tinit c) tls = Some s -> tmirror s.
Proof.
  intros Hr. assert (Hi : tmirror (tinit c)) by (split; reflexivity).
  exact (trun_invariant c tc tmirror (tmirror_step c tc) tls _ _ Hi Hr).
Qed.

Definition oldest_is (l : list (ev * Z)) (a : Z) : Prop := exists e l0, l = l0 ++ [(e, a)].

(* the clock [bo] of the current batch [cu] runs exactly when the batch is non-empty; it shows the add time of the oldest
   event, which no event precedes; the latest decision [se] found the oldest event not older than the time-out *)
Definition clock_ok (tc : tcfg) (cu : list (ev * Z)) (bo : option Z) (se now : Z) : Prop :=
  match bo with
  | None => cu = []
  | Some a => oldest_is cu a /\ (forall p, In p cu -> a <= snd p <= now) /\
              a <= se <= now /\ se - a <= flushT tc + lag tc
  end.

(* sealed: every event within seal_bound of its own Add *)
Definition sealed_ok (tc : tcfg) (now : Z) (sl : list trec) : Prop :=
  forall q z tevs, In (q, z, tevs) sl -> z <= now /\ forall e a, In (e, a) tevs -> 0 <= z - a <= seal_bound tc.

(* handed to the output: the batch is a sealed one, every event within handoff_bound of its own Add *)
Definition handed_ok (tc : tcfg) (sl hl : list trec) : Prop :=
  forall q h tevs, In (q, h, tevs) hl ->
    (exists z, In (q, z, tevs) sl) /\ forall e a, In (e, a) tevs -> 0 <= h - a <= handoff_bound tc.

Definition tinv (tc : tcfg) (s : tst) : Prop :=
  clock_ok tc (tcur s) (born s) (seen s) (tnow s) /\ sealed_ok tc (tnow s) (tsealed s) /\
  handed_ok tc (tsealed s) (thanded s).

Lemma tinv_init c tc : tinv tc (tinit c).
Proof. split; [reflexivity|split; intros ? ? ? []]. Qed.

Lemma clock_later tc cu bo se now now' : now <= now' -> clock_ok tc cu bo se now -> clock_ok tc cu bo se now'.
Proof.
  intros Hn. destruct bo as [a|]; [|exact (fun H => H)]. intros (Ho & Ha & Hs & Hf).
  split; [exact Ho|split; [|lia]]. intros p Hp. specialize (Ha p Hp). lia.
Qed.

Lemma sealed_later tc now now' sl : now <= now' -> sealed_ok tc now sl -> sealed_ok tc now' sl.
Proof. intros Hn S q z tevs Hin. destruct (S q z tevs Hin) as [Hz Hp]. split; [lia|exact Hp]. Qed.

Lemma handed_more tc x sl hl : handed_ok tc sl hl -> handed_ok tc (x :: sl) hl.
Proof. intros Hd q h tevs Hin. destruct (Hd q h tevs Hin) as [[z Hz] Hp]. split; [exists z; right; exact Hz|exact Hp]. Qed.

Lemma find_sealed_In l q r : find_sealed l q = Some r -> In r l /\ fst (fst r) = q.
Proof.
  unfold find_sealed. intros H. apply find_some in H. destruct H as [H1 H2]. apply Z.eqb_eq in H2. auto.
Qed.

Lemma tinv_step c tc s t l s' :
  0 <= flushT tc + lag tc -> tinv tc s -> tstep c tc s t l = Some s' -> tinv tc s'.
Proof.
  intros HT (C & S & Hd) H. tstep_open H b Ht Es.
  pose proof (clock_later _ _ _ _ _ _ Ht C) as C'. pose proof (sealed_later _ _ _ _ Ht S) as S'.
  (* the three clauses are split once, for all labels: left are those that the label changes *)
  destruct l; step_split H; injection H as <-; unfold tinv; cbn [tnow born seen tcur tsealed thanded tset];
    (split; [|split]); try exact C'; try exact S'; try exact Hd.
  - (* the first Add into the empty batch starts its clock *)
    split; [exists e, []; reflexivity|]. split; [|lia]. intros p [<-|[]]. cbn [snd]. lia.
  - (* a later Add leaves born and seen alone *)
    destruct (born s) as [a|]; [|discriminate C'].
    destruct C' as ((e0 & l0 & Ho) & Ha & Hs & Hf). split; [exists e0, ((e, t) :: l0); rewrite Ho; reflexivity|].
    split; [|split; assumption]. intros x [<-|Hx]; [cbn [snd]; lia|exact (Ha x Hx)].
  - (* NotReady on a non-empty batch: its oldest event is within the time-out at t *)
    bnorm. destruct C' as (Ho & Ha & Hs & Hf). split; [exact Ho|split; [exact Ha|lia]].
  - (* NotReady on an empty batch *) match goal with E : born s = None |- _ => rewrite E end. exact C'.
  - (* Seal: the batch that follows is empty, its clock stopped *) reflexivity.
  - (* the oldest event of the sealed one was young at the latest decision, one period ago at most *)
    bnorm. intros q z tevs [E|Hin]; [|exact (S' q z tevs Hin)]. injection E as <- <- <-. split; [lia|]. intros e0 a0 Hp.
    destruct (born s) as [a|]; [|rewrite C in Hp; destruct Hp]. destruct C as (_ & Ha & Hs & Hf). specialize (Ha _ Hp).
    unfold seal_bound. cbn [snd] in Ha. lia.
  - exact (handed_more _ _ _ _ Hd).
  - (* OutBegin: handed over within [lag] of the Seal *)
    bnorm. intros q h tevs [E|Hin]; [|exact (Hd q h tevs Hin)]. injection E as <- <- <-.
    match goal with Ef : find_sealed _ _ = Some _ |- _ => apply find_sealed_In in Ef; destruct Ef as [Ein Eq] end.
    cbn [fst] in Eq. subst. split; [eexists; exact Ein|]. intros e0 a0 Hp. destruct (S _ _ _ Ein) as [Hz Hall].
    specialize (Hall _ _ Hp). unfold handoff_bound, seal_bound in *. lia.
Qed.

Lemma tinv_reach c tc tls s : 0 <= flushT tc + lag tc -> trun c tc (tinit c) tls = Some s -> tinv tc s.
Proof.
  intros HT Hr.
  exact (trun_invariant c tc (tinv tc) (fun s t l s' => tinv_step c tc s t l s' HT) tls _ _ (tinv_init c tc) Hr).
Qed.

(* "batch start" = the first Add into the empty batch: in every reachable timed state the clock of the batch runs exactly
   when the LTS's current batch is non-empty, and it shows the add time of the OLDEST event of that batch (the last element
   of the newest-first list), which no event of the batch precedes *)
Lemma batch_start_is_first_add c tc tls s :
  0 <= flushT tc + lag tc -> trun c tc (tinit c) tls = Some s ->
  map fst (tcur s) = cur_list (base s) /\
  (cur_list (base s) = [] -> born s = None) /\
  (cur_list (base s) <> [] ->
     exists a e l0, born s = Some a /\ tcur s = l0 ++ [(e, a)] /\ forall p, In p (tcur s) -> a <= snd p <= tnow s).
Proof.
  intros HT Hr. destruct (tmirror_reach c tc tls s Hr) as [Hm _].
  destruct (tinv_reach c tc tls s HT Hr) as (C & _). rewrite <- Hm. split; [reflexivity|].
  destruct (born s) as [a|].
  - destruct C as ((e & l0 & Ho) & Ha & _). split.
    + intros Hc. rewrite Ho in Hc. destruct l0; discriminate Hc.
    + intros _. exists a, e, l0. auto.
  - rewrite C. split; [reflexivity|]. intros Hc. destruct (Hc eq_refl).
Qed.

(* a NotReady decision on a non-empty batch is enabled only while its oldest event is not older than the time-out
   (timed counterpart of c08_idle_flush_decision: the age is measured by the model, not reported by the code) *)
Lemma not_ready_means_young c tc s t n b el tmo s' a :
  tstep c tc s t (LNotReady n b el tmo) = Some s' -> born s = Some a -> t - a <= flushT tc + lag tc.
Proof.
  intros H Hb. tstep_open H x Ht Es. rewrite Hb in H. step_split H. bnorm. assumption.
Qed.

(* the age of the oldest event bounds the time to seal: every event of every sealed batch was added at most
   FlushTimeout + period + 2 lag before the Seal - whatever was added after it, whatever the sizes *)
Lemma oldest_age_bounds_seal c tc tls s :
  0 <= flushT tc + lag tc -> trun c tc (tinit c) tls = Some s ->
  forall q z tevs e a, In (q, z, tevs) (tsealed s) -> In (e, a) tevs ->
    0 <= z - a <= flushT tc + period tc + 2 * lag tc.
Proof.
  intros HT Hr q z tevs e a Hin He.
  destruct (tinv_reach c tc tls s HT Hr) as (_ & S & _).
  exact (proj2 (S q z tevs Hin) e a He).
Qed.

(* ... and the time to the hand-over: every event a worker hands to OutFn was added at most FlushTimeout + period + 3 lag
   before; the batch handed over is a sealed batch *)
Lemma oldest_age_bounds_handoff c tc tls s :
  0 <= flushT tc + lag tc -> trun c tc (tinit c) tls = Some s ->
  forall q h tevs, In (q, h, tevs) (thanded s) ->
    (exists z, In (q, z, tevs) (tsealed s)) /\
    forall e a, In (e, a) tevs -> 0 <= h - a <= flushT tc + period tc + 3 * lag tc.
Proof.
  intros HT Hr. exact (proj2 (proj2 (tinv_reach c tc tls s HT Hr))).
Qed.

(* the timed records are the sealed batches of the LTS, in the same order *)
Lemma tsealed_are_the_sealed_batches c tc tls s :
  trun c tc (tinit c) tls = Some s ->
  map (fun r : trec => rev (map fst (snd r))) (tsealed s) = sealed_hist (base s).
Proof. intros Hr. exact (proj2 (tmirror_reach c tc tls s Hr)). Qed.

Definition age_cfg : cfg :=
  {| workers := 1; maxCount := 1000; maxBytes := 0; retriable := false; retry := 0; deadq := false;
     atomic_push := batcher_atomic_push |}.
Definition age_tc : tcfg := {| flushT := 150000; period := 100000; lag := 1000 |}.
Definition age_e (i : Z) : ev := {| eid := i; esrc := 0; esize := 0; ekind := 1 |}.   (* zero-size children *)
(* three zero-size events 30 ms apart; ticks at 100 ms and 200 ms; the second one seals by time-out *)
Definition age_good : list (Z * label) :=
  [(0, LFree); (10, LAdd (age_e 1)); (11, LNotReady 1 0 11 150000);
   (30010, LAdd (age_e 2)); (30011, LNotReady 2 0 30 150000);
   (60010, LAdd (age_e 3)); (60011, LNotReady 3 0 60 150000);
   (100000, LTick); (100001, LNotReady 3 0 100 150000);
   (200000, LTick); (200001, LSeal 0 3 2 0); (200001, LPush 0); (200100, LTake 0); (200101, LOutBegin 0 3)].
(* the regression: every Add into the batch of zero-size events restarted the code's timer, so the code reports a small
   elapsed value and answers NotReady at 200 ms although the oldest event is 200 ms old *)
Definition age_bad : list (Z * label) :=
  [(0, LFree); (10, LAdd (age_e 1)); (11, LNotReady 1 0 11 150000);
   (100000, LTick); (100001, LNotReady 1 0 100 150000);
   (150000, LAdd (age_e 2)); (150001, LNotReady 2 0 1 150000);
   (200000, LTick); (200001, LNotReady 2 0 50 150000)].

Lemma age_nonvacuous :
  (exists s, trun age_cfg age_tc (tinit age_cfg) age_good = Some s /\
             tsealed s = [(0, 200001, [(age_e 3, 60010); (age_e 2, 30010); (age_e 1, 10)])] /\
             thanded s = [(0, 200101, [(age_e 3, 60010); (age_e 2, 30010); (age_e 1, 10)])] /\ born s = None) /\
  (* the untimed LTS accepts the regression's trace (the code's own elapsed values are small), the timed layer refuses it *)
  (exists s, run age_cfg (init age_cfg) (map snd age_bad) = Some s) /\
  trun age_cfg age_tc (tinit age_cfg) age_bad = None.
Proof.
  split; [eexists; vm_compute; repeat split; reflexivity|].
  split; [eexists; vm_compute; reflexivity|vm_compute; reflexivity].
Qed.
