(* Proofs about the streams sub-model of Model/Worker.v (which = 9 | 10): the "already delivered" filter of the file input
   (Plugin.PassEvent, the CRI short-cut of Pipeline.In) behind the worker. Everything is stated for EVERY decoder function
   [dc] (what the pipeline's decoder and stream_field make of the accepted bytes), every table of saved stream offsets,
   every configuration; the worker side comes from worker_general and [reached] (Proofs/Worker.v), over a file that grows
   from [consumed] (Proofs/WorkerMaint.v). *)
From Verif Require Import Base.Sx Base.GoSem Model.Worker Proofs.GoSemFacts Proofs.Worker Proofs.WorkerMaint.
From Coq Require Import Lia ZifyBool.

Definition passed (sv : saved) (e : sevent) : bool := pass_event sv (ev_stream e) (ev_off e).
Definition of_stream (s : bytes) (e : sevent) : bool := bytes_eqb (ev_stream e) s.

Lemma filter_flat_map {A B} (f : B -> bool) (g : A -> list B) l :
  filter f (flat_map g l) = flat_map (fun x => filter f (g x)) l.
Proof.
  induction l as [|a l IH]; [reflexivity|]. cbn [flat_map]. rewrite filter_app, IH. reflexivity.
Qed.

Lemma filter_comm {A} (f g : A -> bool) l : filter f (filter g l) = filter g (filter f l).
Proof.
  induction l as [|a l IH]; [reflexivity|]. cbn [filter].
  destruct (g a) eqn:Hg, (f a) eqn:Hf; cbn [filter]; rewrite ?Hg, ?Hf, IH; reflexivity.
Qed.

(* what the short-cut of Pipeline.In drops, PassEvent would have dropped as well: it is an optimisation, never a decision *)
Lemma shortcut_implies_not_passed sv s off : in_shortcut sv s off = true -> pass_event sv s off = false.
Proof.
  unfold in_shortcut, pass_event, above. destruct (saved_get sv s) as [o|]; [|discriminate]. intros H. lia.
Qed.

Theorem pass_event_rule sv s off :
  pass_event sv s off = match saved_get sv s with None => true | Some o => o <? off end.
Proof. reflexivity. Qed.

(* PassEvent's rule with the saved offset o: exactly the offsets ABOVE o pass - the line that ends AT o (the last line
   committed for the stream) does not *)
Theorem pass_event_at_saved_offset sv s o : saved_get sv s = Some o ->
  pass_event sv s o = false /\ (forall off, pass_event sv s off = true <-> o < off).
Proof.
  intros H. unfold pass_event, above. rewrite H. split; [lia|]. intros off. lia.
Qed.

Lemma sdecoded1_shape dc c e : sdecoded1 dc c e = [] \/ exists s p, sdecoded1 dc c e = [(fst e, s, p)].
Proof.
  unfold sdecoded1. destruct (check_input c (snd e)) as [[out cf] ok]. destruct ok; [|left; reflexivity].
  destruct (dc out) as [[[s p] partial]|]; [right; eauto|left; reflexivity].
Qed.

Lemma sdeliver1_filter dc sc sv c e : sdeliver1 dc sc sv c e = filter (passed sv) (sdecoded1 dc c e).
Proof.
  unfold sdeliver1, sdecoded1. destruct (check_input c (snd e)) as [[out cf] ok]. destruct ok; [|reflexivity].
  destruct (dc out) as [[[s p] partial]|]; [|reflexivity].
  cbn [filter]. unfold passed at 1. cbn [ev_stream ev_off fst snd].
  destruct (sc && negb partial && in_shortcut sv s (fst e)) eqn:H.
  - apply andb_prop in H. destruct H as [_ H]. rewrite (shortcut_implies_not_passed _ _ _ H). reflexivity.
  - destruct (pass_event sv s (fst e)); reflexivity.
Qed.

(* what is delivered = the accepted, decodable lines that PassEvent's rule selects, in their order; the short-cut of In
   (sc) makes no difference *)
Theorem sdeliver_filter dc sc sv c es : sdeliver dc sc sv c es = filter (passed sv) (sdecoded dc c es).
Proof.
  unfold sdeliver, sdecoded. rewrite filter_flat_map. apply flat_map_ext. intros e. apply sdeliver1_filter.
Qed.

Theorem sdeliver_shortcut_irrelevant dc sc sc' sv c es : sdeliver dc sc sv c es = sdeliver dc sc' sv c es.
Proof. rewrite !sdeliver_filter. reflexivity. Qed.

(* per stream: the delivered events of stream s = the lines of s that end above saved(s) (all of them when s has no saved
   offset), in order *)
Theorem sdeliver_per_stream dc sc sv c es s :
  filter (of_stream s) (sdeliver dc sc sv c es)
  = filter (fun e => above (saved_get sv s) (ev_off e)) (filter (of_stream s) (sdecoded dc c es)).
Proof.
  rewrite sdeliver_filter, filter_comm.
  apply filter_ext_in. intros e H. apply filter_In in H. destruct H as [_ H]. apply bytes_eqb_eq in H.
  unfold passed, pass_event. rewrite H. reflexivity.
Qed.

(* the saved offsets after truncateJob (all 0): every line passes again *)
Lemma saved_get_zero sv s : saved_get (saved_zero sv) s = match saved_get sv s with Some _ => Some 0 | None => None end.
Proof.
  induction sv as [|[n o] sv IH]; [reflexivity|]. cbn [saved_zero map saved_get fst].
  destruct (bytes_eqb n s); [reflexivity|]. exact IH.
Qed.

Theorem saved_zero_passes sv s off : 0 < off ->
  pass_event (saved_zero sv) s off = true /\ in_shortcut (saved_zero sv) s off = false.
Proof.
  intros H. unfold pass_event, in_shortcut, above. rewrite saved_get_zero.
  destruct (saved_get sv s); split; try reflexivity; lia.
Qed.

Lemma sdecoded_emitR dc c E E' : 0 <= wmax c -> Forall2 (emitR c) E E' -> sdecoded dc c E = sdecoded dc c E'.
Proof.
  intros Hm H. induction H as [|[o d] [o' d'] l l' [H1 H2] _ IH]; [reflexivity|].
  unfold sdecoded in *. cbn [flat_map]. rewrite IH. f_equal.
  unfold sdecoded1. cbn [fst snd] in *. subst o'. rewrite (dataR_check_input c d d' Hm H2). reflexivity.
Qed.

(* every configuration, every start offset, every pass / read structure: the accepted and decoded lines behind the worker
   are those of the specification (the complete lines of the content with their end offsets, size rule applied) *)
Theorem worker_decoded dc c o sk0 rs : 0 <= wmax c ->
  sdecoded dc c (fst (rounds c (st_at o sk0) rs)) = sdecoded dc c (spec_emits c sk0 o (flat rs)).
Proof.
  intros Hm. apply sdecoded_emitR; [exact Hm|apply worker_emits, Hm].
Qed.

(* the property clause of the streams sub-model: what reaches the output for stream s, whatever the reads, passes, saved
   offsets, decoder and short-cut setting: the lines of s in the content that end above saved(s), in order *)
Theorem worker_stream_events dc sc sv c o sk0 rs s : 0 <= wmax c ->
  filter (of_stream s) (sdeliver dc sc sv c (fst (rounds c (st_at o sk0) rs)))
  = filter (fun e => above (saved_get sv s) (ev_off e))
           (filter (of_stream s) (sdecoded dc c (spec_emits c sk0 o (flat rs)))).
Proof.
  intros Hm. etransitivity; [apply sdeliver_per_stream|]. rewrite (worker_decoded dc c o sk0 rs Hm). reflexivity.
Qed.

Theorem worker_events_filtered dc sc sv c o sk0 rs : 0 <= wmax c ->
  sdeliver dc sc sv c (fst (rounds c (st_at o sk0) rs)) = filter (passed sv) (sdecoded dc c (spec_emits c sk0 o (flat rs))).
Proof. intros Hm. rewrite sdeliver_filter. rewrite (worker_decoded dc c o sk0 rs Hm). reflexivity. Qed.

(* strictly ascending and above b: the shape of the end offsets behind the worker (lines are non-empty); a commit moves a
   saved offset to the offset just handed over, so it cannot change the decision for a later, larger one (sdeliver_upd_same) *)
Fixpoint asc (b : Z) (l : list Z) : Prop := match l with [] => True | x :: r => b < x /\ asc x r end.

Lemma asc_weaken b b' l : b' <= b -> asc b l -> asc b' l.
Proof. destruct l as [|x r]; [trivial|]. cbn [asc]. intros H [H1 H2]. split; [lia|exact H2]. Qed.

Lemma asc_tl b l : asc b l -> asc b (tl l).
Proof.
  destruct l as [|x r]; [trivial|]. cbn [asc tl]. intros [H1 H2]. apply (asc_weaken x); [lia|exact H2].
Qed.

Lemma asc_filter {A} (f : A -> bool) (g : A -> Z) : forall l b, asc b (map g l) -> asc b (map g (filter f l)).
Proof.
  induction l as [|a l IH]; intros b H; [exact H|]. cbn [map asc filter] in *. destruct H as [H1 H2].
  destruct (f a); cbn [map asc].
  - split; [exact H1|apply IH; exact H2].
  - apply IH. apply (asc_weaken (g a)); [lia|exact H2].
Qed.

Lemma is_line_len l : is_line l -> 0 < len l.
Proof. intros [l0 [H _]]. subst. unfold len. rewrite app_length. cbn [length]. lia. Qed.

Lemma asc_with_off ls : Forall is_line ls -> forall base, asc base (map fst (with_off base ls)).
Proof.
  induction 1 as [|l ls Hl _ IH]; intros base; [exact I|]. cbn [with_off map fst asc].
  split; [pose proof (is_line_len l Hl); lia|apply IH].
Qed.

Lemma asc_spec_emits c sk0 o b : asc o (map fst (spec_emits c sk0 o b)).
Proof.
  unfold spec_emits, size_filter. apply asc_filter.
  pose proof (asc_with_off _ (proj1 (proj2 (split_lines_spec b))) o) as H.
  destruct sk0; [|exact H]. cbn [drop_first].
  destruct (with_off o _) as [|e r]; [exact I|exact (asc_tl o _ H)].
Qed.

Lemma asc_sdecoded dc c : forall es b, asc b (map fst es) -> asc b (map ev_off (sdecoded dc c es)).
Proof.
  induction es as [|e es IH]; intros b H; [exact I|]. cbn [map asc] in H. destruct H as [H1 H2].
  unfold sdecoded. cbn [flat_map]. fold (sdecoded dc c es).
  destruct (sdecoded1_shape dc c e) as [->|(s & p & ->)]; cbn [app map asc ev_off fst].
  - apply IH. apply (asc_weaken (fst e)); [lia|exact H2].
  - split; [exact H1|apply IH; exact H2].
Qed.

(* every event behind the specification's lines carries another, larger offset than the one before it: a line is
   delivered at most once, and the order of the events is the order of the file *)
Theorem delivered_offsets_increase dc sc sv c o sk0 rs : 0 <= wmax c ->
  asc o (map ev_off (sdeliver dc sc sv c (fst (rounds c (st_at o sk0) rs)))).
Proof.
  intros Hm. rewrite (worker_events_filtered dc sc sv c o sk0 rs Hm). apply asc_filter.
  apply asc_sdecoded. apply asc_spec_emits.
Qed.

Definition same_above (b : Z) (sv sv' : saved) : Prop :=
  forall s off, b < off -> pass_event sv' s off = pass_event sv s off.

Lemma saved_get_set sv s o s2 :
  saved_get (saved_set sv s o) s2 = if bytes_eqb s s2 then Some o else saved_get sv s2.
Proof.
  induction sv as [|[n x] sv IH]; cbn [saved_set saved_get].
  - reflexivity.
  - destruct (bytes_eqb_spec n s) as [->|N]; cbn [saved_get].
    + destruct (bytes_eqb s s2); reflexivity.
    + rewrite IH. destruct (bytes_eqb_spec n s2), (bytes_eqb_spec s s2); congruence.
Qed.

Lemma same_above_commit b sv sv' s o : same_above b sv sv' -> b < o -> pass_event sv s o = true ->
  same_above o sv (saved_set sv' s o).
Proof.
  intros HS Hb Hp s2 off Ho. unfold pass_event at 1. rewrite saved_get_set.
  destruct (bytes_eqb s s2) eqn:E; [|apply HS; lia].
  apply bytes_eqb_eq in E. subst s2. unfold pass_event, above in *. destruct (saved_get sv s); lia.
Qed.

Lemma sdeliver_upd_same dc sc c : forall es b sv sv', asc b (map fst es) -> same_above b sv sv' ->
  sdeliver_upd dc sc sv' c es = sdeliver dc sc sv c es.
Proof.
  induction es as [|e es IH]; intros b sv sv' Ha HS; [reflexivity|].
  cbn [map asc] in Ha. destruct Ha as [Hb Ha].
  assert (HS' : same_above (fst e) sv sv') by (intros s off Ho; apply HS; lia).
  cbn [sdeliver_upd]. unfold sdeliver. cbn [flat_map]. fold (sdeliver dc sc sv c es). rewrite !sdeliver1_filter.
  destruct (sdecoded1_shape dc c e) as [->|(s & p & ->)]; cbn [filter app]; [exact (IH _ _ _ Ha HS')|].
  unfold passed. cbn [ev_stream ev_off fst snd]. rewrite (HS s (fst e) Hb).
  destruct (pass_event sv s (fst e)) eqn:Hp; cbn [app commit_all fold_left ev_stream ev_off fst snd].
  - f_equal. apply (IH (fst e)); [exact Ha|]. apply (same_above_commit b); assumption.
  - exact (IH _ _ _ Ha HS').
Qed.

(* committing every delivered event at once (jobProvider.commit moves the saved offset of the event's stream before the
   next line is handed over) and never committing during the pass give the same events: whenever the commits of a pass
   arrive, the decisions are those of the table the job was resumed with *)
Theorem commit_timing_irrelevant dc sc sv c o sk0 b :
  sdeliver_upd dc sc sv c (spec_emits c sk0 o b) = sdeliver dc sc sv c (spec_emits c sk0 o b).
Proof.
  apply (sdeliver_upd_same dc sc c _ o); [apply asc_spec_emits|]. intros s off _. reflexivity.
Qed.

(* no delivered event ends at or below the saved offset of its stream - for ANY list of (offset, data) the worker may hand
   over (a compressed job re-reads from a read buffer boundary in front of the smallest saved offset) *)
Theorem sdeliver_all_passed dc sc sv c es : Forall (fun e => passed sv e = true) (sdeliver dc sc sv c es).
Proof.
  rewrite sdeliver_filter. apply Forall_forall. intros e H. apply filter_In in H. exact (proj2 H).
Qed.

Lemma sdecoded_filter_off dc c m es :
  filter (fun e => m <? ev_off e) (sdecoded dc c es) = sdecoded dc c (filter (fun e : emit => m <? fst e) es).
Proof.
  unfold sdecoded. induction es as [|e es IH]; [reflexivity|]. cbn [flat_map filter]. rewrite filter_app, IH.
  destruct (sdecoded1_shape dc c e) as [H|(s & p & H)]; rewrite H; cbn [filter ev_off fst app];
    destruct (m <? fst e); cbn [flat_map app]; rewrite ?H; reflexivity.
Qed.

(* the compressed pass (skip loop + reads of the buffer size) of a job resumed from the saved offsets sv whose minimum m is a
   line end of the content: behind m exactly what PassEvent's rule selects from the lines of the content behind m
   ([o :: offs] = the saved offsets, as in lz4_pass_exact: [o] is not a start offset) *)
Theorem lz4_stream_events dc sc (sv : saved) n content offs (o : Z) :
  (0 < n)%nat -> map snd sv = o :: offs -> let m := min_list o offs in
  0 <= m <= len content -> snd (split_lines (take m content)) = [] ->
  let k := {| z_cfg := nolimit; z_offs := map snd sv; z_frames := [content]; z_n := n |} in
  let '(L, es, st) := z_pass k in
  filter (fun e => m <? ev_off e) (sdeliver dc sc sv nolimit es)
  = filter (passed sv) (sdecoded dc nolimit (with_off m (fst (split_lines (drop m content))))).
Proof.
  intros Hn Hsv m Hm Hend k. unfold k. rewrite Hsv.
  pose proof (lz4_pass_exact n content offs o Hn) as H. cbv zeta in H. specialize (H Hm Hend).
  destruct (z_pass {| z_cfg := nolimit; z_offs := o :: offs; z_frames := [content]; z_n := n |}) as [[L es] st].
  destruct H as [_ [H _]]. rewrite sdeliver_filter, filter_comm, sdecoded_filter_off. unfold m. rewrite H. reflexivity.
Qed.

Lemma sevent_roundtrip evs : opt_map sevent_of_sx (map sx_of_sevent evs) = Some evs.
Proof.
  induction evs as [|[[o s] p] evs IH]; [reflexivity|]. cbn [map opt_map sx_of_sevent sevent_of_sx]. rewrite IH. reflexivity.
Qed.

Lemma sevent_eqb_refl_list l : forall2b sevent_eqb l l = true.
Proof.
  induction l as [|[[o s] p] l IH]; [reflexivity|]. cbn [forall2b sevent_eqb].
  rewrite Z.eqb_refl, !bytes_eqb_refl, IH. reflexivity.
Qed.

Lemma as_bool_of_bool b : as_bool (of_bool b) = Some b.
Proof. destruct b; reflexivity. Qed.

Lemma sdeliver_app dc sc sv c E1 E2 : sdeliver dc sc sv c (E1 ++ E2) = sdeliver dc sc sv c E1 ++ sdeliver dc sc sv c E2.
Proof. unfold sdeliver. apply flat_map_app. Qed.

(* every run of the streams model of a plain file - any decoder, saved offsets whose minimum p0 lies inside what the file
   holds when the job is added, any appends and read buffer sizes - satisfies the predicate the correspondence check
   applies to the implementation's observable *)
Theorem streams_pred_holds dc sc c sv p0 : 0 <= wmax c -> forall rl file st E,
  Forall (fun r : bytes * nat => (0 < snd r)%nat) rl -> consumed c p0 false file E st ->
  s_pred dc sc c p0 sv file (sdeliver dc sc sv c E) rl (map sx_of_spass (s_trace dc sc c st sv file rl)) = true.
Proof.
  intros Hm. induction rl as [|[a n] rl IH]; intros file st E Hn HI; [reflexivity|].
  inversion Hn as [|x y Hn1 Hn2]; subst. cbn [snd] in Hn1.
  apply (consumed_app _ _ _ _ a) in HI. cbn [s_trace].
  generalize (consumed_pass c p0 false _ E st _ Hm HI (chunks_concat n _ Hn1)).
  destruct (round c st _) as [es st1]. intros (HI1 & (HF & _ & Hs & Ha) & Hpos).
  destruct HI as [Hlen _].
  replace (cur st1 >? len (file ++ a)) with false by lia.
  cbn [map sx_of_spass s_pred]. rewrite sevent_roundtrip, !as_bool_of_bool.
  cbn [andb] in Hs. rewrite Hs.
  replace (len (file ++ a) <? p0) with false by lia.
  rewrite <- sdeliver_app. rewrite sdeliver_filter at 1.
  rewrite (sdecoded_emitR dc c _ _ Hm HF), sevent_eqb_refl_list, (tail_relb_complete _ _ _ Ha), Hpos, !Z.eqb_refl.
  exact (IH _ _ _ Hn2 HI1).
Qed.

(* from the start of a case: the job is at the smallest saved offset with an empty tail, nothing behind it is read yet *)
Corollary streams_model_satisfies_pred dc sc c sv pre rl : 0 <= wmax c ->
  0 <= s_start sv <= len pre -> Forall (fun r : bytes * nat => (0 < snd r)%nat) rl ->
  s_pred dc sc c (s_start sv) sv pre [] rl
         (map sx_of_spass (s_trace dc sc c {| cur := s_start sv; tail := []; skip := false |} sv pre rl)) = true.
Proof.
  intros Hm Hp Hn. exact (streams_pred_holds dc sc c sv _ Hm rl pre _ [] Hn (consumed_start c _ false pre Hp)).
Qed.
