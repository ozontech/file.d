(* convert_utf8_bytes: the escape scanner never indexes or slices out of range and never runs out
   of fuel, for every string, every IsGraphic and both settings of replace_non_graphic. *)
From Verif Require Import Base.Sx Base.GoSem Model.Decoders.Common Proofs.GoSemFacts Model.Actions.ConvertUtf8.
From Coq Require Import Lia ZifyBool.

Lemma hex_run_ok : forall fuel s sb pos,
  0 <= pos <= len s -> len s - pos < Z.of_nat fuel ->
  exists sb' pos', hex_run fuel s sb pos = Ok (sb', pos') /\ pos <= pos' <= len s.
Proof.
  induction fuel as [|f IH]; intros s sb pos Hp Hf; [lia|]. apply returns_pair.
  cbn [hex_run]. destruct (4 <=? len s - pos) eqn:E4; [|cbn; lia].
  next_slice p2. destruct (bytes_eqb p2 [BSL; 120%N]); [|cbn; lia].
  next_slice d. eapply post_weaken; [apply returns_pair, IH; lia|]. intros [sb' pos']. lia.
Qed.

Section Total.
Variable is_graphic : Z -> bool.
Variable replace_non_graphic : bool.

(* at an exit [cbn] leaves the bound on the rest that is handed back; the lengths of the slices taken on the way give it *)
Lemma convert_switch_ok : forall s acc, s <> [] ->
  exists acc' s', convert_switch is_graphic replace_non_graphic s acc = Ok (acc', s') /\ len s' <= len s.
Proof.
  intros s acc Hne. apply returns_pair. unfold convert_switch.
  assert (Hl : 1 <= len s) by (destruct s; [contradiction|rewrite len_cons; pose_lens; lia]).
  next_idx ch.
  destruct (beq ch BSL).
  { next_slice s1. cbn; lia. }
  destruct (beq ch 117%N || beq ch 85%N).
  { next_slice s1. set (size := if beq ch 85%N then 8 else 4).
    assert (Hs : size = 4 \/ size = 8) by (unfold size; destruct (beq ch 85%N); auto).
    destruct (len s1 <? size) eqn:E1; [cbn; lia|].
    next_slice ss. destruct (parse_hex ss) as [u0|]; [|cbn; lia].
    next_slice s2.
    destruct ((size =? 8) || negb (is_surrogate (to_rune _))); [cbn; lia|].
    destruct (len s2 <? 6) eqn:E6; [cbn; lia|].
    next_slice p2. destruct (negb (bytes_eqb p2 [BSL; 117%N])); [cbn; lia|].
    next_slice h2. destruct (parse_hex h2) as [u2|]; [|cbn; lia].
    next_slice s3. cbn; lia. }
  destruct (beq ch 120%N).
  { next_slice s1. destruct (len s1 <? 2) eqn:E2; [cbn; lia|].
    next_slice sb0.
    eapply post_bind; [apply returns_pair, (hex_run_ok (S (length s1)) s1 _ 2); [lia|rewrite len_length; lia]|].
    intros [sb' pos'] B. next_slice rest.
    destruct (hex_decode (rev_append sb' [])); [cbn; lia|].
    next_slice raw. cbn; lia. }
  destruct ((48 <=? ch)%N && (ch <=? 51)%N).
  { destruct (len s <? 3) eqn:E3; [cbn; lia|].
    next_slice o. destruct (parse_oct o); [|cbn; lia].
    next_slice s1. cbn; lia. }
  cbn; lia.
Qed.

Lemma convert_loop_total : forall fuel s acc p,
  len s < Z.of_nat fuel -> convert_loop is_graphic replace_non_graphic fuel s acc <> Panic p.
Proof.
  intros fuel s acc p Hf. apply (post_total False _ (fun _ => True)). revert s acc Hf.
  induction fuel as [|f IH]; intros s acc Hf.
  - pose_lens. lia.
  - cbn [convert_loop]. destruct s as [|c s]; [exact I|].
    eapply post_bind; [apply returns_pair, (convert_switch_ok (c :: s) acc); discriminate|].
    intros [acc1 s1] L.
    name_index_byte i. destruct (i <? 0) eqn:Ei; [exact I|].
    next_slice pre. next_slice s2.
    apply IH. lia.
Qed.

Theorem convert_total : forall s p, convert is_graphic replace_non_graphic s <> Panic p.
Proof.
  intros s p. unfold convert. name_index_byte i. destruct (i <? 0) eqn:Ei; [discriminate|].
  next_slice pre. next_slice s1.
  apply bind_not_panic; [|intros acc; discriminate]. apply convert_loop_total. rewrite len_length. lia.
Qed.

Theorem convert_no_backslash : forall s, index_byte s BSL = -1 -> convert is_graphic replace_non_graphic s = Ok None.
Proof. intros s H. unfold convert. rewrite H. reflexivity. Qed.
End Total.
