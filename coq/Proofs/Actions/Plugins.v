(* Do of parse_re2, split, convert_utf8_bytes, hash, modify and json_extract: never a panic (the
   res monad's Panic covers out-of-range index / slice and an exhausted loop fuel), and the event
   stays well formed. *)
From Verif Require Import Base.Sx Base.GoSem Base.Json Model.Decoders.Common Proofs.GoSemFacts
  Model.Actions.Tree Model.Actions.Subst Model.Actions.ConvertUtf8 Model.Actions.HashNorm Model.Actions.Plugins
  Model.Actions.ExtraTree Proofs.Actions.Tree Proofs.Actions.ExtraTree Proofs.Actions.Subst Proofs.Actions.ConvertUtf8.
From Coq Require Import Lia ZifyBool.

Lemma re2_fields_total prefix sm : forall names i p, 0 <= i -> i + len names <= len sm ->
  re2_fields prefix names sm i <> Panic p.
Proof.
  induction names as [|n rest IH]; intros i p Hi Hl; cbn [re2_fields]; [discriminate|].
  rewrite len_cons in Hl. destruct n as [|c n]; [apply IH; lia|].
  next_idx v. apply bind_not_panic; [apply IH; lia|]. intros r. discriminate.
Qed.

Lemma re2_fields_wf prefix sm : forall names i fs, re2_fields prefix names sm i = Ok fs -> wf_fields fs = true.
Proof.
  induction names as [|n rest IH]; intros i fs H; cbn [re2_fields] in H; [injection H as <-; reflexivity|].
  destruct n as [|c n]; [exact (IH _ _ H)|].
  apply bind_ok_inv in H. destruct H as (v & _ & H). apply bind_ok_inv in H. destruct H as (r & Er & H).
  injection H as <-. exact (IH _ _ Er).
Qed.

(* the regexp library's promise: a match has one entry per sub-expression name *)
Theorem parse_re2_total : forall root path prefix names sm p,
  sm = [] \/ len sm = len names ->
  parse_re2_do root path prefix names sm <> Panic p.
Proof.
  intros root path prefix names sm p Hsm. unfold parse_re2_do.
  destruct (jdig root path); [|discriminate].
  destruct sm as [|s0 sm]; [discriminate|]. destruct Hsm as [Hsm|Hsm]; [discriminate|].
  apply bind_not_panic; [|intros fs; discriminate].
  apply re2_fields_total; [lia|].
  destruct names as [|n0 names]; cbn [tl]; rewrite ?len_cons, ?len_nil in *; pose_lens; lia.
Qed.

Theorem parse_re2_tree_wf : forall root path prefix names sm root',
  wf_json root = true -> parse_re2_do root path prefix names sm = Ok root' -> wf_json root' = true.
Proof.
  intros root path prefix names sm root' H E. unfold parse_re2_do in E.
  destruct (jdig root path); [|injection E as <-; exact H].
  destruct sm as [|s0 sm]; [injection E as <-; exact H|].
  apply bind_ok_inv in E. destruct E as (fs & Ef & E). injection E as <-.
  apply merge_to_root_wf; [exact (re2_fields_wf _ _ _ _ _ Ef)|apply jremove_wf, H].
Qed.

Lemma filter_obj_wf l : forallb wf_json l = true -> forallb (fun j => is_obj j && wf_json j) (filter is_obj l) = true.
Proof.
  induction l as [|x l IH]; intros H; [reflexivity|]. cbn in *. apply andb_prop in H. destruct H as [Hx H].
  destruct (is_obj x) eqn:E; [cbn; rewrite E, Hx; apply IH, H|apply IH, H].
Qed.

(* Pass with nothing spawned, unless the field is an array with objects in it: then Break, and they are the children *)
Lemma split_cases is_child root path :
  split_do is_child root path = Ok (0, []) \/
  exists l, jdig root path = Some (JArr l) /\ split_do is_child root path = Ok (4, filter is_obj l).
Proof.
  unfold split_do. destruct is_child; [auto|]. destruct (jdig root path) as [[| | | |l|]|]; auto.
  destruct (filter is_obj l) eqn:E; [auto|]. right. exists l. rewrite E. auto.
Qed.

Theorem split_total : forall is_child root path p, split_do is_child root path <> Panic p.
Proof. intros. destruct (split_cases is_child root path) as [->|(l & _ & ->)]; discriminate. Qed.

(* every spawned child is an object and well formed; the result is Pass or Break *)
Theorem split_tree_wf : forall is_child root path r children,
  wf_json root = true -> split_do is_child root path = Ok (r, children) ->
  (r = 0 \/ r = 4) /\ forallb (fun j => is_obj j && wf_json j) children = true.
Proof.
  intros is_child root path r children H E.
  destruct (split_cases is_child root path) as [E'|(l & Ed & E')]; rewrite E' in E; injection E as <- <-; split; auto.
  exact (filter_obj_wf l (jdig_wf _ _ _ H Ed)).
Qed.

Lemma convert_field_total is_graphic replace root pa p : convert_field is_graphic replace root pa <> Panic p.
Proof.
  unfold convert_field. destruct (jdig root pa) as [[| | |s| |]|]; try discriminate.
  apply bind_not_panic; [apply convert_total|]. intros [b|]; discriminate.
Qed.

Lemma convert_field_wf is_graphic replace root pa root' :
  wf_json root = true -> convert_field is_graphic replace root pa = Ok root' -> wf_json root' = true.
Proof.
  intros H E. unfold convert_field in E.
  destruct (jdig root pa) as [[| | |s| |]|]; try (injection E as <-; exact H).
  apply bind_ok_inv in E. destruct E as ([b|] & _ & E); injection E as <-; [|exact H].
  apply jupdate_wf; [reflexivity|exact H].
Qed.

Theorem convert_do_total : forall is_graphic replace paths root p,
  convert_do is_graphic replace root paths <> Panic p.
Proof.
  intros is_graphic replace. induction paths as [|pa rest IH]; intros root p; cbn [convert_do]; [discriminate|].
  apply bind_not_panic; [apply convert_field_total|]. intros r1. apply IH.
Qed.

Theorem convert_do_tree_wf : forall is_graphic replace paths root root',
  wf_json root = true -> convert_do is_graphic replace root paths = Ok root' -> wf_json root' = true.
Proof.
  intros is_graphic replace. induction paths as [|pa rest IH]; intros root root' H E; cbn [convert_do] in E;
    [injection E as <-; exact H|].
  apply bind_ok_inv in E. destruct E as (r1 & E1 & E). exact (IH r1 root' (convert_field_wf _ _ _ _ _ H E1) E).
Qed.

Theorem hash_do_total : forall hash_of root fields rpath p, hash_do hash_of root fields rpath <> Panic p.
Proof.
  intros. unfold hash_do. destruct (hash_pick root fields) as [[[v norm] mx]|]; [|discriminate].
  cbn zeta. unfold slice_to.
  set (data := as_string (Some v)).
  destruct ((0 <? mx) && (mx <? len data)) eqn:E; next_slice d; discriminate.
Qed.

Theorem hash_do_tree_wf : forall hash_of root fields rpath root',
  (forall n d, 0 <= hash_of n d < 2 ^ 64) ->
  wf_json root = true -> hash_do hash_of root fields rpath = Ok root' -> wf_json root' = true.
Proof.
  intros hash_of root fields rpath root' Hh H E. unfold hash_do in E.
  destruct (hash_pick root fields) as [[[v norm] mx]|]; [|injection E as <-; exact H].
  cbn zeta in E. apply bind_ok_inv in E. destruct E as (d & _ & E).
  injection E as <-. apply create_nested_wf; [|exact H]. apply format_uint_number, Hh.
Qed.

(* what the filter parsers of modify accept: cut count > 0, trim_to cutset non-empty *)
Definition filter_valid (f : ffilter) : bool :=
  match f with
  | FCut _ count => 0 <? count
  | FTrimTo _ cs => negb (len cs =? 0)
  | FTrim _ _ => true
  end.
Definition sop_valid (o : sop) : bool :=
  match o with SRaw _ => true | SField _ fl => forallb filter_valid fl end.

Lemma apply_filters_total : forall fl src p, forallb filter_valid fl = true -> apply_filters fl src <> Panic p.
Proof.
  induction fl as [|f fl IH]; intros src p H; cbn [apply_filters]; [discriminate|].
  cbn in H. apply andb_prop in H. destruct H as [Hf H].
  apply bind_not_panic; [|intros s1; apply IH, H].
  destruct f as [first count|mode cs|mode cs]; cbn [apply_filter filter_valid] in *.
  - apply cut_total. lia.
  - apply trim_to_total. intros ->. rewrite len_nil in Hf. discriminate.
  - discriminate.
Qed.

Lemma subst_ops_total root : forall ops acc p, forallb sop_valid ops = true -> subst_ops root ops acc <> Panic p.
Proof.
  induction ops as [|o ops IH]; intros acc p H; cbn [subst_ops]; [discriminate|].
  cbn in H. apply andb_prop in H. destruct H as [Ho H].
  destruct o as [b|pa fl]; [apply IH, H|].
  apply bind_not_panic; [apply apply_filters_total, Ho|]. intros v. apply IH, H.
Qed.

Theorem modify_do_total : forall skip fops root p,
  forallb (fun fo => forallb sop_valid (snd fo)) fops = true -> modify_do skip root fops <> Panic p.
Proof.
  intros skip. induction fops as [|[field ops] rest IH]; intros root p H; cbn [modify_do]; [discriminate|].
  cbn in H. apply andb_prop in H. destruct H as [Ho H].
  apply bind_not_panic; [apply subst_ops_total, Ho|]. intros acc. apply IH, H.
Qed.

Theorem modify_do_tree_wf : forall skip fops root root',
  wf_json root = true -> modify_do skip root fops = Ok root' -> wf_json root' = true.
Proof.
  intros skip. induction fops as [|[field ops] rest IH]; intros root root' H E; cbn [modify_do] in E;
    [injection E as <-; exact H|].
  apply bind_ok_inv in E. destruct E as (acc & _ & E).
  eapply IH; [|exact E]. destruct (skip && _); [exact H|]. apply create_nested_wf; [reflexivity|exact H].
Qed.

Lemma pt_enter_total (rec : list ptree -> res (list ptree)) k :
  (forall sub q, rec sub <> Panic q) -> forall cs q, pt_enter rec k cs <> Panic q.
Proof.
  intros Hr. induction cs as [|[d sub] r IH]; intros q; cbn [pt_enter]; [discriminate|].
  destruct (bytes_eqb d k); (apply bind_not_panic; [auto|]).
  - intros sub'. discriminate.
  - intros [r''|]; discriminate.
Qed.

Lemma pt_add_total : forall fuel children path depth p,
  0 <= depth <= len path -> 1 <= Z.of_nat fuel -> len path - depth <= Z.of_nat fuel ->
  pt_add fuel children path depth <> Panic p.
Proof.
  induction fuel as [|f IH]; intros children path depth p Hd H1 Hf; [lia|].
  cbn [pt_add]. unfold slice_from. destruct (depth <? len path - 1) eqn:E.
  - next_idx k. apply bind_not_panic.
    + apply pt_enter_total. intros sub q. apply IH; lia.
    + intros [cs'|]; [discriminate|]. next_slice rest. discriminate.
  - next_slice rest. discriminate.
Qed.

Theorem pt_add_all_total : forall paths children p, pt_add_all children paths <> Panic p.
Proof.
  induction paths as [|pa rest IH]; intros children p; cbn [pt_add_all]; [discriminate|].
  apply bind_not_panic; [|intros c1; apply IH].
  apply pt_add_total; unfold len; lia.
Qed.

Theorem extract_tree_total : forall efs ef dup p, extract_tree efs ef dup <> Panic p.
Proof. intros. unfold extract_tree. apply pt_add_all_total. Qed.

Definition fields_depth (fs : list (bytes * json)) : nat := fold_right (fun kv m => Nat.max (jdepth (snd kv)) m) O fs.
Lemma jdepth_obj fs : jdepth (JObj fs) = S (fields_depth fs).
Proof. reflexivity. Qed.

Lemma fields_depth_in fs : forall k v, In (k, v) fs -> (jdepth v <= fields_depth fs)%nat.
Proof.
  induction fs as [|[k' v'] fs IH]; intros k v Hin; [contradiction|].
  cbn [fields_depth fold_right snd]. destruct Hin as [Heq|Hin].
  - injection Heq as _ ->. apply Nat.le_max_l.
  - etransitivity; [exact (IH k v Hin)|apply Nat.le_max_r].
Qed.

Lemma wf_fields_in fs k v : wf_fields fs = true -> In (k, v) fs -> wf_json v = true.
Proof. intros H Hin. exact (proj1 (forallb_forall _ fs) H (k, v) Hin). Qed.

Section ExtractProofs.
Variable fmt_num : bytes -> bytes.
Variable prefix : bytes.

(* [rec] stands for extract with less fuel: what is needed of it is needed on the values of this object *)
Lemma ext_iter_total (rec : json -> json -> list ptree -> res json) fields : forall fs root processed p,
  (forall k v, In (k, v) fs -> forall root sub q, rec root v sub <> Panic q) ->
  ext_iter fmt_num prefix rec fields fs root processed <> Panic p.
Proof.
  induction fs as [|[k v] r IH]; intros root processed p Hr; cbn [ext_iter]; [discriminate|].
  pose proof (fun k0 v0 Hi => Hr k0 v0 (or_intror Hi)) as Hr'.
  destruct (pt_find fields k) as [n|]; [|apply IH, Hr'].
  apply bind_not_panic.
  - destruct (pt_children n); [discriminate|apply (Hr k v (or_introl eq_refl))].
  - intros root1. destruct (_ =? 0); [discriminate|apply IH, Hr'].
Qed.

Theorem extract_total : forall fuel root doc fields p,
  (jdepth doc < fuel)%nat -> extract fmt_num prefix fuel root doc fields <> Panic p.
Proof.
  induction fuel as [|f IH]; intros root doc fields p Hf; [lia|].
  cbn [extract]. destruct doc as [| | | | |fs]; try discriminate.
  apply ext_iter_total. intros k v Hin root0 sub q. apply IH.
  rewrite jdepth_obj in Hf. pose proof (fields_depth_in fs k v Hin). lia.
Qed.

Hypothesis fmt_num_ok : forall r, json_number_ok (fmt_num r) = true.

Lemma conv_value_wf v : wf_json v = true -> wf_json (conv_value fmt_num v) = true.
Proof. destruct v; cbn; auto. Qed.

(* root_add is obj_set with the root first *)
Lemma root_add_wf root k v : wf_json root = true -> wf_json v = true -> wf_json (root_add root k v) = true.
Proof. exact (obj_set_wf k v root). Qed.

Lemma ext_iter_wf (rec : json -> json -> list ptree -> res json) fields : forall fs root processed root',
  (forall k v, In (k, v) fs -> forall root sub r', wf_json root = true -> rec root v sub = Ok r' -> wf_json r' = true) ->
  wf_fields fs = true -> wf_json root = true ->
  ext_iter fmt_num prefix rec fields fs root processed = Ok root' -> wf_json root' = true.
Proof.
  induction fs as [|[k v] r IH]; intros root processed root' Hr Hfs H E; cbn [ext_iter] in E;
    [injection E as <-; exact H|].
  pose proof (fun k0 v0 Hi => Hr k0 v0 (or_intror Hi)) as Hr'.
  cbn in Hfs. apply andb_prop in Hfs. destruct Hfs as [Hv Hfs].
  destruct (pt_find fields k) as [n|]; [|exact (IH _ _ _ Hr' Hfs H E)].
  apply bind_ok_inv in E. destruct E as (root1 & E1 & E).
  assert (H1 : wf_json root1 = true).
  { destruct (pt_children n); [|exact (Hr k v (or_introl eq_refl) _ _ _ H E1)].
    injection E1 as <-. apply root_add_wf; [exact H|apply conv_value_wf, Hv]. }
  destruct (_ =? 0); [injection E as <-; exact H1|exact (IH _ _ _ Hr' Hfs H1 E)].
Qed.

Theorem extract_wf : forall fuel root doc fields root',
  wf_json root = true -> wf_json doc = true ->
  extract fmt_num prefix fuel root doc fields = Ok root' -> wf_json root' = true.
Proof.
  induction fuel as [|f IH]; intros root doc fields root' H Hd E; cbn [extract] in E; [discriminate|].
  destruct doc as [| | | | |fs]; try (injection E as <-; exact H).
  refine (ext_iter_wf _ _ _ _ _ _ _ Hd H E).
  intros k v Hin root0 sub r' H0 Er. exact (IH _ _ _ _ H0 (wf_fields_in _ _ _ Hd Hin) Er).
Qed.
End ExtractProofs.

Theorem json_extract_do_total : forall fmt_num prefix root path doc fields p,
  json_extract_do fmt_num prefix root path doc fields <> Panic p.
Proof.
  intros. unfold json_extract_do. destruct (jdig root path); [|discriminate].
  apply extract_total. lia.
Qed.

Theorem json_extract_do_tree_wf : forall fmt_num prefix root path doc fields root',
  (forall r, json_number_ok (fmt_num r) = true) ->
  wf_json root = true -> wf_json doc = true ->
  json_extract_do fmt_num prefix root path doc fields = Ok root' -> wf_json root' = true.
Proof.
  intros fmt_num prefix root path doc fields root' Hf H Hd E. unfold json_extract_do in E.
  destruct (jdig root path); [|injection E as <-; exact H].
  exact (extract_wf fmt_num prefix Hf _ _ _ _ _ H Hd E).
Qed.
