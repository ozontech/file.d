(* hash normaliser, bracket / quote tokenizer: every data[i] and data[a:b] of nextToken,
   processQuotes and normalizeByTokenizer is in range and no loop runs out of fuel, for every
   byte string and every pattern set. *)
From Verif Require Import Base.Sx Base.GoSem Model.Decoders.Common Proofs.GoSemFacts
  Model.Actions.ConvertUtf8 Model.Actions.HashNorm.
From Coq Require Import Lia ZifyBool.

Section Total.
Variable has : Z -> bool.
Variable data : bytes.

(* a pattern id is never 0 ([kind_p KOther] is a filler): in [next_loop_ok] a test cur = p then rules out cur = 0, so the bounds
   of the open token are at hand where a close bracket or a quote ends it ([lia] uses Hk there) *)
Definition kind_p (k : kind) : Z := match k with KOpen p | KClose p | KQuote p => p | KOther => 1 end.

Lemma classify_pattern c : 1 <= kind_p (classify has c) <= 6.
Proof.
  unfold classify.
  repeat match goal with |- context [if ?b then _ else _] => destruct b end; cbn [kind_p]; lia.
Qed.

(* the run of equal quotes: n grows by the number of positions consumed, which all lie inside data *)
Lemma run_len_ok : forall fuel c i n,
  0 <= i -> Z.max 0 (len data - i) < Z.of_nat fuel ->
  exists k, run_len data fuel c i n = Ok k /\ n <= k /\ (k = n \/ i + (k - n) <= len data).
Proof.
  induction fuel as [|f IH]; intros c i n Hi Hf; [lia|]. apply returns_ex.
  cbn [run_len]. destruct (i <? len data) eqn:E; [|cbn; lia].
  next_idx x. destruct (beq x c); [|cbn; lia].
  eapply post_weaken; [apply returns_ex, IH; lia|]. cbn. lia.
Qed.

Lemma quote_run_ok c from : 0 <= from ->
  exists k, quote_run data c from = Ok k /\ 0 <= k /\ (k = 0 \/ from + k <= len data).
Proof.
  intros H. apply returns_ex.
  eapply post_weaken; [apply returns_ex, run_len_ok; [exact H|rewrite len_length; lia]|]. cbn. lia.
Qed.

Definition token_ok (pos0 : Z) (t : option (Z * Z * Z)) : Prop :=
  match t with
  | None => True
  | Some (_, b, e) => pos0 <= b <= len data /\ pos0 < e <= len data
  end.

(* the third hypothesis is the loop invariant: no token is open (cur = 0), or the one that began at start is, with start before
   i, inside data and not before pos0, and a positive counter; len data - i <= fuel is the measure (every step moves i on) *)
Lemma next_loop_ok : forall fuel i cur counter start pos0,
  0 <= pos0 <= i -> len data - i <= Z.of_nat fuel ->
  (cur = 0 \/ (pos0 <= start /\ start < i /\ start < len data /\ 1 <= counter)) ->
  exists t, next_loop has data fuel i cur counter start = Ok t /\ token_ok pos0 t.
Proof.
  induction fuel as [|f IH]; intros i cur counter start pos0 Hp Hf Hst; apply returns_ex; cbn [next_loop];
    destruct (len data <=? i) eqn:El.
  (* at the end of the data, whatever the fuel: the last partial token *)
  1, 3: destruct (cur =? 0) eqn:Ecur; [exact I|]; cbn; lia.
  - lia.
  - next_idx c.
    pose proof (classify_pattern c) as Hk.
    (* the step that leaves the state alone *)
    assert (Hcont : returns (next_loop has data f (i + 1) cur counter start) (token_ok pos0)).
    { apply returns_ex, IH; [lia|lia|]. destruct Hst as [Hst|Hst]; [left; exact Hst|right; lia]. }
    destruct (classify has c) as [p|p|p|]; cbn [kind_p] in Hk.
    + (* open bracket *)
      destruct (cur =? 0) eqn:Ecur.
      * apply returns_ex, IH; [lia|lia|right; lia].
      * destruct (cur =? p) eqn:Ep; [|exact Hcont].
        apply returns_ex, IH; [lia|lia|right; lia].
    + (* close bracket *)
      destruct (negb (cur =? p)) eqn:Ep; [exact Hcont|].
      destruct (0 <? counter - 1) eqn:E0.
      * apply returns_ex, IH; [lia|lia|right; lia].
      * cbn. lia.
    + (* quote *)
      destruct (cur =? 0) eqn:Ecur.
      * eapply post_bind; [apply returns_ex, (quote_run_ok c (i + 1)); lia|]. intros k (Hk0 & Hk1).
        apply returns_ex, IH; [lia|lia|right; lia].
      * destruct (cur =? p) eqn:Ep; [|exact Hcont].
        apply (post_bind _ _ (fun _ => True)).
        { destruct (0 <? i) eqn:Ei; [next_idx x|]; exact I. }
        intros [|] _; [exact Hcont|].
        eapply post_bind; [apply returns_ex, (quote_run_ok c (i + 1)); lia|]. intros k (Hk0 & Hk1).
        destruct (0 <? counter - 1 - k) eqn:Et.
        -- apply returns_ex, IH; [lia|lia|right; lia].
        -- cbn. lia.
    + exact Hcont.
Qed.

Lemma next_token_ok pos : 0 <= pos ->
  exists t, next_token has data pos = Ok t /\ token_ok pos t.
Proof.
  intros H. unfold next_token. apply next_loop_ok; [lia| |left; reflexivity].
  rewrite len_length. lia.
Qed.

Lemma norm_loop_total : forall fuel pos acc p,
  0 <= pos <= len data -> len data - pos < Z.of_nat fuel ->
  norm_loop has data fuel pos acc <> Panic p.
Proof.
  intros fuel pos acc p Hp Hf. apply (post_total False _ (fun _ => True)). revert pos acc Hp Hf.
  induction fuel as [|f IH]; intros pos acc Hp Hf; [lia|].
  cbn [norm_loop]. eapply post_bind; [apply returns_ex, next_token_ok; lia|].
  intros [[[pt b] e]|] Ht; cbn [token_ok] in Ht.
  - next_slice pre. apply IH; lia.
  - next_slice rest. exact I.
Qed.

Theorem normalize_total : forall p, normalize_by_tokenizer has data <> Panic p.
Proof.
  intros p. unfold normalize_by_tokenizer.
  apply bind_not_panic; [|intros acc; discriminate].
  apply norm_loop_total; [pose proof (len_nonneg data); lia|rewrite len_length; lia].
Qed.
End Total.
