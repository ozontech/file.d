(* Proofs about sub-model 53 (Model/Actions/Procs.v).  No code of file.d is modelled there: procs_ok is the predicate by which
   the harness judges the records of the per-processor instances of one action run concurrently.  Proved here: what an
   Agree of the runner means for those streams, and that a violation record, or in mode 0 any difference, is never an Agree. *)
From Verif Require Import Base.Sx Model.Actions.Procs Proofs.GoSemFacts.
From Coq Require Import Lia.

(* a clean record: n output events and their digest; anything else is a violation record *)
Definition clean_rec (r : sx) : Prop := exists n d, r = SL [SZ 0; SZ n; SB d].
Definition clean_stream (s : sx) : Prop := exists recs, s = SL recs /\ forall r, In r recs -> clean_rec r.

Lemma rec_ok_clean : forall r, rec_ok r = true -> clean_rec r.
Proof.
  intros r H. destruct r as [z|b|l]; try discriminate H.
  destruct l as [|a l]; [discriminate H|]. destruct a as [z| |]; try discriminate H.
  destruct z; try discriminate H.
  destruct l as [|b l]; [discriminate H|]. destruct b as [n| |]; try discriminate H.
  destruct l as [|c l]; [discriminate H|]. destruct c as [|d|]; try discriminate H.
  destruct l; [|discriminate H]. exists n, d. reflexivity.
Qed.

Lemma stream_ok_clean : forall s, stream_ok s = true -> clean_stream s.
Proof.
  intros s H. destruct s as [| |l]; try discriminate H. exists l. split; [reflexivity|].
  intros r Hr. apply rec_ok_clean. cbn [stream_ok] in H. rewrite forallb_forall in H. exact (H r Hr).
Qed.

Lemma side_ok_spec : forall k s, side_ok k s = true ->
  exists l, s = SL l /\ length l = k /\ forall x, In x l -> clean_stream x.
Proof.
  intros k s H. destruct s as [| |l]; try discriminate H. cbn [side_ok] in H.
  apply andb_true_iff in H. destruct H as [H1 H2]. apply Nat.eqb_eq in H1.
  exists l. split; [reflexivity|]. split; [exact H1|].
  intros x Hx. apply stream_ok_clean. rewrite forallb_forall in H2. exact (H2 x Hx).
Qed.

(* what the predicate implies: K streams on either side, no violation record anywhere, and (mode 0) the concurrent
   run of every instance equals the run of a fresh instance on the same events alone; what it asks in mode 1 beyond
   that (sides_same_lens: stream by stream the same number of records) is not stated *)
Theorem procs_ok_spec : forall mode k obs, procs_ok mode k obs = true ->
  exists conc solo, obs = SL [SL conc; SL solo] /\ length conc = k /\ length solo = k /\
    (forall s, In s conc \/ In s solo -> clean_stream s) /\
    (mode = 0 -> conc = solo).
Proof.
  intros mode k obs H. unfold procs_ok in H.
  destruct obs as [| |l]; try discriminate H.
  destruct l as [|c l]; [discriminate H|]. destruct l as [|s l]; [discriminate H|].
  destruct l; [|discriminate H].
  apply andb_true_iff in H. destruct H as [H H3]. apply andb_true_iff in H. destruct H as [H1 H2].
  apply side_ok_spec in H1. destruct H1 as [lc [-> [Lc Cc]]].
  apply side_ok_spec in H2. destruct H2 as [ls [-> [Ls Cs]]].
  exists lc, ls. split; [reflexivity|]. split; [exact Lc|]. split; [exact Ls|]. split.
  - intros x [Hx|Hx]; [exact (Cc x Hx)|exact (Cs x Hx)].
  - intros ->. cbn [Z.eqb] in H3. apply sx_eqb_sound in H3. now inversion H3.
Qed.

(* a record that reports a panic / Fatal / broken event (any code but 0), in any stream of either side, is never
   accepted *)
Theorem procs_violation_record_rejected : forall mode k conc solo s recs code rest,
  In s conc \/ In s solo -> s = SL recs -> In (SL (SZ code :: rest)) recs -> code <> 0 ->
  procs_ok mode k (SL [SL conc; SL solo]) = false.
Proof.
  intros mode k conc solo s recs code rest Hs -> Hr Hc.
  destruct (procs_ok mode k (SL [SL conc; SL solo])) eqn:E; [|reflexivity]. exfalso.
  apply procs_ok_spec in E. destruct E as [c' [s' [Eq [_ [_ [Cl _]]]]]]. inversion Eq; subst c' s'.
  destruct (Cl _ Hs) as [recs' [Er Hall]]. inversion Er; subst recs'.
  destruct (Hall _ Hr) as [n [d Hnd]]. inversion Hnd. congruence.
Qed.

Lemma procs_entry_eq plugins mode streams obs : (2 <= length streams)%nat -> mode = 0 \/ mode = 1 ->
  c13_procs_entry 53 (SL [SL plugins; SZ mode; SL streams]) obs
  = if procs_ok mode (length streams) obs then Agree else Violates (procs_model obs).
Proof.
  intros Hk Hm. cbn [c13_procs_entry procs_run].
  replace (2 <=? Z.of_nat (length streams)) with true by (symmetry; apply Z.leb_le; lia).
  replace ((mode =? 0) || (mode =? 1)) with true by (destruct Hm; subst; reflexivity).
  reflexivity.
Qed.

Theorem procs_agree_iff : forall plugins mode streams obs,
  (2 <= length streams)%nat -> mode = 0 \/ mode = 1 ->
  (c13_procs_entry 53 (SL [SL plugins; SZ mode; SL streams]) obs = Agree <->
   procs_ok mode (length streams) obs = true).
Proof.
  intros plugins mode streams obs Hk Hm. rewrite procs_entry_eq by assumption.
  destruct (procs_ok mode (length streams) obs); split; intros H; try reflexivity; discriminate H.
Qed.

(* in mode 0 a concurrent run that differs from the solo run in any way is a violation *)
Theorem procs_strict_differs_violates : forall plugins streams conc solo,
  (2 <= length streams)%nat -> conc <> solo ->
  exists m, c13_procs_entry 53 (SL [SL plugins; SZ 0; SL streams]) (SL [SL conc; SL solo]) = Violates m.
Proof.
  intros plugins streams conc solo Hk Hne. rewrite procs_entry_eq by auto.
  destruct (procs_ok 0 (length streams) (SL [SL conc; SL solo])) eqn:E; [|eexists; reflexivity].
  apply procs_ok_spec in E. destruct E as [c' [s' [Eq [_ [_ [_ Hs]]]]]]. inversion Eq; subst.
  destruct Hne. apply Hs. reflexivity.
Qed.
