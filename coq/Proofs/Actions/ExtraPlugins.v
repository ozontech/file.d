(* Do of rename, move, flatten, json_encode, json_decode, convert_log_level, set_time, add_host,
   add_file_name, convert_date, discard, debug, parse_es, cardinality (Model/Actions/ExtraPlugins.v); per plugin
   (cardinality under card_, the two modes of move under move_allow_ / move_block_):
     _total   for EVERY tree and every accepted configuration the model answers Ok (no panic:
              out-of-range index, "wrong state"; no broken event)
     _wf      the result is a defined ActionResult and the event stays a well-formed tree
     _spec    what changes, and that nothing else changes
   discard and debug have discard_debug_spec only; parse_es keeps a state and no tree, so it has no _wf. *)
From Verif Require Import Base.Sx Base.GoSem Base.Json Model.Decoders.Common Proofs.GoSemFacts Proofs.JsonFacts
  Model.Actions.Tree Proofs.Actions.Tree Model.Actions.ExtraTree Proofs.Actions.ExtraTree Model.Actions.ExtraPlugins.
From Coq Require Import Lia ZifyBool Permutation.

(* the shape of every <plugin>_wf: the action passes the event on, with a tree that is well formed *)
Lemma pass_wf (t : json) a r : wf_json t = true -> Ok (APass, t) = Ok (a, r) -> a = APass /\ wf_json r = true.
Proof. intros H E. injection E as <- <-. split; [reflexivity|exact H]. Qed.

Lemma jremove_not_obj j path : is_object j = false -> is_object (jremove j path) = false.
Proof. intros H. rewrite jremove_is_object. exact H. Qed.

Definition paths_nonempty (ops : list (list bytes * bytes)) : bool :=
  forallb (fun pn => match fst pn with [] => false | _ :: _ => true end) ops.

(* one rename operation: skipped when the name is taken (override off) or the source is missing;
   otherwise the value leaves its place (Suicide) and the root's field `name` holds it; every other
   key of the root answers what it answered after the removal *)
Theorem rename_step_spec preserve root path name : path <> [] ->
  exists r, rename_step preserve root (path, name) = Ok r /\
    ((preserve = true /\ jdig root [name] <> None) \/ jdig root path = None -> r = root) /\
    (forall v, preserve = false \/ jdig root [name] = None -> jdig root path = Some v ->
       r = obj_set name v (jremove root path) /\
       (is_object root = false -> r = jremove root path) /\
       (forall fs1, jremove root path = JObj fs1 ->
          exists fs2, r = JObj fs2 /\ field_get fs2 name = Some v /\
                      forall k, k <> name -> field_get fs2 k = field_get fs1 k)).
Proof.
  intros Hp. unfold rename_step.
  destruct (preserve && is_some (jdig root [name])) eqn:Es.
  - exists root. split; [reflexivity|]. split; [reflexivity|].
    intros v Hn _. apply andb_prop in Es. destruct Es as [-> Es]. destruct Hn as [Hn|Hn]; [discriminate|].
    rewrite Hn in Es. discriminate.
  - destruct (jdig root path) as [v|] eqn:Ed.
    2:{ exists root. split; [reflexivity|]. split; [reflexivity|discriminate]. }
    destruct path as [|k rest]; [contradiction|]. eexists. split; [reflexivity|]. split.
    + intros [[-> Hn]|Hn]; [|discriminate]. destruct (jdig root [name]); [discriminate|contradiction].
    + intros v' _ Ev. injection Ev as <-. split; [reflexivity|]. split.
      * intros Ho. apply obj_set_not_obj, jremove_not_obj, Ho.
      * intros fs1 ->. eexists. split; [reflexivity|apply set_field_get].
Qed.

Lemma rename_step_total preserve root path name : path <> [] -> exists r, rename_step preserve root (path, name) = Ok r.
Proof. intros Hp. destruct (rename_step_spec preserve root path name Hp) as (r & E & _). eauto. Qed.

Theorem rename_total : forall preserve ops root, paths_nonempty ops = true ->
  exists r, rename_do preserve ops root = Ok (APass, r).
Proof.
  intros preserve ops. unfold rename_do. induction ops as [|[path name] rest IH]; intros root H; cbn [rename_loop bind].
  - eexists. reflexivity.
  - cbn in H. apply andb_prop in H. destruct H as [Hp H].
    destruct (rename_step_total preserve root path name) as [r1 ->]; [destruct path; discriminate|].
    apply IH, H.
Qed.

(* the model function on an empty path and an object root: Err (the root tied into itself) *)
Theorem rename_empty_path_refuted : exists preserve ops root, rename_do preserve ops root = Err 1.
Proof. exists true, [([], [120%N])], (JObj [([97%N], JNum [49%N])]). vm_compute. reflexivity. Qed.

Lemma unescape_map_eq cfg : unescape_map cfg
  = filter (fun kv => match fst kv with [] => false | _ :: _ => true end)
      (map (fun kv => (unescape_key (fst kv), snd kv)) cfg).
Proof.
  induction cfg as [|[k v] r IH]; cbn [unescape_map map filter fst snd]; [reflexivity|].
  rewrite IH. destruct (unescape_key k); reflexivity.
Qed.

Lemma unescape_map_in cfg k' v :
  In (k', v) (unescape_map cfg) <-> exists k, In (k, v) cfg /\ k' = unescape_key k /\ k' <> [].
Proof.
  rewrite unescape_map_eq, filter_In, in_map_iff. cbn [fst]. split.
  - intros [([k v0] & E & Hi) Hne]. injection E as <- <-. exists k. split; [exact Hi|]. split; [reflexivity|].
    intros Hk. rewrite Hk in Hne. discriminate.
  - intros (k & Hi & -> & Hne). split; [exists (k, v); split; [reflexivity|exact Hi]|].
    destruct (unescape_key k); [contradiction|reflexivity].
Qed.

(* Start: unescapeMap drops a key that is empty after the unescaping, so every operation of an accepted
   configuration has a non-empty path (cfg.ParseFieldSelector of a non-empty selector is a non-empty path:
   hypothesis on the oracle, checked by the harness on every case) *)
Theorem rename_cfg_paths_nonempty sel cfg : (forall k, k <> [] -> sel k <> []) ->
  paths_nonempty (rename_ops sel cfg) = true.
Proof.
  intros Hs. unfold paths_nonempty, rename_ops. apply forallb_forall. intros pn Hi.
  apply in_map_iff in Hi. destruct Hi as ([k' v] & <- & Hi). cbn [fst snd].
  apply unescape_map_in in Hi. destruct Hi as (k & _ & _ & Hn).
  specialize (Hs k' Hn). destruct (sel k'); [contradiction|reflexivity].
Qed.

Theorem rename_cfg_total sel : (forall k, k <> [] -> sel k <> []) -> forall preserve cfg root,
  exists r, rename_cfg_do sel preserve cfg root = Ok (APass, r).
Proof. intros Hs preserve cfg root. apply rename_total, rename_cfg_paths_nonempty, Hs. Qed.

Lemma rename_step_wf preserve root pn r : wf_json root = true -> rename_step preserve root pn = Ok r -> wf_json r = true.
Proof.
  destruct pn as [path name]. intros H E. unfold rename_step in E.
  destruct (preserve && is_some (jdig root [name])); [injection E as <-; exact H|].
  destruct (jdig root path) as [v|] eqn:Ed; [|injection E as <-; exact H].
  destruct path as [|k rest].
  - destruct root; try discriminate; injection E as <-; exact H.
  - injection E as <-. exact (obj_set_wf name v _ (jremove_wf (k :: rest) root H) (jdig_wf _ _ _ H Ed)).
Qed.

Theorem rename_wf : forall preserve ops root a r, wf_json root = true ->
  rename_do preserve ops root = Ok (a, r) -> a = APass /\ wf_json r = true.
Proof.
  intros preserve ops. unfold rename_do. induction ops as [|pn rest IH]; intros root a r H; cbn [rename_loop bind].
  - apply pass_wf, H.
  - destruct (rename_step preserve root pn) as [r1| |] eqn:E1; try discriminate.
    exact (IH r1 a r (rename_step_wf _ _ _ _ H E1)).
Qed.

(* a top-level rename on an object without duplicate keys: the value formerly at `from` is now at `to`,
   `from` is gone, every other field holds what it held *)
Theorem rename_top_level_spec preserve fs k name v :
  field_get fs k = Some v -> preserve = false \/ field_get fs name = None -> NoDup (map fst fs) ->
  exists fs2, rename_step preserve (JObj fs) ([k], name) = Ok (JObj fs2) /\
    field_get fs2 name = Some v /\
    (name <> k -> field_get fs2 k = None) /\
    (forall k', k' <> name -> k' <> k -> field_get fs2 k' = field_get fs k').
Proof.
  intros Hg Hn Hnd. rewrite <- jdig_obj_key in Hg, Hn.
  destruct (rename_step_spec preserve (JObj fs) [k] name) as (r & E & _ & Hs); [discriminate|].
  destruct (Hs v Hn Hg) as (_ & _ & Hf). rewrite jdig_obj_key in Hg.
  destruct (jremove_field_spec fs k v Hg) as (fs1 & E1 & _ & Hother & Hgone).
  destruct (Hf fs1 E1) as (fs2 & -> & Hname & Hrest).
  exists fs2. split; [exact E|]. split; [exact Hname|]. split.
  - intros Hk. rewrite Hrest by congruence. apply Hgone, Hnd.
  - intros k' H1 H2. rewrite Hrest by exact H1. apply Hother; assumption.
Qed.

(* without the hypothesis on duplicate keys "every other field holds what it held" fails: the
   swap-remove brings the LAST field into the hole, in front of an equally named earlier one *)
Theorem rename_other_fields_refuted : exists fs k name k',
  k' <> name /\ k' <> k /\
  exists fs2, rename_step false (JObj fs) ([k], name) = Ok (JObj fs2) /\ field_get fs2 k' <> field_get fs k'.
Proof.
  exists [([120%N], JNum [49%N]); ([107%N], JNum [50%N]); ([107%N], JNum [51%N])], [120%N], [121%N], [107%N].
  split; [discriminate|]. split; [discriminate|]. eexists. split; [vm_compute; reflexivity|]. vm_compute. discriminate.
Qed.

(* what move.Start leaves in allowFields: it skips an empty field string before cfg.ParseFieldSelector (move.go), and a
   non-empty selector parses to a non-empty path (the oracle hypothesis of rename_cfg_paths_nonempty; move has no such lemma) *)
Definition fields_nonempty (fields : list (list bytes)) : bool :=
  forallb (fun f => match f with [] => false | _ :: _ => true end) fields.

Lemma last_key_ok (field : list bytes) : field <> [] -> exists name, idx field (len field - 1) = Ok name.
Proof.
  intros H. apply idx_ok_ex. destruct field; [contradiction|]. rewrite len_cons. pose proof (len_nonneg field). lia.
Qed.

Lemma move_allow_step_total target st field : field <> [] -> exists st1, move_allow_step target st field = Ok st1.
Proof.
  intros Hf. destruct st as [root alive]. unfold move_allow_step.
  destruct (jdig root field); [|eexists; reflexivity].
  destruct (alive && path_eqb field target); [eexists; reflexivity|].
  destruct (last_key_ok field Hf) as [name ->]. cbn [bind].
  destruct (alive && negb (path_proper_prefix field target)); eexists; reflexivity.
Qed.

Lemma move_allow_loop_total target : forall fields st, fields_nonempty fields = true ->
  exists st1, move_allow_loop target st fields = Ok st1.
Proof.
  induction fields as [|f rest IH]; intros st H; cbn [move_allow_loop]; [eexists; reflexivity|].
  cbn in H. apply andb_prop in H. destruct H as [Hf H].
  destruct (move_allow_step_total target st f) as [st1 ->]; [destruct f; discriminate|]. apply IH, H.
Qed.

Theorem move_allow_total : forall target fields root, fields_nonempty fields = true ->
  exists r, move_allow_do target fields root = Ok (APass, r).
Proof.
  intros target fields root H. unfold move_allow_do.
  edestruct move_allow_loop_total as [st1 ->]; [exact H|]. eexists. reflexivity.
Qed.

Lemma move_allow_step_wf target st field st1 : wf_json (fst st) = true ->
  move_allow_step target st field = Ok st1 -> wf_json (fst st1) = true.
Proof.
  destruct st as [root alive]. cbn [fst]. intros H E. unfold move_allow_step in E.
  destruct (jdig root field) as [v|] eqn:Ed; [|injection E as <-; exact H].
  destruct (alive && path_eqb field target); [injection E as <-; exact H|].
  destruct (idx field (len field - 1)) as [name| |]; try discriminate. cbn [bind] in E.
  pose proof (jremove_wf field root H) as Hr.
  destruct (alive && negb (path_proper_prefix field target)); injection E as <-; [|exact Hr].
  apply jupdate_wf; [|exact Hr]. intros t Ht. exact (obj_set_wf name v t Ht (jdig_wf _ _ _ H Ed)).
Qed.

Lemma move_allow_loop_wf target : forall fields st st1, wf_json (fst st) = true ->
  move_allow_loop target st fields = Ok st1 -> wf_json (fst st1) = true.
Proof.
  induction fields as [|f rest IH]; intros st st1 H E; cbn [move_allow_loop] in E; [injection E as <-; exact H|].
  apply bind_ok_inv in E. destruct E as (st0 & E0 & E). exact (IH st0 st1 (move_allow_step_wf _ _ _ _ H E0) E).
Qed.

Theorem move_allow_wf : forall target fields root a r, wf_json root = true ->
  move_allow_do target fields root = Ok (a, r) -> a = APass /\ wf_json r = true.
Proof.
  intros target fields root a r H E. apply bind_ok_inv in E. destruct E as (st1 & E & E1).
  refine (pass_wf _ a r _ E1). eapply move_allow_loop_wf; [|exact E]. exact (ensure_nested_wf root target H).
Qed.

(* one step of the allow loop while the target hangs in the event: a field that is not the target
   and not above it leaves its place and the target's field named by the last path element holds it *)
Theorem move_allow_step_spec target root field v :
  jdig root field = Some v -> field <> [] ->
  path_eqb field target = false -> path_proper_prefix field target = false ->
  exists name, idx field (len field - 1) = Ok name /\
    move_allow_step target (root, true) field = Ok (jupdate (jremove root field) target (obj_set name v), true) /\
    forall t, jdig (jremove root field) target = Some t ->
      jdig (jupdate (jremove root field) target (obj_set name v)) target = Some (obj_set name v t).
Proof.
  intros Hd Hf He Hp. destruct (last_key_ok field Hf) as [name En].
  exists name. split; [exact En|]. split.
  - unfold move_allow_step. rewrite Hd. cbn [andb]. rewrite He, En. cbn [bind]. rewrite Hp. reflexivity.
  - apply jdig_jupdate_same.
Qed.

(* the target itself is never moved, a missing field is skipped, and once an ancestor of the target was
   moved (or when the root is no object) the remaining fields are only removed *)
Theorem move_allow_step_skip target root alive field :
  (jdig root field = None \/ (alive = true /\ path_eqb field target = true)) ->
  move_allow_step target (root, alive) field = Ok (root, alive).
Proof.
  intros H. unfold move_allow_step. destruct (jdig root field); [|reflexivity].
  destruct H as [H|[-> H]]; [discriminate|]. cbn [andb]. rewrite H. reflexivity.
Qed.

Theorem move_allow_step_detached target root alive field v :
  jdig root field = Some v -> field <> [] ->
  alive = false \/ (path_eqb field target = false /\ path_proper_prefix field target = true) ->
  move_allow_step target (root, alive) field = Ok (jremove root field, false).
Proof.
  intros Hd Hf H. unfold move_allow_step. rewrite Hd. destruct (last_key_ok field Hf) as [name ->].
  destruct H as [->|[-> ->]]; [reflexivity|]. rewrite !andb_false_r. reflexivity.
Qed.

Definition wf_tagged (l : list (nat * (bytes * json))) : bool := forallb (fun e => wf_json (snd (snd e))) l.

Lemma wf_tagged_combine : forall (fs : list (bytes * json)) (ids : list nat),
  wf_fields fs = true -> wf_tagged (combine ids fs) = true.
Proof.
  unfold wf_tagged, wf_fields. induction fs as [|kv fs IH]; intros [|i ids] H; cbn in *; try reflexivity.
  apply andb_prop in H. destruct H as [-> H]. apply IH, H.
Qed.

Lemma block_loop_wf blocked tid : forall visit cur tfs cur' tfs',
  wf_tagged visit = true -> wf_tagged cur = true -> wf_fields tfs = true ->
  block_loop blocked tid visit cur tfs = (cur', tfs') -> wf_tagged cur' = true /\ wf_fields tfs' = true.
Proof.
  induction visit as [|[id [k v]] rest IH]; intros cur tfs cur' tfs' Hv Hc Ht E; cbn [block_loop] in E.
  - injection E as <- <-. split; assumption.
  - cbn in Hv. apply andb_prop in Hv. destruct Hv as [Hv0 Hv].
    destruct (Nat.eqb id tid || mem_key k blocked); [exact (IH _ _ _ _ Hv Hc Ht E)|].
    destruct (pos_of_id cur id 0) as [p|]; [|exact (IH _ _ _ _ Hv Hc Ht E)].
    exact (IH _ _ _ _ Hv (forallb_swap_remove _ _ p Hc) (set_field_wf _ k v Ht Hv0) E).
Qed.

Lemma untag_wf tid tfs cur : wf_tagged cur = true -> wf_fields tfs = true -> wf_fields (untag tid tfs cur) = true.
Proof.
  unfold wf_tagged, wf_fields, untag. intros Hc Ht. induction cur as [|[id [k v]] r IH]; cbn in *; [reflexivity|].
  apply andb_prop in Hc. destruct Hc as [Hv Hc]. rewrite (IH Hc), andb_true_r.
  destruct (Nat.eqb id tid); [exact Ht|exact Hv].
Qed.

Theorem move_block_total : forall target blocked root, exists r, move_block_do target blocked root = Ok (APass, r).
Proof.
  intros. unfold move_block_do. destruct (ensure_nested root [target]) as [| | | | |fs]; try (eexists; reflexivity).
  destruct (field_index fs target 0) as [tid|]; [|eexists; reflexivity].
  destruct (block_loop _ _ _ _ _) as [cur tfs']. eexists. reflexivity.
Qed.

Theorem move_block_wf : forall target blocked root a r, wf_json root = true ->
  move_block_do target blocked root = Ok (a, r) -> a = APass /\ wf_json r = true.
Proof.
  intros target blocked root a r H. unfold move_block_do.
  pose proof (ensure_nested_wf root [target] H) as He.
  destruct (ensure_nested root [target]) as [| | | | |fs]; try exact (pass_wf _ a r He).
  destruct (field_index fs target 0) as [tid|]; [|exact (pass_wf _ a r He)].
  rewrite wf_obj in He.
  set (tfs0 := match nth_error fs tid with Some (_, JObj s) => s | _ => [] end).
  assert (Ht0 : wf_fields tfs0 = true).
  { unfold tfs0. destruct (nth_error fs tid) as [[k [| | | | |s]]|] eqn:En; try reflexivity.
    exact (forallb_nth _ fs tid (k, JObj s) He En). }
  destruct (block_loop blocked tid (tagged fs) (tagged fs) tfs0) as [cur tfs'] eqn:Eb.
  destruct (block_loop_wf blocked tid _ _ _ _ _ (wf_tagged_combine fs _ He) (wf_tagged_combine fs _ He) Ht0 Eb) as [Hc Ht].
  apply pass_wf, untag_wf; assumption.
Qed.

(* what the loop leaves: the root keeps, in some order, exactly the fields the loop does not move (the
   target and the blocked names); the target receives every other field, in their original order *)
Definition kept (blocked : list bytes) (tid : nat) (e : nat * (bytes * json)) : bool :=
  Nat.eqb (fst e) tid || mem_key (fst (snd e)) blocked.
Definition receive (tfs : list (bytes * json)) (moved : list (nat * (bytes * json))) : list (bytes * json) :=
  fold_left (fun acc e => set_field acc (fst (snd e)) (snd (snd e))) moved tfs.

Lemma pos_of_id_nth id : forall cur i0 p, pos_of_id cur id i0 = Some p ->
  (i0 <= p)%nat /\ exists x, nth_error cur (p - i0) = Some (id, x).
Proof.
  induction cur as [|[id' x'] r IH]; intros i0 p H; cbn [pos_of_id] in H; [discriminate|].
  destruct (Nat.eqb_spec id' id) as [->|_].
  - injection H as <-. rewrite Nat.sub_diag. split; [lia|exists x'; reflexivity].
  - apply IH in H. destruct H as (Hle & x & Hn). split; [lia|]. exists x.
    replace (p - i0)%nat with (S (p - S i0)) by lia. exact Hn.
Qed.
Lemma pos_of_id_in id x : forall cur i0, In (id, x) cur -> pos_of_id cur id i0 <> None.
Proof.
  induction cur as [|[id' x'] r IH]; intros i0 Hi; [contradiction|]. cbn [pos_of_id].
  destruct (Nat.eqb_spec id' id) as [_|Hne]; [discriminate|].
  destruct Hi as [[= -> _]|Hi]; [destruct Hne; reflexivity|apply IH, Hi].
Qed.
Lemma nodup_fst_unique {B} (l : list (nat * B)) id x y : NoDup (map fst l) -> In (id, x) l -> In (id, y) l -> x = y.
Proof.
  intros Hn Hx Hy. apply in_split in Hx. destruct Hx as (l1 & l2 & ->). rewrite map_app in Hn. apply NoDup_remove_2 in Hn.
  apply in_elt_inv in Hy. destruct Hy as [[= ->]|Hy]; [reflexivity|]. destruct Hn. rewrite <- map_app. exact (in_map fst _ _ Hy).
Qed.

(* Suicide -> findSelf: with unique tags the live position found for a tag is that of the entry itself *)
Lemma pos_of_id_unique id x : forall cur i0, NoDup (map fst cur) -> In (id, x) cur ->
  exists p, pos_of_id cur id i0 = Some (i0 + p)%nat /\ nth_error cur p = Some (id, x).
Proof.
  intros cur i0 Hn Hi. destruct (pos_of_id cur id i0) as [q|] eqn:E; [|destruct (pos_of_id_in id x cur i0 Hi E)].
  destruct (pos_of_id_nth id cur i0 q E) as (Hle & y & Hy). exists (q - i0)%nat.
  rewrite (nodup_fst_unique cur id x y Hn Hi (nth_error_In _ _ Hy)). split; [f_equal; lia|exact Hy].
Qed.

(* the invariant: the live list is, up to order, what is still to be visited and [others]; a visited entry
   that stays joins the others, one that moves leaves the live list *)
Lemma block_loop_spec blocked tid : forall visit cur tfs others cur' tfs',
  NoDup (map fst cur) -> Permutation cur (visit ++ others) ->
  block_loop blocked tid visit cur tfs = (cur', tfs') ->
  Permutation cur' (filter (kept blocked tid) visit ++ others) /\
  tfs' = receive tfs (filter (fun e => negb (kept blocked tid e)) visit).
Proof.
  induction visit as [|[id [k v]] rest IH]; intros cur tfs others cur' tfs' Hn Hp E; cbn [block_loop] in E.
  - injection E as <- <-. split; [exact Hp|reflexivity].
  - change (Nat.eqb id tid || mem_key k blocked) with (kept blocked tid (id, (k, v))) in E.
    cbn [filter]. destruct (kept blocked tid (id, (k, v))); cbn [negb].
    + destruct (IH cur tfs ((id, (k, v)) :: others) cur' tfs' Hn) as [Hc Ht]; [|exact E|].
      * rewrite Hp. apply Permutation_middle.
      * split; [|exact Ht]. rewrite Hc. symmetry. apply Permutation_middle.
    + destruct (pos_of_id_unique id (k, v) cur 0 Hn) as (p & Epos & Hnth).
      { apply (Permutation_in _ (Permutation_sym Hp)). left. reflexivity. }
      rewrite Epos in E. pose proof (swap_remove_perm cur p _ Hnth) as Hs.
      apply (IH (swap_remove cur p) (set_field tfs k v) others cur' tfs'); [| |exact E].
      * apply (Permutation_NoDup (Permutation_map fst Hs)), NoDup_cons_iff in Hn. apply Hn.
      * apply Permutation_cons_inv with (a := (id, (k, v))). rewrite <- Hs. exact Hp.
Qed.

Lemma tagged_ids : forall (fs : list (bytes * json)) start, map fst (combine (seq start (length fs)) fs) = seq start (length fs).
Proof.
  induction fs as [|kv fs IH]; intros start; cbn; [reflexivity|]. f_equal. apply IH.
Qed.

Theorem move_block_spec target blocked fs :
  let fs1 := set_field fs target (coerce_obj (field_get fs target)) in
  exists tid tfs cur tfs',
    field_index fs1 target 0 = Some tid /\ nth_error fs1 tid = Some (target, JObj tfs) /\
    move_block_do target blocked (JObj fs) = Ok (APass, JObj (untag tid tfs' cur)) /\
    Permutation cur (filter (kept blocked tid) (tagged fs1)) /\
    tfs' = receive tfs (filter (fun e => negb (kept blocked tid e)) (tagged fs1)).
Proof.
  intros fs1. unfold move_block_do.
  assert (Ee : ensure_nested (JObj fs) [target] = JObj fs1).
  { cbn [ensure_nested create_nested dig]. unfold fs1. f_equal. f_equal.
    destruct (field_get fs target) as [[| | | | |s]|]; reflexivity. }
  rewrite Ee.
  destruct (field_index_of_get fs1 target _ (field_get_set_field_same fs target _)) as (tid & -> & Hn).
  assert (Htv : exists tfs, coerce_obj (field_get fs target) = JObj tfs)
    by (destruct (field_get fs target) as [[| | | | |s]|]; eexists; reflexivity).
  destruct Htv as [tfs Etv]. rewrite Etv in Hn. rewrite Hn.
  destruct (block_loop blocked tid (tagged fs1) (tagged fs1) tfs) as [cur tfs'] eqn:Eb.
  exists tid, tfs, cur, tfs'. split; [reflexivity|]. split; [exact Hn|]. split; [reflexivity|].
  destruct (block_loop_spec blocked tid (tagged fs1) (tagged fs1) tfs [] cur tfs') as [Hc Ht];
    [unfold tagged; rewrite tagged_ids; apply seq_NoDup|rewrite app_nil_r; reflexivity|exact Eb|].
  rewrite app_nil_r in Hc. split; assumption.
Qed.

Theorem json_decode_total : forall path prefix doc root, exists r, json_decode_do path prefix doc root = Ok (APass, r).
Proof.
  intros. unfold json_decode_do. destruct (jdig root path); [|eexists; reflexivity].
  destruct doc as [[| | | | |fs]|]; eexists; reflexivity.
Qed.

Theorem json_decode_wf : forall path prefix doc root a r, wf_json root = true ->
  (forall d, doc = Some d -> wf_json d = true) ->
  json_decode_do path prefix doc root = Ok (a, r) -> a = APass /\ wf_json r = true.
Proof.
  intros path prefix doc root a r H Hd. unfold json_decode_do.
  destruct (jdig root path) as [v|]; [|apply pass_wf, H].
  destruct doc as [[| | | | |fs]|]; apply pass_wf; try exact H.
  apply merge_to_root_wf; [apply prefix_fields_wf, (Hd _ eq_refl)|apply jremove_wf, H].
Qed.

Theorem json_decode_spec path prefix doc root :
  jdig root path = None \/ (forall fs, doc <> Some (JObj fs)) -> json_decode_do path prefix doc root = Ok (APass, root).
Proof.
  intros H. unfold json_decode_do. destruct (jdig root path); [|reflexivity].
  destruct H as [H|H]; [discriminate|]. destruct doc as [[| | | | |fs]|]; try reflexivity. destruct (H fs eq_refl).
Qed.

Theorem json_decode_object_spec path prefix rfs fs v :
  jdig (JObj rfs) path = Some v ->
  exists fs1 fs2, jremove (JObj rfs) path = JObj fs1 /\
    json_decode_do path prefix (Some (JObj fs)) (JObj rfs) = Ok (APass, JObj fs2) /\
    forall k, field_get fs2 k = match last_get (prefix_fields prefix fs) k with Some x => Some x | None => field_get fs1 k end.
Proof.
  intros Hd. destruct (jremove_obj rfs path) as [fs1 E1]. unfold json_decode_do. rewrite Hd, E1.
  exists fs1. eexists. split; [reflexivity|]. split; [reflexivity|]. intros k. apply fold_set_field_get.
Qed.

(* flatten is json_decode with the node's own value for the document *)
Lemma flatten_decode path prefix root : flatten_do path prefix root = json_decode_do path prefix (jdig root path) root.
Proof. unfold flatten_do, json_decode_do. destruct (jdig root path) as [[| | | | |fs]|]; reflexivity. Qed.

Theorem flatten_total : forall path prefix root, exists r, flatten_do path prefix root = Ok (APass, r).
Proof. intros. rewrite flatten_decode. apply json_decode_total. Qed.

Theorem flatten_wf : forall path prefix root a r, wf_json root = true ->
  flatten_do path prefix root = Ok (a, r) -> a = APass /\ wf_json r = true.
Proof.
  intros path prefix root a r H. rewrite flatten_decode. apply json_decode_wf; [exact H|].
  intros d Ed. exact (jdig_wf _ _ _ H Ed).
Qed.

(* the field must hold an object, else nothing happens *)
Theorem flatten_spec path prefix root :
  (forall fs, jdig root path <> Some (JObj fs)) -> flatten_do path prefix root = Ok (APass, root).
Proof. intros H. rewrite flatten_decode. apply json_decode_spec. right. exact H. Qed.

(* the object leaves its place and every key prefix+name of the root holds the object's (last) value for
   it, every other key of the root holds what it held after the removal *)
Theorem flatten_object_spec path prefix rfs fs :
  jdig (JObj rfs) path = Some (JObj fs) ->
  exists fs1 fs2, jremove (JObj rfs) path = JObj fs1 /\
    flatten_do path prefix (JObj rfs) = Ok (APass, JObj fs2) /\
    forall k, field_get fs2 k = match last_get (prefix_fields prefix fs) k with Some v => Some v | None => field_get fs1 k end.
Proof. intros Hd. rewrite flatten_decode, Hd. exact (json_decode_object_spec path prefix rfs fs _ Hd). Qed.

Theorem flatten_not_object_root path prefix root fs :
  is_object root = false -> jdig root path = Some (JObj fs) -> flatten_do path prefix root = Ok (APass, jremove root path).
Proof.
  intros Ho Hd. unfold flatten_do. rewrite Hd. rewrite <- (jremove_is_object root path) in Ho.
  destruct (jremove root path); try reflexivity. discriminate.
Qed.

Theorem json_encode_total : forall path enc root, exists r, json_encode_do path enc root = Ok (APass, r).
Proof. intros. unfold json_encode_do. destruct (jdig root path); eexists; reflexivity. Qed.

Theorem json_encode_wf : forall path enc root a r, wf_json root = true ->
  json_encode_do path enc root = Ok (a, r) -> a = APass /\ wf_json r = true.
Proof.
  intros path enc root a r H. unfold json_encode_do.
  destruct (jdig root path); apply pass_wf; [|exact H]. apply jupdate_wf; [reflexivity|exact H].
Qed.

Theorem json_encode_spec path enc root :
  (jdig root path = None -> json_encode_do path enc root = Ok (APass, root)) /\
  (forall v, jdig root path = Some v ->
     exists r, json_encode_do path enc root = Ok (APass, r) /\ r = jupdate root path (fun _ => JStr enc) /\
               jdig r path = Some (JStr enc)).
Proof.
  unfold json_encode_do. split.
  - intros ->. reflexivity.
  - intros v Hd. rewrite Hd. eexists. split; [reflexivity|]. split; [reflexivity|].
    exact (jdig_jupdate_same (fun _ => JStr enc) path root v Hd).
Qed.

Lemma level_lookup_in t s : level_lookup t s = -1 \/ In (level_lookup t s) (map fst t).
Proof.
  induction t as [|[n names] r IH]; cbn [level_lookup map fst In]; [left; reflexivity|].
  destruct (mem_bytes s names); [right; left; reflexivity|]. destruct IH; [left|right; right]; assumption.
Qed.

Lemma level_number_range s : -1 <= level_number s <= 7.
Proof.
  unfold level_number. generalize (level_lookup_in level_table s). generalize (level_lookup level_table s) as n.
  intros n H. cbn in H. lia.
Qed.

(* levelNames[parsed] is in range for every level ParseLevelAsNumber knows *)
Lemma level_name_ok s : (level_number s <? 0) = false -> exists name, idx level_names (level_number s) = Ok name.
Proof. intros H. pose proof (level_number_range s). apply idx_ok_ex. change (len level_names) with 8. lia. Qed.

Lemma level_number_u64 s : (level_number s <? 0) = false -> 0 <= level_number s < 2 ^ 64.
Proof. pose proof (level_number_range s). lia. Qed.

Theorem convert_log_level_total : forall norm path style_string default rof root,
  exists r, convert_log_level_do norm path style_string default rof root = Ok (APass, r).
Proof.
  intros. unfold convert_log_level_do.
  destruct (negb (is_some (jdig root path)) && (len default =? 0)); [eexists; reflexivity|].
  cbv zeta. destruct (level_number _ <? 0) eqn:En; [eexists; reflexivity|].
  destruct style_string; [|eexists; reflexivity].
  destruct (level_name_ok _ En) as [name ->]. eexists. reflexivity.
Qed.

Lemma level_names_wf n name : idx level_names n = Ok name -> wf_json (JStr name) = true.
Proof. reflexivity. Qed.

Theorem convert_log_level_wf : forall norm path style_string default rof root a r, wf_json root = true ->
  convert_log_level_do norm path style_string default rof root = Ok (a, r) -> a = APass /\ wf_json r = true.
Proof.
  intros norm path style_string default rof root a r H. unfold convert_log_level_do.
  destruct (negb (is_some (jdig root path)) && (len default =? 0)); [apply pass_wf, H|].
  cbv zeta.
  set (root1 := if is_some (jdig root path) then root else create_nested root path (JStr default)).
  assert (H1 : wf_json root1 = true).
  { unfold root1. destruct (is_some (jdig root path)); [exact H|]. apply create_nested_wf; [reflexivity|exact H]. }
  destruct (level_number _ <? 0) eqn:En.
  - apply pass_wf. destruct rof; [apply jremove_wf, H1|exact H1].
  - destruct style_string.
    + destruct (idx level_names _) as [name| |]; try discriminate.
      apply pass_wf, jupdate_wf; [reflexivity|exact H1].
    + apply pass_wf, jupdate_wf; [|exact H1]. intros _ _. exact (format_uint_number _ (level_number_u64 _ En)).
Qed.

(* the field exists: its text (the default level when it is empty) decides *)
Theorem convert_log_level_spec norm path style_string default rof root v :
  jdig root path = Some v ->
  let level := if (len (as_string (Some v)) =? 0) && negb (len default =? 0) then default else as_string (Some v) in
  let n := level_number (norm level) in
  (n < 0 -> convert_log_level_do norm path style_string default rof root
              = Ok (APass, if rof then jremove root path else root)) /\
  (0 <= n -> exists nv r, convert_log_level_do norm path style_string default rof root = Ok (APass, r) /\
      (if style_string then idx level_names n = Ok (as_string (Some nv)) /\ nv = JStr (as_string (Some nv))
       else nv = JNum (format_uint n)) /\
      r = jupdate root path (fun _ => nv) /\ jdig r path = Some nv).
Proof.
  intros Hd level n. unfold convert_log_level_do. rewrite Hd. cbn [is_some negb andb]. cbv zeta. rewrite !Hd.
  subst n level. set (n := level_number _). split; intros Hn.
  - replace (n <? 0) with true by lia. reflexivity.
  - assert (En : (n <? 0) = false) by lia. rewrite En. destruct style_string.
    + destruct (level_name_ok _ En) as [name Ei]. fold n in Ei. rewrite Ei.
      exists (JStr name). eexists. split; [reflexivity|]. split; [split; reflexivity|].
      split; [reflexivity|]. exact (jdig_jupdate_same _ path root v Hd).
    + exists (JNum (format_uint n)). eexists. split; [reflexivity|]. split; [reflexivity|].
      split; [reflexivity|]. exact (jdig_jupdate_same _ path root v Hd).
Qed.

(* the field is missing: without a default level nothing happens *)
Theorem convert_log_level_missing norm path style_string rof root :
  jdig root path = None -> convert_log_level_do norm path style_string [] rof root = Ok (APass, root).
Proof. intros Hd. unfold convert_log_level_do. rewrite Hd. reflexivity. Qed.

Theorem set_time_total : forall field override value root, exists r, set_time_do field override value root = Ok (APass, r).
Proof. intros. unfold set_time_do. destruct (jdig root [field]); eexists; reflexivity. Qed.

Theorem set_time_wf : forall field override value root a r, wf_json root = true -> wf_json value = true ->
  set_time_do field override value root = Ok (a, r) -> a = APass /\ wf_json r = true.
Proof.
  intros field override value root a r H Hv. unfold set_time_do.
  destruct (jdig root [field]); apply pass_wf; [|apply obj_set_wf; assumption].
  destruct override; [|exact H]. apply jupdate_wf; [intros _ _; exact Hv|exact H].
Qed.

Theorem set_time_spec field override value root :
  (forall v, jdig root [field] = Some v ->
     set_time_do field override value root = Ok (APass, if override then jupdate root [field] (fun _ => value) else root) /\
     (override = true -> jdig (jupdate root [field] (fun _ => value)) [field] = Some value)) /\
  (jdig root [field] = None -> forall fs, root = JObj fs ->
     exists fs2, set_time_do field override value root = Ok (APass, JObj fs2) /\
       field_get fs2 field = Some value /\ forall k, k <> field -> field_get fs2 k = field_get fs k) /\
  (jdig root [field] = None -> is_object root = false -> set_time_do field override value root = Ok (APass, root)).
Proof.
  unfold set_time_do. split; [|split].
  - intros v Hd. rewrite Hd. split; [reflexivity|]. intros _.
    exact (jdig_jupdate_same (fun _ => value) [field] root v Hd).
  - intros Hd fs ->. rewrite Hd. eexists. split; [reflexivity|apply set_field_get].
  - intros Hd Ho. rewrite Hd, obj_set_not_obj by exact Ho. reflexivity.
Qed.

Theorem add_host_total : forall field host root, exists r, add_host_do field host root = Ok (APass, r).
Proof. intros. eexists. reflexivity. Qed.

Theorem add_host_wf : forall field host root a r, wf_json root = true ->
  add_host_do field host root = Ok (a, r) -> a = APass /\ wf_json r = true.
Proof.
  intros field host root a r H. apply pass_wf, obj_set_wf; [exact H|reflexivity].
Qed.

Theorem add_host_spec field host root :
  (forall fs, root = JObj fs -> exists fs2, add_host_do field host root = Ok (APass, JObj fs2) /\
      field_get fs2 field = Some (JStr host) /\ forall k, k <> field -> field_get fs2 k = field_get fs k) /\
  (is_object root = false -> add_host_do field host root = Ok (APass, root)).
Proof.
  unfold add_host_do. split.
  - intros fs ->. eexists. split; [reflexivity|apply set_field_get].
  - intros Ho. rewrite obj_set_not_obj by exact Ho. reflexivity.
Qed.

Theorem add_file_name_total : forall path source root, exists r, add_file_name_do path source root = Ok (APass, r).
Proof. intros. eexists. reflexivity. Qed.

Theorem add_file_name_wf : forall path source root a r, wf_json root = true ->
  add_file_name_do path source root = Ok (a, r) -> a = APass /\ wf_json r = true.
Proof.
  intros path source root a r H. apply pass_wf.
  destruct path; [reflexivity|]. apply create_nested_wf; [reflexivity|exact H].
Qed.

(* CreateNestedField + MutateToString at the level of the root: the first key of the path holds the
   nested result, every other key of the root holds what it held *)
Theorem add_file_name_spec k rest source fs :
  exists fs2, add_file_name_do (k :: rest) source (JObj fs) = Ok (APass, JObj fs2) /\
    field_get fs2 k = Some (create_nested (coerce_obj (field_get fs k)) rest (JStr source)) /\
    forall k', k' <> k -> field_get fs2 k' = field_get fs k'.
Proof. eexists. split; [reflexivity|apply set_field_get]. Qed.

Theorem first_some_spec {A} (l : list (option A)) :
  match first_some l with
  | Some x => exists a b, l = a ++ Some x :: b /\ Forall (fun o => o = None) a
  | None => Forall (fun o => o = None) l
  end.
Proof.
  induction l as [|[y|] l IH]; cbn.
  - constructor.
  - exists [], l. split; [reflexivity|constructor].
  - destruct (first_some l) as [x|].
    + destruct IH as (a & b & -> & Ha). exists (None :: a), b. split; [reflexivity|constructor; [reflexivity|exact Ha]].
    + constructor; [reflexivity|exact IH].
Qed.

Lemma first_some_in {A} (l : list (option A)) x : first_some l = Some x -> In (Some x) l.
Proof.
  intros H. pose proof (first_some_spec l) as S. rewrite H in S. destruct S as (a & b & -> & _). apply in_elt.
Qed.

Theorem convert_date_total : forall path rof table root, exists r, convert_date_do path rof table root = Ok (APass, r).
Proof.
  intros. unfold convert_date_do. destruct (jdig root path) as [v|]; [|eexists; reflexivity].
  destruct (if _ : bool then first_some table else None); eexists; reflexivity.
Qed.

Theorem convert_date_wf : forall path rof table root a r, wf_json root = true ->
  (forall v, In (Some v) table -> wf_json v = true) ->
  convert_date_do path rof table root = Ok (a, r) -> a = APass /\ wf_json r = true.
Proof.
  intros path rof table root a r H Ht. unfold convert_date_do.
  destruct (jdig root path) as [v|]; [|apply pass_wf, H].
  destruct (if _ : bool then first_some table else None) as [nv|] eqn:Ef;
    apply pass_wf.
  - apply jupdate_wf; [|exact H]. intros _ _. apply Ht.
    destruct (match v with JStr _ | JNum _ => true | _ => false end); [apply first_some_in, Ef|discriminate].
  - destruct rof; [apply jremove_wf, H|exact H].
Qed.

(* first-match selection over the source formats; strings and numbers only; remove_on_fail *)
Theorem convert_date_spec path rof table root v :
  jdig root path = Some v ->
  let valid := match v with JStr _ | JNum _ => true | _ => false end in
  (forall nv, valid = true -> first_some table = Some nv ->
     convert_date_do path rof table root = Ok (APass, jupdate root path (fun _ => nv)) /\
     jdig (jupdate root path (fun _ => nv)) path = Some nv) /\
  (valid = false \/ first_some table = None ->
     convert_date_do path rof table root = Ok (APass, if rof then jremove root path else root)).
Proof.
  intros Hd valid. unfold convert_date_do. rewrite Hd. fold valid. split.
  - intros nv -> ->. split; [reflexivity|]. exact (jdig_jupdate_same (fun _ => nv) path root v Hd).
  - intros [->| ->]; [reflexivity|]. destruct valid; reflexivity.
Qed.

Theorem discard_debug_spec root :
  discard_do root = Ok (ADiscard, root) /\ debug_do root = Ok (APass, root).
Proof. split; reflexivity. Qed.

Definition es_inv (st : es_state) : bool := negb (fst st && snd st).

(* content: a time-out is discarded and leaves the state alone; behind an index / create line exactly
   the next event passes; behind an update line the next event is collapsed; delete lines and the
   action lines themselves are collapsed; anything else is discarded *)
Theorem parse_es_spec root :
  (forall st, parse_es_do st None = Ok (ADiscard, st)) /\
  parse_es_do (true, false) (Some root) = Ok (APass, (false, false)) /\
  parse_es_do (false, true) (Some root) = Ok (ACollapse, (false, false)) /\
  parse_es_do (false, false) (Some root) =
    Ok (if is_some (jdig root [k_delete]) then (ACollapse, (false, false))
        else if is_some (jdig root [k_update]) then (ACollapse, (false, true))
        else if is_some (jdig root [k_index]) || is_some (jdig root [k_create]) then (ACollapse, (true, false))
        else (ADiscard, (false, false))).
Proof.
  split; [intros [p d]; reflexivity|]. split; [reflexivity|]. split; [reflexivity|].
  unfold parse_es_do.
  destruct (is_some (jdig root [k_delete])); [reflexivity|].
  destruct (is_some (jdig root [k_update])); [reflexivity|].
  destruct (is_some (jdig root [k_index])); [reflexivity|].
  destruct (is_some (jdig root [k_create])); reflexivity.
Qed.

Lemma parse_es_step st ev : es_inv st = true ->
  exists r st1, parse_es_do st ev = Ok (r, st1) /\ es_inv st1 = true /\ (r = APass \/ r = ACollapse \/ r = ADiscard).
Proof.
  intros H. destruct ev as [root|]; [|exists ADiscard, st; destruct st; auto].
  destruct (parse_es_spec root) as (_ & E1 & E2 & E3).
  destruct st as [[|] [|]]; try discriminate.
  - rewrite E1. do 2 eexists. auto.
  - rewrite E2. do 2 eexists. auto.
  - rewrite E3. destruct (is_some _); [|destruct (is_some _); [|destruct (_ || _)]]; do 2 eexists; auto.
Qed.

(* the "wrong state" panic is unreachable: passNext and discardNext are never set together *)
Theorem parse_es_total : forall evs st, es_inv st = true ->
  exists rs st1, parse_es_run st evs = Ok (rs, st1) /\ es_inv st1 = true /\
    length rs = length evs /\ Forall (fun r => r = APass \/ r = ACollapse \/ r = ADiscard) rs.
Proof.
  induction evs as [|e rest IH]; intros st H; apply returns_pair; cbn [parse_es_run].
  - cbn. auto.
  - eapply post_bind; [apply returns_pair, parse_es_step, H|]. intros [r st1] (H1 & Hr).
    eapply post_bind; [apply returns_pair, IH, H1|]. intros [rs st2] (H2 & Hl & Hf).
    cbn. rewrite Hl. auto.
Qed.

Theorem card_total : forall keys fields limit action cache root,
  exists r t cache1, card_do keys fields limit action cache root = Ok (r, t, cache1) /\ (r = APass \/ r = ADiscard).
Proof.
  intros. unfold card_do. cbv zeta.
  destruct ((0 <=? limit) && (limit <=? _) && (action =? 1)); [do 3 eexists; split; [reflexivity|right; reflexivity]|].
  destruct ((0 <=? limit) && (limit <=? _) && (action =? 2)); do 3 eexists; (split; [reflexivity|left; reflexivity]).
Qed.

Theorem card_wf : forall keys fields limit action cache root r t cache1, wf_json root = true ->
  card_do keys fields limit action cache root = Ok (r, t, cache1) -> wf_json t = true.
Proof.
  intros keys fields limit action cache root r t cache1 H E. unfold card_do in E. cbv zeta in E.
  destruct ((0 <=? limit) && (limit <=? _) && (action =? 1)); [injection E as <- <- <-; exact H|].
  destruct ((0 <=? limit) && (limit <=? _) && (action =? 2)); injection E as <- <- <-; [|exact H].
  apply fold_jremove_wf, H.
Qed.

(* content: the number of remembered keys under this event's key prefix decides; below the limit (or
   with a negative limit, or action nothing) the event passes unchanged and its full key is remembered *)
Theorem card_spec keys fields limit action cache root :
  let prefix := append_to (map fst keys) (map (fun kf => as_string (jdig root (snd kf))) keys) in
  let over := (0 <=? limit) && (limit <=? count_prefix cache prefix) in
  (over = true -> action = 1 -> card_do keys fields limit action cache root = Ok (ADiscard, root, cache)) /\
  (over = true -> action = 2 -> card_do keys fields limit action cache root
       = Ok (APass, fold_left (fun r kf => jremove r (snd kf)) fields root, cache)) /\
  (over = false \/ (action <> 1 /\ action <> 2) ->
     exists cache1, card_do keys fields limit action cache root = Ok (APass, root, cache1) /\
       let full := prefix ++ append_to (map fst fields) (map (fun kf => as_string (jdig root (snd kf))) fields) in
       mem_bytes full cache1 = true /\ (mem_bytes full cache = true -> cache1 = cache) /\
       (mem_bytes full cache = false -> cache1 = full :: cache)).
Proof.
  intros prefix over. unfold card_do. cbv zeta. fold prefix. fold over. clearbody over prefix. split; [|split].
  - intros -> ->. reflexivity.
  - intros -> ->. reflexivity.
  - intros H.
    assert (E : over && (action =? 1) = false /\ over && (action =? 2) = false)
      by (destruct H as [->|H]; [split; reflexivity|]; destruct over; cbn [andb]; [lia|split; reflexivity]).
    destruct E as [-> ->]. eexists. split; [reflexivity|]. cbv zeta.
    destruct (mem_bytes _ cache) eqn:Em.
    + split; [exact Em|]. split; [reflexivity|discriminate].
    + split; [|split; [discriminate|reflexivity]]. cbn [mem_bytes]. rewrite bytes_eqb_refl. reflexivity.
Qed.
