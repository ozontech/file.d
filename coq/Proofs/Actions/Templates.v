(* Proofs about Model/Actions/Templates.v: none of the join templates' hand-written start / continue checks and not
   cfg.ParseFieldSelector can index or slice out of range or exhaust its loop, on any byte string: each of them
   returns a value ([exists b, f s = Ok b], hence neither Panic nor Err).  At the end, rename with this model of
   cfg.ParseFieldSelector as its selector function (selector_fn, rename_*_modelled_selector): its totality without hypothesis. *)
From Verif Require Import Base.Sx Base.GoSem Model.Decoders.Common Proofs.GoSemFacts Model.Actions.Templates
  Base.Json Model.Actions.ExtraTree Model.Actions.ExtraPlugins Proofs.Actions.ExtraPlugins.
From Coq Require Import Lia ZifyBool.
From Coq Require Strings.String.
From Verif Require Model.Fields Proofs.Fields.

(* the byte lists of the model are the texts of the Go constants *)
Module TemplateConstants.
Import Coq.Strings.String.
Example template_constants :
  start_substr = bs "unhandled exception" /\ at_substr = bs "at" /\ arrow_substr = bs "--->" /\
  end_of_substr = bs "--- End of" /\ exception_substr = bs "Exception:" /\ goroutine_prefix = bs "goroutine " /\
  goroutine_suffix = bs " [" /\ line_number_part = bs ".go:" /\ panic_part1 = bs "panic" /\ panic_part2 = bs "0x" /\
  created_by_part = bs "created by ".
Proof. repeat split; reflexivity. Qed.
End TemplateConstants.

(* firstNonSpaceIndex answers -1 exactly on a text of white space alone, else with a position in it: the bounds of the
   index and [only_spaces_spec] both read off this *)
Lemma first_non_space_from_spec : forall l i,
  if forallb a_is_space l then first_non_space_from l i = -1 else i <= first_non_space_from l i < i + len l.
Proof.
  induction l as [|c l IH]; intros i; cbn [first_non_space_from forallb]; [reflexivity|].
  rewrite len_cons. pose proof (len_nonneg l). destruct (a_is_space c); cbn [andb]; [|lia].
  specialize (IH (i + 1)). destruct (forallb a_is_space l); lia.
Qed.

Lemma first_non_space_from_bounds : forall l i,
  first_non_space_from l i = -1 \/ (i <= first_non_space_from l i < i + len l).
Proof. intros l i. pose proof (first_non_space_from_spec l i). destruct (forallb a_is_space l); auto. Qed.

Lemma first_non_space_bounds l : first_non_space l = -1 \/ (0 <= first_non_space l < len l).
Proof. exact (first_non_space_from_bounds l 0). Qed.

Lemma index_sub_hit l needle :
  index_sub l needle = -1 \/ (0 <= index_sub l needle /\ index_sub l needle + len needle <= len l).
Proof. exact (index_sub_bounds l needle). Qed.

Lemma last_index_byte_from_bounds c : forall l i best,
  (best = -1 \/ 0 <= best < i) -> 0 <= i ->
  last_index_byte_from l c i best = -1 \/ 0 <= last_index_byte_from l c i best < i + len l.
Proof.
  induction l as [|x l IH]; intros i best Hb Hi; cbn [last_index_byte_from].
  - change (len (@nil byte)) with 0. lia.
  - rewrite len_cons. replace (i + (len l + 1)) with (i + 1 + len l) by lia.
    apply IH; [|lia]. destruct (N.eqb x c); lia.
Qed.

Lemma last_index_byte_bounds l c : last_index_byte l c = -1 \/ 0 <= last_index_byte l c < len l.
Proof. exact (last_index_byte_from_bounds c l 0 (-1) (or_introl eq_refl) (Z.le_refl 0)). Qed.

Lemma eq_ci_from_ok : forall a b i, 0 <= i -> i + len a <= len b -> exists r, eq_ci_from a b i = Ok r.
Proof.
  induction a as [|c a IH]; intros b i Hi Hl; cbn [eq_ci_from]; [eauto|].
  rewrite len_cons in Hl. pose proof (len_nonneg a). next_idx bi.
  destruct (beq (a_to_lower c) (a_to_lower bi)); [|eauto]. apply IH; lia.
Qed.

Lemma equal_ci_ok a b : exists r, equal_ci a b = Ok r.
Proof.
  unfold equal_ci. destruct (len a =? len b) eqn:E; cbn [negb]; [|eauto].
  apply eq_ci_from_ok; lia.
Qed.

Lemma scan_back_lud_ok s : forall fuel left,
  -1 <= left < len s -> (Z.to_nat (left + 1) < fuel)%nat ->
  exists r, scan_back_lud s left fuel = Ok r /\ -1 <= r <= left.
Proof.
  induction fuel as [|f IH]; intros left Hl Hf; [lia|]. apply returns_ex. cbn [scan_back_lud].
  destruct (0 <=? left) eqn:E; [|cbn; lia].
  next_idx c. destruct (a_is_lud c); [|cbn; lia].
  eapply post_weaken; [apply returns_ex, IH; lia|]. cbn. lia.
Qed.

Lemma ends_ident_from_ok s : forall fuel i,
  i < len s -> (Z.to_nat (i + 1) < fuel)%nat -> exists b, ends_ident_from s i fuel = Ok b.
Proof.
  induction fuel as [|f IH]; intros i Hl Hf; [lia|]. cbn [ends_ident_from].
  destruct (0 <=? i) eqn:E; [|eauto].
  next_idx c. destruct (a_is_lu c); [eauto|]. destruct (a_is_digit c); [|eauto]. apply IH; lia.
Qed.

Lemma ends_with_identifier_ok s : exists b, ends_with_identifier s = Ok b.
Proof.
  unfold ends_with_identifier. apply ends_ident_from_ok; unfold len; lia.
Qed.

(* How most of the checks open: a test, and past it a slice of the text that the test has put in range.  What follows
   reads the slice alone, so the bounds of the whole text need not travel with it. *)
Lemma guarded_slice_ok (k : bytes -> res bool) (s : bytes) (c : bool) lo hi :
  (c = false -> 0 <= lo <= hi /\ hi <= len s) -> (forall s1, exists b, k s1 = Ok b) ->
  exists b, (if c then Ok false else s1 <- slice s lo hi ;; k s1) = Ok b.
Proof. intros H Hk. destruct c; [eauto|]. next_slice s1. apply Hk. Qed.

Lemma ci_prefix_after_spaces_ok sub s : exists b, ci_prefix_after_spaces sub s = Ok b.
Proof.
  unfold ci_prefix_after_spaces. apply guarded_slice_ok; [pose proof (first_non_space_bounds s); lia|intros s1].
  apply guarded_slice_ok; [pose_lens; lia|intros s2; apply equal_ci_ok].
Qed.

Lemma contains_at_ok s : exists b, contains_at s = Ok b.
Proof.
  unfold contains_at. apply guarded_slice_ok; [pose proof (first_non_space_bounds s); lia|intros s1].
  apply guarded_slice_ok;
    [intros E1; apply negb_false_iff, has_prefix_len in E1; pose proof (len_nonneg at_substr); lia|intros s2].
  destruct (len s2 =? 0) eqn:E0; [eauto|]. next_idx c. eauto.
Qed.

Lemma contains_arrow_ok s : exists b, contains_arrow s = Ok b.
Proof.
  unfold contains_arrow. apply guarded_slice_ok; [pose proof (first_non_space_bounds s); lia|eauto].
Qed.

Lemma contains_exception_ok s : exists b, contains_exception s = Ok b.
Proof.
  unfold contains_exception. cbv zeta. pose proof (index_sub_bounds s exception_substr) as B.
  change (len exception_substr) with 10 in B.
  destruct (index_sub s exception_substr <? 1) eqn:E; [eauto|].
  next_idx c. destruct (beq c 46%N); [|eauto].
  destruct (0 <? index_sub s exception_substr - 1) eqn:E2; [|eauto].
  next_idx c2. eauto.
Qed.

Lemma orelse_ok a b : (exists x, a = Ok x) -> (exists y, b = Ok y) -> exists z, orelse a b = Ok z.
Proof. intros [x ->] [y ->]. unfold orelse. cbn [bind]. destruct x; eauto. Qed.

Lemma sharp_continue_ok s : exists b, sharp_continue s = Ok b.
Proof.
  unfold sharp_continue. repeat apply orelse_ok.
  - apply contains_at_ok.
  - apply contains_arrow_ok.
  - apply ci_prefix_after_spaces_ok.
  - apply contains_exception_ok.
Qed.

Lemma contains_goroutine_id_ok s : exists b, contains_goroutine_id s = Ok b.
Proof.
  unfold contains_goroutine_id. cbv zeta.
  apply guarded_slice_ok;
    [pose proof (index_sub_bounds s goroutine_prefix); pose proof (len_nonneg goroutine_prefix); lia|intros s1].
  pose proof (index_sub_bounds s1 [SP]) as B1. change (len [SP]) with 1 in B1.
  destruct (index_sub s1 [SP] <? 1) eqn:E1; [eauto|].
  next_slice d. destruct (only_digits d); [|eauto].
  next_slice t. eauto.
Qed.

Lemma contains_line_number_ok s : exists b, contains_line_number s = Ok b.
Proof.
  unfold contains_line_number. cbv zeta. pose proof (index_sub_bounds s line_number_part) as B.
  destruct (index_sub s line_number_part =? -1) eqn:E; [eauto|].
  destruct (index_sub s line_number_part + len line_number_part <? len s) eqn:E1; [|eauto].
  pose proof (len_nonneg line_number_part). next_idx c. eauto.
Qed.

Lemma contains_created_by_ok s : exists b, contains_created_by s = Ok b.
Proof.
  unfold contains_created_by. cbv zeta.
  apply guarded_slice_ok;
    [pose proof (index_sub_bounds s created_by_part); pose proof (len_nonneg created_by_part); lia|eauto].
Qed.

Lemma contains_panic_address_ok s : exists b, contains_panic_address s = Ok b.
Proof.
  unfold contains_panic_address. cbv zeta.
  apply guarded_slice_ok;
    [pose proof (index_sub_bounds s panic_part1); pose proof (len_nonneg panic_part1); lia|intros s1].
  pose proof (index_sub_bounds s1 panic_part2) as B1.
  destruct (index_sub s1 panic_part2 =? -1) eqn:E1; [eauto|].
  destruct (index_sub s1 panic_part2 =? 0); [eauto|].
  pose proof (len_nonneg panic_part2). next_slice s2. destruct (len s2 =? 0) eqn:E0; [eauto|]. next_idx c. eauto.
Qed.

Lemma contains_call_ok s : exists b, contains_call s = Ok b.
Proof.
  unfold contains_call. cbv zeta.
  apply guarded_slice_ok; [pose proof (last_index_byte_bounds s 41%N); lia|intros s1].
  pose proof (last_index_byte_bounds s1 40%N) as B1.
  destruct (last_index_byte s1 40%N =? -1) eqn:E1; [eauto|].
  destruct (scan_back_lud_ok s1 (S (length s1)) (last_index_byte s1 40%N - 1)) as (left & -> & E2);
    [lia|unfold len in *; lia|].
  cbn [bind]. destruct (left =? last_index_byte s1 40%N - 1) eqn:E3; [eauto|]. destruct (left =? -1) eqn:E4; [eauto|].
  next_idx c. destruct (beq c 46%N); cbn [negb]; [|eauto].
  (* the byte before the dot is read only when there is one *)
  destruct (0 <=? left - 1) eqn:E5; [next_idx c2; destruct (beq c2 41%N)|]; cbn [bind];
    next_slice s2; apply ends_with_identifier_ok.
Qed.

Lemma go_panic_continue_ok s : exists b, go_panic_continue s = Ok b.
Proof.
  unfold go_panic_continue. repeat apply orelse_ok; eauto.
  - apply contains_goroutine_id_ok.
  - apply contains_line_number_ok.
  - apply contains_created_by_ok.
  - apply contains_panic_address_ok.
  - apply contains_call_ok.
Qed.

Theorem template_check_ok : forall tmpl cont s, exists b, template_check tmpl cont s = Ok b.
Proof.
  intros tmpl cont s. unfold template_check.
  destruct tmpl as [|[[| |]|[| |]|]|]; destruct cont; try (eexists; reflexivity).
  - apply go_panic_continue_ok.
  - apply sharp_continue_ok.
  - apply ci_prefix_after_spaces_ok.
Qed.

Theorem template_check_total : forall tmpl cont s p, template_check tmpl cont s <> Panic p.
Proof. intros tmpl cont s p. destruct (template_check_ok tmpl cont s) as [b ->]. discriminate. Qed.

(* the (^\s*$) alternative of go_panic's continue pattern: "every byte is white space" *)
Lemma only_spaces_spec : forall l, only_spaces l = forallb a_is_space l.
Proof.
  intros l. unfold only_spaces, first_non_space.
  pose proof (first_non_space_from_spec l 0). destruct (forallb a_is_space l); lia.
Qed.

Lemma rev'_nonempty {A} (l : list A) : l <> [] -> rev' l <> [].
Proof.
  unfold rev'. rewrite <- rev_alt. destruct l as [|x l]; [contradiction|]. intros _ H.
  apply (f_equal (@length A)) in H. rewrite rev_length in H. discriminate.
Qed.

(* [parse_selector_loop] is a second model of cfg.ParseFieldSelector beside Model.Fields.psel_loop (of C18): the
   same statements in the same order, so the two return alike, and what is proved of that model ([Fields.psel_dd]:
   it returns [Fields.split_dd]) holds of this one.  Only the returns agree: out of fuel the one says [OutOfFuel],
   the other [Err 99]. *)
Lemma parse_selector_loop_psel : forall fuel selector tail acc r,
  parse_selector_loop selector tail acc fuel = Ok r <-> Fields.psel_loop fuel acc tail selector = Ok r.
Proof.
  induction fuel as [|f IH]; intros selector tail acc r; [split; discriminate|].
  cbn [parse_selector_loop Fields.psel_loop]. cbv zeta. unfold beq, Fields.DOT, Fields.BSL.
  destruct (index_byte selector 46%N =? -1).
  { unfold rev'. destruct (len selector + len tail =? 0); reflexivity. }
  apply bind_ok_iff. intros [|].
  - apply bind_ok_iff. intro a. apply bind_ok_iff. intro rest. apply IH.
  - apply bind_ok_iff. intros [|]; apply bind_ok_iff; intro a; apply bind_ok_iff; intro rest; apply IH.
Qed.

Lemma parse_selector_loop_ok : forall fuel selector tail acc,
  (length selector < fuel)%nat -> exists r, parse_selector_loop selector tail acc fuel = Ok r.
Proof.
  intros fuel selector tail acc Hf. pose proof (Fields.psel_dd fuel acc tail selector) as D.
  destruct (Fields.psel_loop fuel acc tail selector) as [r| |] eqn:E; [|lia..].
  exists r. apply parse_selector_loop_psel. exact E.
Qed.

Lemma parse_selector_loop_nonempty : forall fuel selector tail acc r,
  (acc <> [] \/ len selector + len tail <> 0) ->
  parse_selector_loop selector tail acc fuel = Ok r -> r <> [].
Proof.
  intros fuel selector tail acc r Hne E. apply parse_selector_loop_psel in E.
  pose proof (Fields.psel_dd fuel acc tail selector) as D. rewrite E in D. subst r. intro N.
  apply app_eq_nil in N as [Na N]. apply Fields.split_dd_nil in N as [-> Nt]. cbn [app] in Nt.
  apply (f_equal (@rev _)) in Na, Nt. rewrite rev_involutive in Na, Nt. subst acc tail.
  destruct Hne as [Hne|Hne]; exact (Hne eq_refl).
Qed.

Theorem parse_field_selector_ok : forall selector, exists r, parse_field_selector selector = Ok r.
Proof. intros. unfold parse_field_selector. apply parse_selector_loop_ok. lia. Qed.

Theorem parse_field_selector_total : forall selector p, parse_field_selector selector <> Panic p.
Proof. intros selector p. destruct (parse_field_selector_ok selector) as [r ->]. discriminate. Qed.

(* a non-empty selector never parses to the empty path (the hypothesis c13_rename_cfg_paths_nonempty makes about
   the selector oracle, proved of the model) *)
Theorem parse_field_selector_nonempty : forall selector r,
  selector <> [] -> parse_field_selector selector = Ok r -> r <> [].
Proof.
  intros selector r Hne. unfold parse_field_selector. apply parse_selector_loop_nonempty. right.
  destruct selector; [contradiction|]. rewrite len_cons, len_nil. pose_lens. lia.
Qed.

(* a selector without a dot is one segment, itself (what every plain field option goes through) *)
Theorem parse_field_selector_plain : forall selector,
  selector <> [] -> index_byte selector 46%N = -1 -> parse_field_selector selector = Ok [selector].
Proof.
  intros selector Hne H. unfold parse_field_selector. cbn [parse_selector_loop]. cbv zeta. rewrite H. cbn [Z.eqb].
  rewrite len_nil. replace (len selector + 0 =? 0) with false; [reflexivity|].
  destruct selector; [contradiction|]. rewrite len_cons. pose_lens. lia.
Qed.

(* the selector function the rename / move / ... models take as an oracle, instantiated with the model of
   cfg.ParseFieldSelector: the hypothesis of rename_cfg_paths_nonempty (Properties: c13_rename_cfg_paths_nonempty,
   c13_rename_total_wf) holds of it, so for this instance rename's totality needs no hypothesis at all *)
Definition selector_fn (k : bytes) : list bytes :=
  match parse_field_selector k with Ok r => r | _ => [] end.

Lemma selector_fn_nonempty : forall k, k <> [] -> selector_fn k <> [].
Proof.
  intros k Hk. unfold selector_fn. destruct (parse_field_selector_ok k) as [r E]. rewrite E.
  exact (parse_field_selector_nonempty k r Hk E).
Qed.

Theorem rename_paths_nonempty_modelled_selector : forall cfg, paths_nonempty (rename_ops selector_fn cfg) = true.
Proof. intros cfg. apply rename_cfg_paths_nonempty. exact selector_fn_nonempty. Qed.

Theorem rename_total_modelled_selector : forall preserve cfg root,
  exists r, rename_cfg_do selector_fn preserve cfg root = Ok (APass, r).
Proof. intros. apply rename_cfg_total. exact selector_fn_nonempty. Qed.
