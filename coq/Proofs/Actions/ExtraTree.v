(* Facts about the tree operations of Base/Json.v, Model/Actions/Tree.v and Model/Actions/ExtraTree.v
   used by the specifications of Proofs/Actions/ExtraPlugins.v: what a lookup answers after set_field /
   MergeToRoot, Suicide as a permutation, Dig after an update, well-formedness. *)
From Verif Require Import Base.Sx Base.GoSem Base.Json Model.Decoders.Common Proofs.GoSemFacts Proofs.JsonFacts
  Model.Actions.Tree Proofs.Actions.Tree Model.Actions.ExtraTree.
From Coq Require Import Lia ZifyBool Permutation.

(* set_field by recursion on the fields: the first one of that name is overwritten, else a new last one added *)
Fixpoint set_field_rec (fs : list (bytes * json)) (k : bytes) (v : json) : list (bytes * json) :=
  match fs with
  | [] => [(k, v)]
  | (k', v') :: r => if key_eqb k' k then (k, v) :: r else (k', v') :: set_field_rec r k v
  end.

Lemma set_field_rec_eq k v : forall fs, set_field fs k v = set_field_rec fs k v.
Proof.
  induction fs as [|[k' v'] r IH]; [reflexivity|].
  unfold set_field in *. cbn [field_index set_field_rec]. destruct (key_eqb k' k) eqn:E; [reflexivity|].
  rewrite field_index_shift, <- IH. destruct (field_index r k 0); reflexivity.
Qed.

Lemma field_get_set_field fs k v k' :
  field_get (set_field fs k v) k' = if key_eqb k k' then Some v else field_get fs k'.
Proof.
  rewrite set_field_rec_eq. induction fs as [|[k1 v1] r IH]; cbn [set_field_rec field_get].
  - destruct (key_eqb k k'); reflexivity.
  - destruct (key_eqb k1 k) eqn:E1; cbn [field_get].
    + apply key_eqb_eq in E1. subst k1. destruct (key_eqb k k'); reflexivity.
    + rewrite IH. destruct (key_eqb k1 k') eqn:E2; [|reflexivity].
      destruct (key_eqb k k') eqn:E3; [|reflexivity].
      apply key_eqb_eq in E2, E3. subst. rewrite key_eqb_refl in E1. discriminate.
Qed.

Lemma field_get_set_field_same fs k v : field_get (set_field fs k v) k = Some v.
Proof. rewrite field_get_set_field, key_eqb_refl. reflexivity. Qed.
Lemma field_get_set_field_other fs k v k' : k <> k' -> field_get (set_field fs k v) k' = field_get fs k'.
Proof. intros H. rewrite field_get_set_field. apply key_eqb_neq in H. rewrite H. reflexivity. Qed.

Lemma set_field_get fs k v :
  field_get (set_field fs k v) k = Some v /\ forall k', k' <> k -> field_get (set_field fs k v) k' = field_get fs k'.
Proof. split; [apply field_get_set_field_same|]. intros k' H. apply field_get_set_field_other. congruence. Qed.

(* the last value a field list gives a key *)
Fixpoint last_get (src : list (bytes * json)) (k : bytes) : option json :=
  match src with
  | [] => None
  | (k', v) :: r => match last_get r k with Some x => Some x | None => if key_eqb k' k then Some v else None end
  end.

Lemma fold_set_field_get : forall src fs k,
  field_get (fold_left (fun acc kv => set_field acc (fst kv) (snd kv)) src fs) k
  = match last_get src k with Some v => Some v | None => field_get fs k end.
Proof.
  induction src as [|[k1 v1] r IH]; intros fs k; cbn [fold_left last_get fst snd]; [reflexivity|].
  rewrite IH. destruct (last_get r k); [reflexivity|]. rewrite field_get_set_field. destruct (key_eqb k1 k); reflexivity.
Qed.

(* pipeline.MergeToRoot: afterwards every key of the source holds the source's (last) value for it,
   every other key holds what the root had *)
Theorem merge_to_root_get fs src k :
  exists fs', merge_to_root (JObj fs) src = JObj fs' /\
    field_get fs' k = match last_get src k with Some v => Some v | None => field_get fs k end.
Proof. eexists. split; [reflexivity|]. apply fold_set_field_get. Qed.

Lemma nth_error_last {A} (l : list A) x d : nth_error l (length l - 1) = Some x -> l = removelast l ++ [x] /\ last l d = x.
Proof.
  intros H. destruct (@exists_last _ l) as (m & z & ->); [intros ->; discriminate|].
  rewrite app_length, Nat.add_sub, nth_error_app2, Nat.sub_diag in H by reflexivity. injection H as <-.
  rewrite removelast_last, last_last. split; reflexivity.
Qed.

Lemma swap_remove_length {A} (l : list A) i : (i < length l)%nat -> S (length (swap_remove l i)) = length l.
Proof.
  intros Hi. destruct (nth_error l i) as [x|] eqn:E.
  - apply swap_remove_perm in E. apply Permutation_length in E. cbn [length] in E. lia.
  - apply nth_error_None in E. lia.
Qed.

(* from any start index; JsonFacts.field_index_nth, which this name hides below and in the files that import this
   one, is the case i0 = 0 *)
Lemma field_index_nth k : forall fs i0 i, field_index fs k i0 = Some i ->
  (i0 <= i)%nat /\ exists v, nth_error fs (i - i0) = Some (k, v) /\ field_get fs k = Some v.
Proof.
  intros fs i0 i H. pose proof (field_index_spec fs k i0) as S. rewrite H in S.
  destruct S as (a & v & b & -> & -> & Hn). split; [lia|]. exists v. split; [|apply field_get_app_notin, Hn].
  rewrite Nat.add_comm, Nat.add_sub, nth_error_app2, Nat.sub_diag by reflexivity. reflexivity.
Qed.

(* removing the first field named k from an object (Dig(k).Suicide()):
   the other fields are what is left, up to the swap-remove reordering *)
Theorem jremove_field_spec fs k v : field_get fs k = Some v ->
  exists fs', jremove (JObj fs) [k] = JObj fs' /\ Permutation fs ((k, v) :: fs') /\
    (NoDup (map fst fs) -> forall k', k' <> k -> field_get fs' k' = field_get fs k') /\
    (NoDup (map fst fs) -> field_get fs' k = None).
Proof.
  intros Hg. cbn [jremove]. destruct (field_index_of_get fs k v Hg) as (i & -> & Hn).
  exists (swap_remove fs i). split; [reflexivity|].
  pose proof (swap_remove_perm fs i (k, v) Hn) as Hp. split; [exact Hp|]. split; intros Hnd.
  - intros k' Hk. rewrite (field_get_perm fs _ k' Hnd Hp). cbn [field_get].
    apply not_eq_sym, key_eqb_neq in Hk. rewrite Hk. reflexivity.
  - apply field_get_none. apply (Permutation_NoDup (Permutation_map fst Hp)), NoDup_cons_iff in Hnd. apply Hnd.
Qed.

(* the field Dig finds is the one set_field overwrites *)
Lemma field_get_set_at_index fs k i v v' : field_index fs k 0 = Some i -> nth_error fs i = Some (k, v) ->
  field_get (set_at fs i (k, v')) k = Some v'.
Proof. intros Hi _. rewrite <- (field_get_set_field_same fs k v'). unfold set_field. rewrite Hi. reflexivity. Qed.

Theorem jdig_jupdate_same (f : json -> json) : forall path j v,
  jdig j path = Some v -> jdig (jupdate j path f) path = Some (f v).
Proof.
  induction path as [|k rest IH]; intros j v H; cbn [jdig jupdate] in *; [congruence|].
  destruct j as [| | | |l|fs]; try discriminate.
  - destruct (atoi_signed k) as [i|] eqn:Ea; [|discriminate].
    destruct ((0 <=? i) && (i <? len l)) eqn:Eb; [|discriminate].
    destruct (nth_error l (Z.to_nat i)) as [x|] eqn:En; [|discriminate].
    cbn [jdig]. unfold len. rewrite length_set_at. fold (len l). rewrite Eb, (nth_error_set_at l _ x _ En).
    apply IH, H.
  - destruct (field_get fs k) as [x|] eqn:Eg; [|discriminate].
    destruct (field_index_of_get fs k x Eg) as (i & Ei & Hn). rewrite Ei.
    rewrite Hn. cbn [jdig]. rewrite (field_get_set_at_index fs k i x _ Ei Hn). apply IH, H.
Qed.

Lemma jdig_obj_key fs k : jdig (JObj fs) [k] = field_get fs k.
Proof. cbn [jdig]. destruct (field_get fs k); reflexivity. Qed.

Lemma jupdate_is_object j k rest f : is_object (jupdate j (k :: rest) f) = is_object j.
Proof.
  cbn [jupdate]. destruct j as [| | | |l|fs]; try reflexivity.
  - destruct (atoi_signed k) as [i|]; [|reflexivity]. destruct ((0 <=? i) && (i <? len l)); [|reflexivity].
    destruct (nth_error l (Z.to_nat i)); reflexivity.
  - destruct (field_index fs k 0) as [i|]; [|reflexivity]. destruct (nth_error fs i) as [[k' v]|]; reflexivity.
Qed.

Lemma jremove_is_object j path : is_object (jremove j path) = is_object j.
Proof.
  destruct path as [|k [|k2 rest]]; [reflexivity| |].
  - cbn [jremove]. destruct j as [| | | |l|fs]; try reflexivity.
    + destruct (atoi_signed k) as [i|]; [|reflexivity]. destruct ((0 <=? i) && (i <? len l)); reflexivity.
    + destruct (field_index fs k 0); reflexivity.
  - rewrite jremove_cons2. destruct (jdig j [k]); [apply jupdate_is_object|reflexivity].
Qed.

Lemma is_object_obj j : is_object j = true -> exists fs, j = JObj fs.
Proof. destruct j; try discriminate. eauto. Qed.

Lemma jremove_obj fs path : exists fs1, jremove (JObj fs) path = JObj fs1.
Proof. apply is_object_obj. rewrite jremove_is_object. reflexivity. Qed.

Lemma obj_set_not_obj k v t : is_object t = false -> obj_set k v t = t.
Proof. destruct t; try reflexivity. discriminate. Qed.

Lemma obj_set_wf k v t : wf_json t = true -> wf_json v = true -> wf_json (obj_set k v t) = true.
Proof.
  intros Ht Hv. destruct t as [| | | | |fs]; cbn [obj_set]; try exact Ht. apply set_field_wf; assumption.
Qed.

Lemma dig_jdig : forall path j v, dig j path = Some v -> jdig j path = Some v.
Proof.
  induction path as [|k rest IH]; intros j v E; [exact E|]. cbn [dig jdig] in *.
  destruct j as [| | | | |fs]; try discriminate. destruct (field_get fs k); [apply IH, E|discriminate].
Qed.

Lemma dig_wf path j v : wf_json j = true -> dig j path = Some v -> wf_json v = true.
Proof. intros H E. exact (jdig_wf path j v H (dig_jdig path j v E)). Qed.

Lemma coerce_obj_wf o : (forall v, o = Some v -> wf_json v = true) -> wf_json (coerce_obj o) = true.
Proof.
  intros H. destruct o as [[| | | | |s]|]; cbn [coerce_obj]; try reflexivity. apply H. reflexivity.
Qed.

Lemma ensure_nested_wf j path : wf_json j = true -> wf_json (ensure_nested j path) = true.
Proof.
  intros H. destruct path as [|k rest]; cbn [ensure_nested]; [exact H|].
  apply create_nested_wf; [|exact H]. apply coerce_obj_wf. intros v E. exact (dig_wf _ _ _ H E).
Qed.

Lemma prefix_fields_wf p fs : wf_fields fs = true -> wf_fields (prefix_fields p fs) = true.
Proof.
  unfold wf_fields, prefix_fields. induction fs as [|[k v] r IH]; cbn; [reflexivity|].
  intros H. apply andb_prop in H. destruct H as [-> H]. cbn. apply IH, H.
Qed.

Lemma fold_jremove_wf {A} (g : A -> list bytes) : forall l root, wf_json root = true ->
  wf_json (fold_left (fun r x => jremove r (g x)) l root) = true.
Proof.
  induction l as [|x l IH]; intros root H; cbn [fold_left]; [exact H|]. apply IH, jremove_wf, H.
Qed.
