(* C13, action-plugin part: the final lemmas, one per modelled plugin and clause
     c13_<plugin>_total    no input makes the modelled code panic (out-of-range index / slice, exhausted loop)
     c13_<plugin>_tree_wf  the event the action leaves is a well-formed JSON tree
   and beside them what cut returns, the empty cutset on which trim_to panics (parseTrimToFilter rejects it), the tree operations,
   FormatUint and the predicate of the generic layer.
   Properties/C13.v restates each of them and closes it with [exact]. *)
From Verif Require Import Base.Sx Base.GoSem Base.Json Model.Decoders.Common Proofs.GoSemFacts
  Model.Actions.Tree Model.Actions.Subst Model.Actions.ConvertUtf8 Model.Actions.HashNorm Model.Actions.Plugins
  Model.Actions.Entry
  Proofs.Actions.Tree Proofs.Actions.Subst Proofs.Actions.ConvertUtf8 Proofs.Actions.HashNorm Proofs.Actions.Plugins.
From Coq Require Import Lia ZifyBool.

(* cut(mode, count): parseCutFilter accepts count > 0 *)
Lemma c13_modify_cut_total : forall first count src p, 0 < count -> cut_apply first count src <> Panic p.
Proof. intros. apply cut_total. lia. Qed.

Lemma c13_modify_cut_spec : forall count src, 0 < count ->
  cut_apply true count src = Ok (if len src <? count then src else firstn (Z.to_nat count) src) /\
  cut_apply false count src = Ok (if len src <? count then src else skipn (Z.to_nat (len src - count)) src).
Proof.
  intros count src Hc. destruct (len src <? count) eqn:E.
  - split; apply cut_short_spec; lia.
  - split; [apply cut_first_spec|apply cut_last_spec]; lia.
Qed.

(* trim_to(mode, cutset): parseTrimToFilter accepts a non-empty cutset (fixes/C13-trim-to-empty-cutset.patch) *)
Lemma c13_modify_trim_to_total : forall mode cutset src p, cutset <> [] -> trim_to_apply mode cutset src <> Panic p.
Proof. exact trim_to_total. Qed.

(* the hypothesis is needed: on the empty cutset, which parseTrimToFilter rejects, the filter panics *)
Lemma c13_modify_trim_to_empty_cutset_refuted : exists mode src, trim_to_apply mode [] src = Panic 1.
Proof. exists 2, [97%N]. vm_compute. reflexivity. Qed.

(* re(regex, limit, groups, separator, emptyOnNotMatched): for every answer of the regexp library
   of the documented shape and every group list cfg.VerifyGroupNumbers accepts (0 <= g <= NumSubexp) *)
Lemma c13_modify_re_total : forall nsub groups sep emp indexes src dst p,
  groups_ok nsub groups = true -> forallb (index_ok nsub (len src)) indexes = true ->
  re_apply groups sep emp indexes src dst <> Panic p.
Proof. exact re_total. Qed.

(* Do, with substitutions whose filters are cut / trim / trim_to *)
Lemma c13_modify_total : forall skip_empty fops root p,
  forallb (fun fo => forallb sop_valid (snd fo)) fops = true -> modify_do skip_empty root fops <> Panic p.
Proof. exact modify_do_total. Qed.

Lemma c13_modify_tree_wf : forall skip_empty fops root root',
  wf_json root = true -> modify_do skip_empty root fops = Ok root' -> wf_json root' = true.
Proof. exact modify_do_tree_wf. Qed.

Lemma c13_parse_re2_total : forall root path prefix names sm p,
  sm = [] \/ len sm = len names -> parse_re2_do root path prefix names sm <> Panic p.
Proof. exact parse_re2_total. Qed.

Lemma c13_parse_re2_tree_wf : forall root path prefix names sm root',
  wf_json root = true -> parse_re2_do root path prefix names sm = Ok root' -> wf_json root' = true.
Proof. exact parse_re2_tree_wf. Qed.

Lemma c13_json_extract_total : forall fmt_num prefix root path doc efs ef dup p,
  extract_tree efs ef dup <> Panic p /\
  forall fields, json_extract_do fmt_num prefix root path doc fields <> Panic p.
Proof. intros. split; [apply extract_tree_total|intros; apply json_extract_do_total]. Qed.

Lemma c13_json_extract_tree_wf : forall fmt_num prefix root path doc fields root',
  (forall r, json_number_ok (fmt_num r) = true) ->
  wf_json root = true -> wf_json doc = true ->
  json_extract_do fmt_num prefix root path doc fields = Ok root' -> wf_json root' = true.
Proof. exact json_extract_do_tree_wf. Qed.

Lemma c13_hash_normalizer_total : forall has data p, normalize_by_tokenizer has data <> Panic p.
Proof. exact normalize_total. Qed.

Lemma c13_hash_total : forall hash_of root fields rpath p, hash_do hash_of root fields rpath <> Panic p.
Proof. exact hash_do_total. Qed.

Lemma c13_hash_tree_wf : forall hash_of root fields rpath root',
  (forall n d, 0 <= hash_of n d < 2 ^ 64) ->
  wf_json root = true -> hash_do hash_of root fields rpath = Ok root' -> wf_json root' = true.
Proof. exact hash_do_tree_wf. Qed.

Lemma c13_convert_utf8_bytes_scanner_total : forall is_graphic replace s p, convert is_graphic replace s <> Panic p.
Proof. exact convert_total. Qed.

Lemma c13_convert_utf8_bytes_total : forall is_graphic replace paths root p,
  convert_do is_graphic replace root paths <> Panic p.
Proof. exact convert_do_total. Qed.

Lemma c13_convert_utf8_bytes_tree_wf : forall is_graphic replace paths root root',
  wf_json root = true -> convert_do is_graphic replace root paths = Ok root' -> wf_json root' = true.
Proof. exact convert_do_tree_wf. Qed.

Lemma c13_split_total : forall is_child root path p, split_do is_child root path <> Panic p.
Proof. exact split_total. Qed.

Lemma c13_split_tree_wf : forall is_child root path r children,
  wf_json root = true -> split_do is_child root path = Ok (r, children) ->
  (r = 0 \/ r = 4) /\ forallb (fun j => is_obj j && wf_json j) children = true.
Proof. exact split_tree_wf. Qed.

(* the tree operations every model above is built from *)
Lemma c13_tree_ops_wf : forall root path leaf v,
  wf_json root = true -> wf_json leaf = true ->
  wf_json (jremove root path) = true /\
  wf_json (create_nested root path leaf) = true /\
  (jdig root path = Some v -> wf_json v = true).
Proof.
  intros root path leaf v H Hl. split; [apply jremove_wf, H|]. split; [apply create_nested_wf; assumption|].
  intros E. exact (jdig_wf path root v H E).
Qed.

Lemma c13_format_uint_number : forall n, 0 <= n < 2 ^ 64 -> json_number_ok (format_uint n) = true.
Proof. exact format_uint_number. Qed.

(* the generic layer's predicate: the runner answers Agree exactly on the observation (1) *)
Lemma c13_generic_predicate : forall which plugins events obs,
  0 <= which < 30 ->
  (c13_actions_entry which (SL [SL plugins; SL events]) obs = Agree <-> obs = SL [SZ 1]).
Proof.
  intros which plugins events obs Hw. unfold c13_actions_entry.
  replace ((0 <=? which) && (which <? 30)) with true by lia.
  unfold generic_run, exact_verdict. split; [|intros ->; reflexivity].
  destruct (sx_eqb (SL [SZ 1]) obs) eqn:E; [|discriminate]. intros _. symmetry. exact (sx_eqb_sound _ _ E).
Qed.
