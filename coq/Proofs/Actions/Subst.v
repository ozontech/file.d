(* cfg/substitution filters: no filter application can panic on any field value, for every
   configuration the filter parsers accept; functional specifications of cut. *)
From Verif Require Import Base.Sx Base.GoSem Model.Decoders.Common Proofs.Decoders.Common Model.Actions.Subst.
From Coq Require Import Lia ZifyBool.

Theorem cut_first_spec : forall count src, 0 <= count <= len src ->
  cut_apply true count src = Ok (firstn (Z.to_nat count) src).
Proof.
  intros count src H. unfold cut_apply. replace (len src <? count) with false by lia. apply slice_to_ok, H.
Qed.

Theorem cut_last_spec : forall count src, 0 <= count <= len src ->
  cut_apply false count src = Ok (skipn (Z.to_nat (len src - count)) src).
Proof.
  intros count src H. unfold cut_apply. replace (len src <? count) with false by lia. apply slice_from_ok. lia.
Qed.

Theorem cut_short_spec : forall first count src, len src < count -> cut_apply first count src = Ok src.
Proof. intros. unfold cut_apply. replace (len src <? count) with true by lia. reflexivity. Qed.

Theorem cut_total : forall first count src p, 0 <= count -> cut_apply first count src <> Panic p.
Proof.
  intros first count src p Hc. destruct (Z.ltb_spec (len src) count) as [H|H].
  - rewrite cut_short_spec by exact H. discriminate.
  - destruct first; [rewrite cut_first_spec by lia|rewrite cut_last_spec by lia]; discriminate.
Qed.

(* Model/Actions/Subst.v has a bytes.LastIndex of its own, with the body of the one in Model/Decoders/Common.v:
   the two are convertible *)
Lemma last_index_sub_from_bounds needle : forall l i best,
  (best = -1 \/ (0 <= best /\ best + len needle <= i + len l /\ best <= i + len l)) -> 0 <= i ->
  let r := last_index_sub_from l needle i best in
  r = -1 \/ (0 <= r /\ r + len needle <= i + len l).
Proof.
  intros l i best Hb Hi r. pose proof (Proofs.Decoders.Common.last_index_sub_from_bounds needle l i best) as B.
  change (Model.Decoders.Common.last_index_sub_from l needle i best) with r in B. lia.
Qed.

Lemma last_index_sub_bounds l needle :
  last_index_sub l needle = -1 \/ (0 <= last_index_sub l needle /\ last_index_sub l needle + len needle <= len l).
Proof. exact (Proofs.Decoders.Common.last_index_sub_bounds l needle). Qed.

Theorem trim_to_total : forall mode cutset src p, cutset <> [] -> trim_to_apply mode cutset src <> Panic p.
Proof.
  intros mode cutset src p Hne. unfold trim_to_apply.
  assert (Hl : 1 <= len cutset) by (destruct cutset; [contradiction|rewrite len_cons; pose_lens; lia]).
  apply bind_not_panic.
  - destruct ((mode =? 0) || (mode =? 1)); [|discriminate]. cbv zeta.
    pose proof (index_sub_bounds src cutset) as B. destruct (index_sub src cutset =? -1) eqn:E; [discriminate|].
    rewrite slice_from_ok by lia. discriminate.
  - intros s1. destruct ((mode =? 0) || (mode =? 2)); [|discriminate]. cbv zeta.
    pose proof (last_index_sub_bounds s1 cutset) as B. destruct (last_index_sub s1 cutset =? -1) eqn:E; [discriminate|].
    rewrite slice_to_ok by lia. discriminate.
Qed.

Lemma pairs_ok_idx srclen : forall index k,
  pairs_ok srclen index = true -> 0 <= k -> 2 * k + 1 < len index ->
  exists s e, idx index (2 * k) = Ok s /\ idx index (2 * k + 1) = Ok e /\
              ((s = -1 /\ e = -1) \/ (0 <= s <= e /\ e <= srclen)).
Proof.
  fix IH 1. intros index k H Hk Hl.
  destruct index as [|s [|e r]]; cbn [pairs_ok] in H; try discriminate.
  - rewrite len_nil in Hl. lia.
  - apply andb_prop in H. destruct H as [H1 H2].
    destruct (Z.eq_dec k 0) as [->|Hn].
    + exists s, e. cbn [Z.mul Z.add]. rewrite idx_cons_0, idx_cons_S, idx_cons_0 by lia. repeat split; try reflexivity. lia.
    + rewrite !len_cons in Hl.
      destruct (IH r (k - 1) H2) as (s' & e' & E1 & E2 & E3); [lia|lia|].
      exists s', e'. rewrite !idx_cons_S by lia.
      replace (2 * k - 1 - 1) with (2 * (k - 1)) by lia.
      replace (2 * k + 1 - 1 - 1) with (2 * (k - 1) + 1) by lia. auto.
Qed.

Lemma re_groups_total src sep nsub index : index_ok nsub (len src) index = true ->
  forall groups acc ne p, groups_ok nsub groups = true ->
  re_groups src sep index groups acc ne <> Panic p.
Proof.
  intros Hi. unfold index_ok in Hi. apply andb_prop in Hi. destruct Hi as [Hlen Hp].
  induction groups as [|g gs IH]; intros acc ne p Hg; cbn [re_groups]; [discriminate|].
  cbn [groups_ok forallb] in Hg. apply andb_prop in Hg. destruct Hg as [Hg Hgs].
  destruct (pairs_ok_idx (len src) index g Hp) as (s & e & E1 & E2 & E3); [lia|lia|].
  replace (g * 2) with (2 * g) by lia. rewrite E1, E2. cbn [bind].
  destruct ((s =? -1) || (e =? -1)) eqn:Em; [apply IH, Hgs|].
  destruct E3 as [E3|E3]; [lia|].
  next_slice chunk. apply IH, Hgs.
Qed.

Lemma re_groups_not_err src sep index : forall groups acc ne e,
  re_groups src sep index groups acc ne <> Err e.
Proof.
  induction groups as [|g gs IH]; intros acc ne e; cbn [re_groups]; [discriminate|].
  apply bind_not_err; [apply idx_not_err|intros s]. apply bind_not_err; [apply idx_not_err|intros en].
  destruct ((s =? -1) || (en =? -1)); [apply IH|].
  apply bind_not_err; [apply slice_not_err|intros c; apply IH].
Qed.

Lemma re_matches_total src sep nsub groups : groups_ok nsub groups = true ->
  forall indexes acc ne p, forallb (index_ok nsub (len src)) indexes = true ->
  re_matches src sep indexes groups acc ne <> Panic p.
Proof.
  intros Hg. induction indexes as [|index rest IH]; intros acc ne p Hi; cbn [re_matches]; [discriminate|].
  cbn [forallb] in Hi. apply andb_prop in Hi. destruct Hi as [Hi Hr].
  apply bind_not_panic; [exact (re_groups_total _ _ _ _ Hi _ _ _ _ Hg)|]. intros [acc1 ne1]. apply IH, Hr.
Qed.

(* for every answer of the regexp library that has the documented shape (one start/end pair per
   sub-expression, each -1/-1 or a range inside src) and every group list the parser accepted *)
Theorem re_total : forall nsub groups sep emp indexes src dst p,
  groups_ok nsub groups = true -> forallb (index_ok nsub (len src)) indexes = true ->
  re_apply groups sep emp indexes src dst <> Panic p.
Proof.
  intros nsub groups sep emp indexes src dst p Hg Hi. unfold re_apply.
  destruct groups as [|g gs]; [discriminate|].
  destruct indexes as [|i is]; [destruct emp; discriminate|].
  apply bind_not_panic; [exact (re_matches_total _ _ _ _ Hg _ _ _ _ Hi)|]. intros [acc ne]. discriminate.
Qed.
