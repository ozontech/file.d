(* The tree operations of Model/Actions/Tree.v keep an event well formed (wf_json: every number
   node carries a JSON number), and strconv.FormatUint yields a JSON number. *)
From Verif Require Import Base.Sx Base.GoSem Base.Json Model.Decoders.Common Proofs.GoSemFacts Proofs.JsonFacts
  Model.Actions.Tree.
From Coq Require Import Lia ZifyBool.

Definition wf_fields (fs : list (bytes * json)) : bool := forallb (fun kv => wf_json (snd kv)) fs.

Lemma wf_obj fs : wf_json (JObj fs) = wf_fields fs.
Proof. reflexivity. Qed.
Lemma wf_arr l : wf_json (JArr l) = forallb wf_json l.
Proof. reflexivity. Qed.

Lemma forallb_nth {A} (f : A -> bool) l n x : forallb f l = true -> nth_error l n = Some x -> f x = true.
Proof. intros H E. exact (proj1 (forallb_forall f l) H x (nth_error_In l n E)). Qed.

Lemma forallb_firstn {A} (f : A -> bool) l : forall n, forallb f l = true -> forallb f (firstn n l) = true.
Proof. intros n H. rewrite <- (firstn_skipn n l), forallb_app in H. apply andb_prop in H. apply H. Qed.

Lemma forallb_skipn {A} (f : A -> bool) l : forall n, forallb f l = true -> forallb f (skipn n l) = true.
Proof. intros n H. rewrite <- (firstn_skipn n l), forallb_app in H. apply andb_prop in H. apply H. Qed.

Lemma forallb_removelast {A} (f : A -> bool) l : forallb f l = true -> forallb f (removelast l) = true.
Proof. rewrite removelast_firstn_len. apply forallb_firstn. Qed.

Lemma field_get_wf fs k v : wf_fields fs = true -> field_get fs k = Some v -> wf_json v = true.
Proof.
  induction fs as [|[k' v'] fs IH]; intros H E; cbn in *; [discriminate|].
  apply andb_prop in H. destruct (key_eqb k' k); [injection E as <-; tauto|apply IH; tauto].
Qed.

Lemma set_field_wf fs k v : wf_fields fs = true -> wf_json v = true -> wf_fields (set_field fs k v) = true.
Proof.
  intros H Hv. unfold set_field. destruct (field_index fs k 0); [apply forallb_set_at; assumption|].
  unfold wf_fields in *. rewrite forallb_app, H. cbn [forallb snd andb]. rewrite Hv. reflexivity.
Qed.

Lemma jdig_wf : forall path j v, wf_json j = true -> jdig j path = Some v -> wf_json v = true.
Proof.
  induction path as [|k rest IH]; intros j v H E; cbn [jdig] in E; [injection E as <-; exact H|].
  destruct j as [| | | |l|fs]; try discriminate.
  - destruct (atoi_signed k) as [i|]; [|discriminate].
    destruct ((0 <=? i) && (i <? len l)); [|discriminate].
    destruct (nth_error l (Z.to_nat i)) as [x|] eqn:En; [|discriminate].
    exact (IH x v (forallb_nth _ _ _ _ H En) E).
  - destruct (field_get fs k) as [x|] eqn:Eg; [|discriminate].
    exact (IH x v (field_get_wf _ _ _ H Eg) E).
Qed.

Lemma jupdate_wf (f : json -> json) : (forall v, wf_json v = true -> wf_json (f v) = true) ->
  forall path j, wf_json j = true -> wf_json (jupdate j path f) = true.
Proof.
  intros Hf. induction path as [|k rest IH]; intros j H; cbn [jupdate]; [apply Hf, H|].
  destruct j as [| | | |l|fs]; try exact H.
  - destruct (atoi_signed k) as [i|]; [|exact H].
    destruct ((0 <=? i) && (i <? len l)); [|exact H].
    destruct (nth_error l (Z.to_nat i)) as [x|] eqn:En; [|exact H].
    apply forallb_set_at; [exact H|]. exact (IH x (forallb_nth _ _ _ _ H En)).
  - destruct (field_index fs k 0) as [i|]; [|exact H].
    destruct (nth_error fs i) as [[k' v]|] eqn:En; [|exact H].
    apply forallb_set_at; [exact H|]. exact (IH v (forallb_nth _ _ _ _ H En)).
Qed.

(* below the last key Suicide is an update of the child Dig finds *)
Lemma jremove_cons2 j k k2 rest : jremove j (k :: k2 :: rest)
  = match jdig j [k] with Some _ => jupdate j [k] (fun v => jremove v (k2 :: rest)) | None => j end.
Proof. reflexivity. Qed.

Lemma jremove_wf : forall path j, wf_json j = true -> wf_json (jremove j path) = true.
Proof.
  induction path as [|k rest IH]; intros j H; [exact H|].
  destruct rest as [|k2 rest].
  - cbn [jremove]. destruct j as [| | | |l|fs]; try exact H.
    + destruct (atoi_signed k) as [i|]; [|exact H].
      destruct ((0 <=? i) && (i <? len l)); [|exact H]. apply forallb_remove_at, H.
    + destruct (field_index fs k 0); [|exact H]. apply forallb_swap_remove, H.
  - rewrite jremove_cons2. destruct (jdig j [k]); [|exact H]. apply jupdate_wf; [exact IH|exact H].
Qed.

Lemma create_nested_wf leaf : wf_json leaf = true ->
  forall path j, wf_json j = true -> wf_json (create_nested j path leaf) = true.
Proof.
  intros Hl. induction path as [|k rest IH]; intros j H; cbn [create_nested]; [exact Hl|].
  destruct j as [| | | | |fs]; try exact H.
  apply set_field_wf; [exact H|]. apply IH.
  destruct (field_get fs k) as [[| | | | |s]|] eqn:Eg; try reflexivity.
  exact (field_get_wf _ _ _ H Eg).
Qed.

Lemma merge_to_root_wf src : wf_fields src = true ->
  forall root, wf_json root = true -> wf_json (merge_to_root root src) = true.
Proof.
  intros Hs root H. unfold merge_to_root. destruct root as [| | | | |fs]; try exact H.
  rewrite wf_obj in *. revert fs H. induction src as [|[k v] src IH]; intros fs H; cbn [fold_left]; [exact H|].
  cbn in Hs. apply andb_prop in Hs. apply IH; [tauto|]. apply set_field_wf; tauto.
Qed.

Lemma skip_digits_all l : forallb is_digit l = true -> skip_digits l = [].
Proof.
  induction l as [|c l IH]; intros H; [reflexivity|]. cbn in *. apply andb_prop in H. destruct H as [-> H]. apply IH, H.
Qed.

Lemma digit_cons d acc : 0 <= d < 10 -> forallb is_digit acc = true -> forallb is_digit (Z.to_N (48 + d) :: acc) = true.
Proof. intros Hd Ha. cbn [forallb]. rewrite Ha. unfold is_digit. lia. Qed.

Lemma dec_digits_digits : forall fuel n acc, 0 <= n -> forallb is_digit acc = true ->
  forallb is_digit (dec_digits fuel n acc) = true.
Proof.
  induction fuel as [|f IH]; intros n acc Hn Ha; cbn [dec_digits]; [exact Ha|].
  destruct (n <? 10) eqn:E.
  - apply digit_cons; [lia|exact Ha].
  - apply IH; [apply Z.div_pos; lia|]. apply digit_cons; [apply Z.mod_pos_bound; lia|exact Ha].
Qed.

Lemma dec_digits_pos : forall fuel n acc, 0 < n < 10 ^ Z.of_nat fuel -> forallb is_digit acc = true ->
  exists c r, dec_digits fuel n acc = c :: r /\ is_digit19 c = true /\ forallb is_digit r = true.
Proof.
  induction fuel as [|f IH]; intros n acc Hn Ha.
  - cbn in Hn. lia.
  - cbn [dec_digits]. destruct (n <? 10) eqn:E.
    + exists (Z.to_N (48 + n)), acc. split; [reflexivity|]. split; [unfold is_digit19; lia|exact Ha].
    + apply IH; [|apply digit_cons; [apply Z.mod_pos_bound; lia|exact Ha]].
      rewrite Nat2Z.inj_succ, Z.pow_succ_r in Hn by lia.
      split; [apply Z.div_str_pos; lia|apply Z.div_lt_upper_bound; lia].
Qed.

Theorem format_uint_number : forall n, 0 <= n < 2 ^ 64 -> json_number_ok (format_uint n) = true.
Proof.
  intros n Hn. unfold format_uint. destruct (Z.eq_dec n 0) as [->|Hz]; [reflexivity|].
  destruct (dec_digits_pos 64 n []) as (c & r & E & Hc & Hr); [|reflexivity|].
  { split; [lia|]. assert (2 ^ 64 < 10 ^ Z.of_nat 64) by (vm_compute; reflexivity). lia. }
  rewrite E. unfold json_number_ok.
  assert (H45 : beq c 45%N = false) by (unfold beq, is_digit19 in *; lia).
  assert (H48 : beq c 48%N = false) by (unfold beq, is_digit19 in *; lia).
  rewrite H45, H48, Hc. rewrite (skip_digits_all r Hr). reflexivity.
Qed.
