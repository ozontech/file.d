(* Proofs about Model/MatchFields.v: the loops of isMatchOr / isMatchAnd compute the
   documented combination of the conditions; the conditions extractConditions builds from a match_fields
   map mean what the map is documented to mean; a rule shared by several processors is only read. *)
From Verif Require Import Base.Sx Base.GoSem Base.Json Model.DoIf Model.MatchFields Proofs.GoSemFacts Proofs.ListFacts
  Proofs.DoIf.
From Coq Require Import Permutation.

Section Legacy.
  Variable re_match : bytes -> bytes -> bool.

  Lemma value_exists_existsb vals s byp :
    value_exists vals s byp = existsb (fun v => if byp then has_prefix s v else bytes_eqb v s) vals.
  Proof. unfold value_exists. apply any_of_existsb. Qed.

  (* one round of either loop decides [cond_holds] of the condition at hand *)
  Lemma cond_round {T} byp e c (yes no : T) :
    match jdig e (c_field c) with
    | None => no
    | Some nd =>
        if regexp_hit re_match c (as_string nd) then yes
        else if value_exists (c_values c) (as_string nd) byp then yes else no
    end = if cond_holds re_match byp e c then yes else no.
  Proof.
    unfold cond_holds. destruct (jdig e (c_field c)) as [nd|]; [|reflexivity]. rewrite value_exists_existsb.
    destruct (regexp_hit re_match c (as_string nd)); reflexivity.
  Qed.

  Lemma match_or_spec conds e byp :
    match_or re_match conds e byp = existsb (cond_holds re_match byp e) conds.
  Proof. induction conds as [|c r IH]; [reflexivity|]. cbn [match_or existsb]. rewrite cond_round, IH. reflexivity. Qed.

  Lemma match_and_spec conds e byp :
    match_and re_match conds e byp = forallb (cond_holds re_match byp e) conds.
  Proof. induction conds as [|c r IH]; [reflexivity|]. cbn [match_and forallb]. rewrite cond_round, IH. reflexivity. Qed.

  Theorem match_fields_spec mode invert conds e :
    is_match re_match mode invert conds e = match_spec re_match mode invert conds e.
  Proof.
    unfold is_match, match_spec. rewrite match_or_spec, match_and_spec.
    destruct invert; [reflexivity|]. symmetry. apply xorb_false_l.
  Qed.

  (* Go iterates the match_fields map in random order: the decision does not depend on it *)
  Theorem match_fields_perm mode invert conds conds' e :
    Permutation conds conds' ->
    is_match re_match mode invert conds e = is_match re_match mode invert conds' e.
  Proof.
    intros HP. rewrite !match_fields_spec. unfold match_spec.
    rewrite (existsb_perm _ _ _ HP), (forallb_perm _ _ _ HP). reflexivity.
  Qed.

  Theorem cond_values_perm byp e f vs vs' re :
    Permutation vs vs' ->
    cond_holds re_match byp e {| c_field := f; c_values := vs; c_regexp := re |}
    = cond_holds re_match byp e {| c_field := f; c_values := vs'; c_regexp := re |}.
  Proof.
    intros HP. unfold cond_holds, regexp_hit. cbn [c_field c_values c_regexp].
    destruct (jdig e f); [|reflexivity]. rewrite (existsb_perm _ _ _ HP). reflexivity.
  Qed.
End Legacy.

Lemma opt_map_some {A B} (f : A -> option B) l : isSome (opt_map f l) = forallb (fun x => isSome (f x)) l.
Proof.
  induction l as [|x r IH]; [reflexivity|]. cbn [opt_map forallb]. rewrite <- IH.
  destruct (f x); [destruct (opt_map f r)|]; reflexivity.
Qed.

Lemma json_strings_all_strings l : forall vs, json_strings l = Some vs -> l = map JStr vs.
Proof.
  unfold json_strings. induction l as [|x r IH]; intros vs H; cbn [opt_map] in H.
  - injection H as <-. reflexivity.
  - destruct x as [| | |s| |]; try discriminate H. cbn [json_string] in H.
    destruct (opt_map json_string r) as [ws|]; [|discriminate]. injection H as <-. cbn [map]. rewrite (IH ws eq_refl). reflexivity.
Qed.

Lemma json_strings_map_JStr vs : json_strings (map JStr vs) = Some vs.
Proof.
  induction vs as [|v r IH]; [reflexivity|].
  unfold json_strings in *. cbn [map opt_map json_string]. rewrite IH. reflexivity.
Qed.

(* cfg.CompileRegex accepts exactly the strings  "/" ++ inner ++ "/"  whose inner part compiles *)
Lemma compile_regex_some re_ok s p :
  compile_regex re_ok s = Some p <-> s = 47%N :: p ++ [47%N] /\ re_ok p = true.
Proof.
  unfold compile_regex. split.
  - destruct s as [|c r]; [discriminate|].
    unfold is_slash. destruct (N.eqb_spec c 47) as [->|]; cbn [negb]; [|discriminate].
    destruct (rev r) as [|l ri] eqn:E; [discriminate|].
    destruct (N.eqb_spec l 47) as [->|]; [|discriminate].
    destruct (re_ok (rev ri)) eqn:Hok; [|discriminate].
    intros H. injection H as <-. rewrite (rev_eq_cons _ _ _ E). split; [reflexivity|exact Hok].
  - intros [-> Hok]. rewrite rev_unit, rev_involutive, Hok. reflexivity.
Qed.

Lemma delimited_some s p : delimited s = Some p <-> s = 47%N :: p ++ [47%N].
Proof.
  unfold delimited. rewrite compile_regex_some. split; [intros [H _]; exact H|intros H; split; [exact H|reflexivity]].
Qed.

Lemma compile_regex_delimited re_ok s :
  compile_regex re_ok s = match delimited s with Some p => if re_ok p then Some p else None | None => None end.
Proof.
  unfold delimited, compile_regex. destruct s as [|c r]; [reflexivity|].
  destruct (negb (is_slash c)); [reflexivity|].
  destruct (rev r) as [|l ri]; [reflexivity|]. destruct (is_slash l); reflexivity.
Qed.

Lemma delimited_starts_with_slash s p : delimited s = Some p -> starts_with_slash s = true.
Proof. intros H. apply delimited_some in H. subst s. reflexivity. Qed.

(* fd/util.go extractConditions: the translation of a configured value as coded is the documented kind of
   test, for every value *)
Theorem extract_value_documented re_ok v : extract_value re_ok v = doc_kind re_ok v.
Proof.
  destruct v as [| | |s|l|]; try reflexivity.
  unfold extract_value, doc_kind. destruct s as [|c r]; [reflexivity|].
  rewrite compile_regex_delimited. cbn [starts_with_slash].
  destruct (delimited (c :: r)) as [p|] eqn:Hd.
  - rewrite (delimited_starts_with_slash _ _ Hd : is_slash c = true). destruct (re_ok p); reflexivity.
  - destruct (is_slash c); reflexivity.
Qed.

(* a list is ALWAYS a list of exact values (prefixes), whatever its length and whatever its strings look like *)
Theorem extract_list_exact re_ok vs : extract_value re_ok (JArr (map JStr vs)) = CExact vs.
Proof. cbn [extract_value]. rewrite json_strings_map_JStr. reflexivity. Qed.

Theorem extract_list_never_regexp re_ok l p : extract_value re_ok (JArr l) <> CRegexp p.
Proof. cbn [extract_value]. destruct (json_strings l); discriminate. Qed.

(* only a scalar string delimited by slashes (whose inner part compiles) is a regular expression *)
Theorem extract_regexp_iff re_ok v p :
  extract_value re_ok v = CRegexp p <-> v = JStr (47%N :: p ++ [47%N]) /\ re_ok p = true.
Proof.
  rewrite extract_value_documented. split.
  - destruct v as [| | |s|l|]; cbn [doc_kind]; try discriminate; [|destruct (json_strings l); discriminate].
    destruct (delimited s) as [q|] eqn:Hd; [|destruct (starts_with_slash s); discriminate].
    destruct (re_ok q) eqn:Hok; [|discriminate]. intros H. injection H as <-.
    apply delimited_some in Hd. subst s. split; [reflexivity|exact Hok].
  - intros [-> Hok]. cbn [doc_kind]. rewrite (proj2 (delimited_some _ p) eq_refl), Hok. reflexivity.
Qed.

Theorem extract_scalar_plain re_ok s :
  starts_with_slash s = false -> extract_value re_ok (JStr s) = CExact [s].
Proof.
  intros H. cbn [extract_value]. destruct s as [|c r]; [reflexivity|].
  cbn [starts_with_slash] in H. rewrite H. reflexivity.
Qed.

(* a value gives a condition exactly when it is a list of strings, a plain string, or a /regexp/ that compiles *)
Lemma cond_of_kind_accepts re_ok path v :
  isSome (cond_of_kind path (extract_value re_ok v)) = cfg_accepted re_ok v.
Proof.
  rewrite extract_value_documented. destruct v as [| |r|s|l|fs]; cbn [doc_kind cfg_accepted]; try reflexivity.
  - destruct (delimited s) as [p|]; [destruct (re_ok p)|destruct (starts_with_slash s)]; reflexivity.
  - rewrite <- opt_map_some. fold (json_strings l). destruct (json_strings l); reflexivity.
Qed.

Theorem extract_refused_iff re_ok v :
  extract_value re_ok v = CRefused <-> cfg_accepted re_ok v = false.
Proof.
  rewrite <- (cond_of_kind_accepts re_ok [] v).
  destruct (extract_value re_ok v); cbn [cond_of_kind isSome]; split; (reflexivity || discriminate).
Qed.

Lemma extract_conds_accepts re_ok cfg :
  isSome (extract_conds re_ok cfg) = forallb (fun pv => cfg_accepted re_ok (snd pv)) cfg.
Proof.
  unfold extract_conds. rewrite opt_map_some. apply forallb_ext_in. intros pv _. apply cond_of_kind_accepts.
Qed.

Section ConfigSpec.
  Variable re_match : bytes -> bytes -> bool.
  Variable re_ok : bytes -> bool.

  (* one entry: the condition extractConditions builds holds exactly when the configured value does *)
  Lemma cond_holds_cfg byp e path v c :
    cond_of_kind path (extract_value re_ok v) = Some c ->
    cond_holds re_match byp e c = cfg_cond_holds re_match byp e (path, v).
  Proof.
    intros H. unfold cond_holds, cfg_cond_holds, regexp_hit, cfg_value_holds. cbn [fst snd].
    rewrite extract_value_documented in H.
    destruct v as [| |r|s|l|fs]; cbn [doc_kind cond_of_kind] in H; try discriminate.
    - (* scalar string *)
      destruct (delimited s) as [p|]; [destruct (re_ok p)|destruct (starts_with_slash s)]; try discriminate;
        injection H as <-; cbn [c_field c_values c_regexp existsb orb];
        (destruct (jdig e path); [|reflexivity]); apply orb_false_r.
    - (* list *)
      destruct (json_strings l) as [vs|] eqn:Hl; [|discriminate]. injection H as <-.
      cbn [c_field c_values c_regexp orb]. destruct (jdig e path); [|reflexivity].
      rewrite (json_strings_all_strings l vs Hl). symmetry. apply existsb_map.
  Qed.

  Lemma conds_hold_cfg byp e cfg : forall conds,
    extract_conds re_ok cfg = Some conds ->
    existsb (cond_holds re_match byp e) conds = existsb (cfg_cond_holds re_match byp e) cfg
    /\ forallb (cond_holds re_match byp e) conds = forallb (cfg_cond_holds re_match byp e) cfg.
  Proof.
    unfold extract_conds. induction cfg as [|[path v] r IH]; intros conds H; cbn [opt_map fst snd] in H.
    - injection H as <-. split; reflexivity.
    - destruct (cond_of_kind path (extract_value re_ok v)) as [c|] eqn:Ec; [|discriminate].
      destruct (opt_map _ r) as [cs|]; [|discriminate].
      injection H as <-. destruct (IH cs eq_refl) as [IHe IHf].
      cbn [existsb forallb]. rewrite (cond_holds_cfg byp e path v c Ec), IHe, IHf. split; reflexivity.
  Qed.

  (* whenever the reader accepts a match_fields map, the decision isMatch takes with the conditions it built
     is the documented meaning of the map as written: a list = its strings as exact values / prefixes (whatever its
     length and content), a string between slashes = a regexp, any other string = itself; all / at least one of the
     fields; optional inversion *)
  Theorem config_match_spec mode invert cfg conds e :
    extract_conds re_ok cfg = Some conds ->
    is_match re_match mode invert conds e = cfg_spec re_match mode invert cfg e.
  Proof.
    intros H. rewrite match_fields_spec. unfold match_spec, cfg_spec.
    destruct (conds_hold_cfg (by_prefix mode) e cfg conds H) as [-> ->]. reflexivity.
  Qed.
End ConfigSpec.

(* a map whose values are all lists is decided without ever consulting the regexp engine: no string inside a list is
   read as a pattern, in any mode *)
Theorem config_lists_ignore_regexp re1 re2 re_ok mode invert cfg conds e :
  (forall pv, In pv cfg -> exists l, snd pv = JArr l) ->
  extract_conds re_ok cfg = Some conds ->
  is_match re1 mode invert conds e = is_match re2 mode invert conds e.
Proof.
  intros Hl H. rewrite (config_match_spec re1 re_ok _ _ _ _ _ H), (config_match_spec re2 re_ok _ _ _ _ _ H).
  assert (E : forall pv, In pv cfg ->
                cfg_cond_holds re1 (by_prefix mode) e pv = cfg_cond_holds re2 (by_prefix mode) e pv).
  { intros pv Hin. destruct (Hl pv Hin) as [l Hv]. unfold cfg_cond_holds. rewrite Hv. reflexivity. }
  unfold cfg_spec. rewrite (existsb_ext_in _ _ _ E), (forallb_ext_in _ _ _ E). reflexivity.
Qed.

Lemma list_eqb_iff {A : Type} (eq : A -> A -> bool) :
  (forall x y, eq x y = true <-> x = y) -> forall a b, list_eqb eq a b = true <-> a = b.
Proof.
  intros He a. induction a as [|x r IH]; intros [|y q]; cbn [list_eqb]; try (split; (reflexivity || discriminate)).
  rewrite andb_true_iff, He, IH. split; [intros [-> ->]; reflexivity|intros H; injection H as -> ->; split; reflexivity].
Qed.

Lemma cond_eqb_iff a b : cond_eqb a b = true <-> a = b.
Proof.
  destruct a as [fa va ra], b as [fb vb rb]. unfold cond_eqb. cbn [c_field c_values c_regexp].
  rewrite !andb_true_iff, !(list_eqb_iff bytes_eqb bytes_eqb_eq), (opt_eqb_iff ra rb).
  split; [intros [[-> ->] ->]; reflexivity|intros H; injection H as -> -> ->; repeat split].
Qed.

(* one rule shared by all processors: the rule is never written, every decision is history independent *)
Section Shared.
  Variable re_match : bytes -> bytes -> bool.

  (* an evaluation reads the rule: a run is the list of the single decisions, beside the rule it started with *)
  Lemma shared_run_eq mode invert rule es :
    shared_run re_match mode invert rule es = (map (match_spec re_match mode invert rule) es, rule).
  Proof.
    induction es as [|e r IH]; [reflexivity|]. cbn [shared_run eval_step map]. rewrite IH, match_fields_spec. reflexivity.
  Qed.

  (* evaluating a rule any number of times, on any events, leaves the configured rule behind *)
  Theorem shared_rule_unchanged mode invert rule es :
    snd (shared_run re_match mode invert rule es) = rule.
  Proof. rewrite shared_run_eq. reflexivity. Qed.

  (* history independence: in every sequence of evaluations of one shared rule (any interleaving of any number of
     processors is such a sequence), the decision for an event is the documented one for (configured rule, event),
     whatever was evaluated before or after it *)
  Theorem shared_history_independent mode invert rule pre e post :
    nth_error (fst (shared_run re_match mode invert rule (pre ++ e :: post))) (length pre)
    = Some (match_spec re_match mode invert rule e).
  Proof. rewrite shared_run_eq. apply nth_error_map_mid. Qed.

  (* the predicate means what it says: rule unchanged, every decision the documented one *)
  Lemma shared_ok_iff mode invert rule es decisions rule_after :
    shared_ok re_match mode invert rule es decisions rule_after = true <->
    rule_after = rule /\ decisions = map (match_spec re_match mode invert rule) es.
  Proof.
    unfold shared_ok. rewrite andb_true_iff, (list_eqb_iff cond_eqb cond_eqb_iff), (list_eqb_iff Bool.eqb Bool.eqb_true_iff).
    split; intros [H1 H2]; (split; [symmetry; exact H1|exact H2]).
  Qed.

  Theorem shared_run_ok mode invert rule es :
    shared_ok re_match mode invert rule es (fst (shared_run re_match mode invert rule es))
              (snd (shared_run re_match mode invert rule es)) = true.
  Proof. rewrite shared_run_eq. apply shared_ok_iff. split; reflexivity. Qed.

  Theorem shared_ok_sound mode invert rule es decisions rule_after :
    shared_ok re_match mode invert rule es decisions rule_after = true ->
    rule_after = rule /\ decisions = map (match_spec re_match mode invert rule) es.
  Proof. apply shared_ok_iff. Qed.
End Shared.
