(* Proofs about Model/Join.v: the join state machine emits exactly the decomposition of its input
   into maximal runs; never reaches its Panicf branches under the processor's delivery guarantee. *)
From Verif Require Import Base.Sx Base.GoSem Model.Join Proofs.GoSemFacts.
From Coq Require Import Lia ZifyBool.

Lemma find_true_range : forall l i t, find_true l i = Some t -> i <= t < i + len l.
Proof.
  induction l as [|b r IH]; intros i t H; cbn [find_true] in H; [discriminate|].
  rewrite len_cons. pose proof (len_nonneg r). destruct b.
  - injection H as <-. lia.
  - apply IH in H. lia.
Qed.

(* what makes a run maximal: the input behind it is empty or begins with an event that does not continue it *)
Definition stops (negs : list bool) (t : Z) (rest : list jev) : Prop :=
  match rest with [] => True | y :: _ => is_cont negs t (snd y) = false end.

Lemma span_cont_inv : forall negs t r a b,
  span_cont negs t r = (a, b) ->
  r = a ++ b /\ forallb (fun e => is_cont negs t (snd e)) a = true /\ stops negs t b.
Proof.
  induction r as [|y r IH]; intros a b H; cbn [span_cont] in H.
  - injection H as <- <-. repeat split.
  - destruct (is_cont negs t (snd y)) eqn:Ey.
    + destruct (span_cont negs t r) as [a' b']. injection H as <- <-.
      destruct (IH _ _ eq_refl) as (-> & Ha & Hb). cbn [forallb]. rewrite Ey. repeat split; assumption.
    + injection H as <- <-. repeat split. exact Ey.
Qed.

(* [list jev] is written out here and below: left to inference the binders come out as [list (Z * jin)],
   and [rewrite] with a lemma stated on [jev] no longer finds them *)
Lemma span_cont_exact : forall negs t (cs rest : list jev),
  forallb (fun e => is_cont negs t (snd e)) cs = true -> stops negs t rest ->
  span_cont negs t (cs ++ rest) = (cs, rest).
Proof.
  induction cs as [|x cs IH]; intros rest Hcs Hr; cbn [app].
  - destruct rest as [|y r]; [reflexivity|]. cbn [span_cont]. cbn [stops] in Hr. rewrite Hr. reflexivity.
  - cbn [forallb] in Hcs. apply andb_true_iff in Hcs as [Hx Hcs].
    cbn [span_cont]. rewrite Hx, (IH rest Hcs Hr). reflexivity.
Qed.

Lemma segments_fuel_mono : forall negs n m evs,
  (length evs <= n)%nat -> (length evs <= m)%nat ->
  segments_fuel n negs evs = segments_fuel m negs evs.
Proof.
  induction n as [|n IH]; intros m evs Hn Hm.
  - destruct evs; [|cbn in Hn; lia]. destruct m; reflexivity.
  - destruct m as [|m].
    + destruct evs; [reflexivity|cbn in Hm; lia].
    + destruct evs as [|e r]; [reflexivity|]. cbn [length] in Hn, Hm.
      cbn [segments_fuel]. destruct (is_start (snd e)) as [t|].
      * destruct (span_cont negs t r) as [cs rest] eqn:E.
        apply span_cont_inv in E as (-> & _ & _). rewrite app_length in Hn, Hm.
        destruct rest as [|y rest']; [reflexivity|]. cbn [length] in Hn, Hm.
        destruct (snd y); f_equal; apply IH; cbn [length]; lia.
      * f_equal. apply IH; lia.
Qed.

Theorem segments_fuel_enough : forall negs n evs,
  (length evs <= n)%nat -> segments_fuel n negs evs = segments negs evs.
Proof. intros. unfold segments. apply segments_fuel_mono; lia. Qed.

Lemma segments_plain : forall negs (e : jev) r,
  is_start (snd e) = None -> segments negs (e :: r) = SPlain e :: segments negs r.
Proof.
  intros negs e r H. unfold segments. cbn [length segments_fuel]. rewrite H. reflexivity.
Qed.

Lemma segments_run : forall negs (s : jev) t (cs rest : list jev),
  is_start (snd s) = Some t -> forallb (fun e => is_cont negs t (snd e)) cs = true -> stops negs t rest ->
  segments negs (s :: cs ++ rest) =
    match rest with
    | [] => [SRun s t cs COpen]
    | y :: r => if is_timeout (snd y) then SRun s t cs (CTimeout y) :: segments negs r
                else SRun s t cs CNext :: segments negs rest
    end.
Proof.
  intros negs s t cs rest Hs Hcs Hr. unfold segments. cbn [length segments_fuel].
  rewrite Hs, (span_cont_exact _ _ _ _ Hcs Hr).
  destruct rest as [|y r]; [reflexivity|]. rewrite app_length. cbn [length].
  destruct (snd y); cbn [is_timeout]; f_equal; apply segments_fuel_mono; cbn [length]; lia.
Qed.

(* induction along the decomposition: an event alone, a run still open at the end of the input, a run
   closed by a time-out, a run closed by the event that follows it *)
Lemma segments_ind : forall negs (P : list jev -> list seg -> Prop),
  P [] [] ->
  (forall (e : jev) r, is_start (snd e) = None -> P r (segments negs r) -> P (e :: r) (SPlain e :: segments negs r)) ->
  (forall (s : jev) t (cs : list jev), is_start (snd s) = Some t -> forallb (fun e => is_cont negs t (snd e)) cs = true ->
     P (s :: cs) [SRun s t cs COpen]) ->
  (forall (s : jev) t (cs : list jev) (y : jev) r, is_start (snd s) = Some t -> forallb (fun e => is_cont negs t (snd e)) cs = true ->
     is_timeout (snd y) = true -> P r (segments negs r) ->
     P (s :: cs ++ y :: r) (SRun s t cs (CTimeout y) :: segments negs r)) ->
  (forall (s : jev) t (cs : list jev) (y : jev) r, is_start (snd s) = Some t -> forallb (fun e => is_cont negs t (snd e)) cs = true ->
     is_cont negs t (snd y) = false -> is_timeout (snd y) = false -> P (y :: r) (segments negs (y :: r)) ->
     P (s :: cs ++ y :: r) (SRun s t cs CNext :: segments negs (y :: r))) ->
  forall evs, P evs (segments negs evs).
Proof.
  intros negs P Hnil Hplain Hopen Htime Hnext evs.
  remember (length evs) as n eqn:Hn. revert evs Hn.
  induction n as [n IH] using lt_wf_ind. intros evs ->.
  destruct evs as [|e r]; [exact Hnil|].
  destruct (is_start (snd e)) as [t|] eqn:Hs.
  - destruct (span_cont negs t r) as [cs rest] eqn:E. apply span_cont_inv in E as (-> & Hcs & Hr).
    rewrite (segments_run _ _ _ _ _ Hs Hcs Hr).
    destruct rest as [|y rest]; [rewrite app_nil_r; apply Hopen; assumption|].
    assert (Hlen : (length rest < length (y :: rest) < length (e :: cs ++ y :: rest))%nat)
      by (cbn [length]; rewrite app_length; cbn [length]; lia).
    destruct (is_timeout (snd y)) eqn:Ht.
    + apply Htime; try assumption. apply (IH (length rest)); [lia|reflexivity].
    + apply Hnext; try assumption. apply (IH (length (y :: rest))); [lia|reflexivity].
  - rewrite (segments_plain _ _ _ Hs). apply Hplain; [exact Hs|].
    apply (IH (length r)); [cbn [length]; lia|reflexivity].
Qed.

Lemma segments_partition : forall negs evs, concat (map seg_inputs (segments negs evs)) = evs.
Proof.
  intros negs. apply (segments_ind negs (fun evs ss => concat (map seg_inputs ss) = evs));
    cbn [map concat seg_inputs app].
  - reflexivity.
  - intros e r _ ->. reflexivity.
  - intros. rewrite app_nil_r. reflexivity.
  - intros s t cs y r _ _ _ ->. rewrite <- app_assoc. reflexivity.
  - intros s t cs y r _ _ _ _ ->. reflexivity.
Qed.

Lemma seg_inputs_head : forall s, exists tl, seg_inputs s = seg_head s :: tl.
Proof. destruct s as [e|s t cs c]; cbn; [eauto|]. destruct c; eauto. Qed.

Lemma segments_head : forall negs y r, exists s l, segments negs (y :: r) = s :: l /\ seg_head s = y.
Proof.
  intros negs y r. pose proof (segments_partition negs (y :: r)) as H.
  destruct (segments negs (y :: r)) as [|s l]; [discriminate|].
  destruct (seg_inputs_head s) as [tl E]. cbn [map concat] in H. rewrite E in H.
  injection H as H _. eauto.
Qed.

Lemma segments_ok : forall negs evs, segs_ok negs (segments negs evs) = true.
Proof.
  intros negs. apply (segments_ind negs (fun _ ss => segs_ok negs ss = true)).
  - reflexivity.
  - intros e r Hs IH. cbn [segs_ok]. rewrite Hs. exact IH.
  - intros s t cs Hs Hcs. cbn [segs_ok]. rewrite Hs, Z.eqb_refl, Hcs. reflexivity.
  - intros s t cs y r Hs Hcs Ht IH. cbn [segs_ok]. rewrite Hs, Z.eqb_refl, Hcs, Ht. exact IH.
  - intros s t cs y r Hs Hcs Hc Ht IH. cbn [segs_ok]. rewrite Hs, Z.eqb_refl, Hcs, IH.
    destruct (segments_head negs y r) as (n & l & -> & Hn). rewrite Hn, Hc, Ht. reflexivity.
Qed.

Theorem segments_partition_ok : forall negs evs,
  concat (map seg_inputs (segments negs evs)) = evs /\ segs_ok negs (segments negs evs) = true.
Proof. intros; split; [apply segments_partition|apply segments_ok]. Qed.

Lemma timeout_not_cont : forall negs t x, is_timeout x = true -> is_cont negs t x = false.
Proof. intros negs t [| |] H; [reflexivity|discriminate..]. Qed.

Lemma segments_unique : forall negs ss,
  segs_ok negs ss = true -> segments negs (concat (map seg_inputs ss)) = ss.
Proof.
  induction ss as [|s l IH]; intros Hok; [reflexivity|].
  destruct s as [e|s t cs c].
  - cbn [segs_ok] in Hok. apply andb_true_iff in Hok as [Hs Hl].
    cbn [map concat seg_inputs app]. rewrite segments_plain, (IH Hl); [reflexivity|].
    destruct (is_start (snd e)); [discriminate|reflexivity].
  - cbn [segs_ok] in Hok. apply andb_true_iff in Hok as [Hok Hl].
    apply andb_true_iff in Hok as [Hok Hc]. apply andb_true_iff in Hok as [Hs Hcs].
    destruct (is_start (snd s)) as [t'|] eqn:Es; [|discriminate]. apply Z.eqb_eq in Hs. subst t'.
    specialize (IH Hl). destruct c as [| |y].
    + destruct l; [|discriminate]. exact (segments_run negs s t cs [] Es Hcs I).
    + (* the next segment begins with an event that neither continues the run nor is a time-out *)
      destruct l as [|n l']; [discriminate|].
      apply andb_true_iff in Hc as [Hc Ht]. apply negb_true_iff in Hc, Ht.
      change (concat (map seg_inputs (SRun s t cs CNext :: n :: l')))
        with (s :: cs ++ concat (map seg_inputs (n :: l'))).
      destruct (seg_inputs_head n) as [tl Hn].
      assert (Hrest : concat (map seg_inputs (n :: l')) = seg_head n :: tl ++ concat (map seg_inputs l'))
        by (cbn [map concat]; rewrite Hn; reflexivity).
      rewrite Hrest in IH |- *.
      rewrite (segments_run negs s t cs (seg_head n :: _) Es Hcs Hc), Ht, IH. reflexivity.
    + cbn [map concat seg_inputs app]. rewrite <- app_assoc. cbn [app].
      rewrite (segments_run negs s t cs (y :: _) Es Hcs (timeout_not_cont _ _ _ Hc)), Hc, IH. reflexivity.
Qed.

(* the size rule, one line at a time *)
Lemma limited_cat_cons : forall max first v vs,
  limited_cat max first (v :: vs) =
    limited_cat max (if (max =? 0) || (len first <? max) then first ++ v else first) vs.
Proof. reflexivity. Qed.

Lemma limited_cat_full : forall max first vs,
  max <> 0 -> max <= len first -> limited_cat max first vs = first.
Proof.
  intros max first vs Hm Hl. induction vs as [|v r IH]; [reflexivity|].
  rewrite limited_cat_cons. replace ((max =? 0) || (len first <? max)) with false by lia. exact IH.
Qed.

Lemma len_app : forall {A} (a b : list A), len (a ++ b) = len a + len b.
Proof. intros. apply GoSemFacts.len_app. Qed.

(* k = the number of lines appended: each WHOLE, while the buffer is still shorter than max (the test precedes the append,
   so the result may exceed max); once the buffer has reached max nothing more is appended *)
Lemma limited_cat_rule : forall max vs first,
  exists k, (k <= length vs)%nat /\
    limited_cat max first vs = first ++ concat (firstn k vs) /\
    (forall j, (j < k)%nat -> max = 0 \/ len (first ++ concat (firstn j vs)) < max) /\
    ((k < length vs)%nat -> max <> 0 /\ max <= len (first ++ concat (firstn k vs))).
Proof.
  intros max vs. induction vs as [|v r IH]; intros first.
  - exists 0%nat. cbn. rewrite app_nil_r. split; [lia|]. split; [reflexivity|]. split; intros; lia.
  - rewrite limited_cat_cons. destruct ((max =? 0) || (len first <? max)) eqn:Hfit.
    + destruct (IH (first ++ v)) as [k [Hk [Hc [Hj Hstop]]]].
      exists (S k). cbn [length firstn concat]. split; [lia|]. split; [|split].
      * rewrite Hc, <- app_assoc. reflexivity.
      * intros j Hjk. destruct j as [|j].
        -- cbn. rewrite app_nil_r. lia.
        -- cbn [firstn concat]. rewrite app_assoc. apply Hj. lia.
      * intro Hlt. rewrite app_assoc. apply Hstop. lia.
    + exists 0%nat. cbn [firstn concat length]. rewrite app_nil_r. split; [lia|]. split; [|split].
      * apply limited_cat_full; lia.
      * intros j Hj. lia.
      * intros _. lia.
Qed.

Lemma limited_cat_zero : forall vs first, limited_cat 0 first vs = first ++ concat vs.
Proof.
  induction vs as [|v r IH]; intros first; [symmetry; apply app_nil_r|].
  rewrite limited_cat_cons. cbn [Z.eqb orb concat]. rewrite IH, <- app_assoc. reflexivity.
Qed.

Lemma run_content_snoc : forall max s cs y,
  run_content max s (cs ++ [y]) = append_limited max (run_content max s cs) (jval (snd y)).
Proof. intros. unfold run_content, limited_cat. rewrite map_app, fold_left_app. reflexivity. Qed.

Lemma in_bytes_app : forall a b, in_bytes (a ++ b) = in_bytes a ++ in_bytes b.
Proof. intros. unfold in_bytes. rewrite map_app, concat_app. reflexivity. Qed.

Lemma run_content_zero : forall s cs, run_content 0 s cs = in_bytes (s :: cs).
Proof. intros. unfold run_content. apply limited_cat_zero. Qed.

(* conservation: with max_event_size = 0 the bytes carried by the segments are the input's bytes *)
Theorem join_conservation_zero : forall negs evs,
  concat (map (seg_bytes 0) (segments negs evs)) = in_bytes evs.
Proof.
  intros negs. apply (segments_ind negs (fun evs ss => concat (map (seg_bytes 0) ss) = in_bytes evs));
    cbn [map concat seg_bytes].
  - reflexivity.
  - intros e r _ ->. reflexivity.
  - intros. rewrite app_nil_r. apply run_content_zero.
  - (* a closing time-out carries no bytes *)
    intros s t cs y r _ _ Ht ->. rewrite run_content_zero.
    change (s :: cs ++ y :: r) with ((s :: cs) ++ y :: r). rewrite in_bytes_app.
    destruct y as [i [| |]]; [reflexivity|discriminate..].
  - intros s t cs y r _ _ _ _ ->. rewrite run_content_zero. symmetry. apply (in_bytes_app (s :: cs)).
Qed.

(* with a limit every segment carries a prefix of what it would carry without one *)
Theorem seg_bytes_prefix : forall max s, exists rest, seg_bytes 0 s = seg_bytes max s ++ rest.
Proof.
  intros max [e|s t cs c]; cbn [seg_bytes].
  - exists []. rewrite app_nil_r. reflexivity.
  - unfold run_content. rewrite limited_cat_zero.
    destruct (limited_cat_rule max (map (fun e => jval (snd e)) cs) (jval (snd s))) as [k [_ [Hc _]]].
    rewrite Hc. exists (concat (skipn k (map (fun e => jval (snd e)) cs))).
    rewrite <- app_assoc, <- concat_app, firstn_skipn. reflexivity.
Qed.

Lemma is_start_field : forall isStr v starts conts,
  is_start (JField isStr v starts conts) = if isStr then find_true starts 0 else None.
Proof. destruct isStr; reflexivity. Qed.

Lemma is_start_range : forall c x t, jin_wf c x = true -> is_start x = Some t -> 0 <= t < len (jnegs c).
Proof.
  intros c [| |isStr v starts conts] t Hwf Hs; try discriminate.
  rewrite is_start_field in Hs. destruct isStr; [|discriminate].
  apply find_true_range in Hs. cbn [jin_wf] in Hwf. unfold len in *. lia.
Qed.

Definition run_state (c : jcfg) (s : jev) (t : Z) (cs : list jev) : jstate :=
  {| isJoining := true; initial := Some (fst s); buff := run_content (jmax c) s cs; cur := t |}.

Lemma join_do_idle : forall c st i x,
  isJoining st = false ->
  join_do c st (i, x) =
    match is_start x with
    | Some t => Ok (run_state c (i, x) t [], (AHold, []))
    | None => if is_timeout x then Panic 3 else Ok (st, (APass, []))
    end.
Proof.
  intros c st i [| |isStr v starts conts] Hj; cbn [join_do]; rewrite ?is_start_field, Hj; [reflexivity..|].
  destruct (if isStr then find_true starts 0 else None); reflexivity.
Qed.

(* the action holds the run s, cs of template t: a start line replaces it, a continuation line is
   appended, anything else closes it; what it held goes downstream unless it goes on *)
Lemma join_do_run : forall c s t cs i x,
  jin_wf c x = true -> 0 <= t < len (jnegs c) ->
  join_do c (run_state c s t cs) (i, x) =
    Ok match is_start x with
       | Some t' => (run_state c (i, x) t' [], (AHold, [(fst s, run_content (jmax c) s cs)]))
       | None =>
           if is_cont (jnegs c) t x then (run_state c s t (cs ++ [(i, x)]), (ACollapse, []))
           else ({| isJoining := false; initial := None; buff := run_content (jmax c) s cs; cur := t |},
                 (if is_timeout x then ADiscard else APass, [(fst s, run_content (jmax c) s cs)]))
       end.
Proof.
  intros c s t cs i [| |isStr v starts conts] Hwf Ht; [reflexivity..|].
  cbn [join_do]. rewrite is_start_field. destruct (if isStr then find_true starts 0 else None) eqn:Hs; [reflexivity|].
  (* the index expressions of isNextOK are in range: both lists have one entry per template *)
  cbn [jin_wf] in Hwf.
  destruct (idx_ok_ex conts t) as [b Hb]; [unfold len in *; lia|].
  destruct (idx_ok_ex (jnegs c) t) as [n Hn]; [lia|].
  unfold is_cont, next_ok. rewrite is_start_field, Hs. cbn [run_state isJoining cur]. rewrite Hb, Hn.
  cbn [bind opt_is_none andb]. unfold run_state. rewrite run_content_snoc. destruct (xorb b n); reflexivity.
Qed.

(* the delivery guarantee is needed: a time-out handed to an idle join is its Panicf *)
Theorem join_timeout_when_idle_panics : forall c st i,
  isJoining st = false -> join_do c st (i, JTimeout) = Panic 3.
Proof. intros c st i H. cbn [join_do]. rewrite H. reflexivity. Qed.

(* Hold / Collapse are returned exactly when the action keeps an event (what makes it "busy").  For EVERY state and
   event: [join_do_run] asks for [run_state] and [jin_wf], so the joining branch opens [join_do] by cases again. *)
Theorem join_busy_iff_joining : forall c st e st' o,
  join_do c st e = Ok (st', o) -> is_busy (fst o) = isJoining st'.
Proof.
  intros c st [i x] st' o H. destruct (isJoining st) eqn:Hj.
  2:{ rewrite (join_do_idle c st i x Hj) in H. destruct (is_start x); [injection H as <- <-; reflexivity|].
      destruct (is_timeout x); [discriminate|]. injection H as <- <-. rewrite Hj. reflexivity. }
  (* joining: the held run is flushed with a result that is not busy, or the action goes on holding *)
  cbn [join_do] in H. rewrite Hj in H.
  assert (Hflush : forall r, is_busy r = false ->
            ('(s1, em) <- flush st ;; Ok (s1, (r, em))) = Ok (st', o) -> is_busy (fst o) = isJoining st').
  { intros r Hr E. unfold flush in E. destruct (initial st); [|discriminate]. injection E as <- <-. exact Hr. }
  destruct x as [| |isStr v starts conts]; [exact (Hflush ADiscard eq_refl H)|exact (Hflush APass eq_refl H)|].
  destruct (if isStr then find_true starts 0 else None).
  - destruct (flush st) as [[s1 em]| |]; [|discriminate..]. injection H as <- <-. reflexivity.
  - destruct (next_ok c st conts) as [[|]| |]; [|exact (Hflush APass eq_refl H)|discriminate..].
    injection H as <- <-. reflexivity.
Qed.

Definition results_of (os : list jstep) : list Z := map (fun o : jstep => fst o) os.

(* the invariant: the events of the run the action holds - none while it is idle, else the start line
   and the continuation lines appended so far; [held_results] is what it answered to them *)
Definition holds (c : jcfg) (st : jstate) (pre : list jev) : Prop :=
  match pre with
  | [] => isJoining st = false
  | s :: cs => exists t, st = run_state c s t cs /\ is_start (snd s) = Some t /\ 0 <= t < len (jnegs c) /\
                         forallb (fun e => is_cont (jnegs c) t (snd e)) cs = true
  end.
Definition held_results (pre : list jev) : list Z :=
  match pre with [] => [] | _ :: cs => AHold :: map (fun _ => ACollapse) cs end.

(* only the open segment at the end of the input is pending: closed segments in front add nothing to [spec_pending] *)
Lemma pend_closed : forall max closed l,
  Forall (fun s => seg_pending max s = None) closed -> spec_pending max (closed ++ l) = spec_pending max l.
Proof.
  induction 1 as [|s closed Hs _ IH]; [reflexivity|]. cbn [app spec_pending]. destruct (closed ++ l); [rewrite Hs|]; exact IH.
Qed.

(* a start line is neither a time-out nor a continuation line of any template: it always closes the run that is held *)
Lemma start_alone : forall x t', is_start x = Some t' ->
  is_timeout x = false /\ forall negs t, is_cont negs t x = false.
Proof.
  intros [| |isStr v starts conts] t' H; try discriminate. split; [reflexivity|].
  intros negs t. unfold is_cont. rewrite H. reflexivity.
Qed.

(* one Do call: the segments of the input that end with it ([closed]: the held run, the event itself)
   and the run held afterwards.  The bookkeeping of the whole induction is the fifth conjunct: the results answered to a
   held run ([held_results]) are accounted for when its segment closes, not when they are returned. *)
Lemma join_step : forall c st pre (y : jev),
  holds c st pre -> jin_wf c (snd y) = true -> match snd y with JTimeout => isJoining st | _ => true end = true ->
  exists st' o closed pre',
    join_do c st y = Ok (st', o) /\
    (forall r, segments (jnegs c) (pre ++ y :: r) = closed ++ segments (jnegs c) (pre' ++ r)) /\
    holds c st' pre' /\
    step_down o y = flat_map (seg_down (jmax c)) closed /\
    held_results pre ++ [fst o] = flat_map seg_results closed ++ held_results pre' /\
    Forall (fun s => seg_pending (jmax c) s = None) closed.
Proof.
  intros c st pre [i x] H Hwf Hto. cbn [snd] in Hwf, Hto.
  assert (Hfresh : forall t', is_start x = Some t' -> holds c (run_state c (i, x) t' []) [(i, x)]).
  { intros t' Hs'. exists t'. repeat split; try (apply (is_start_range c x); assumption). exact Hs'. }
  destruct pre as [|s cs].
  - cbn [holds] in H. rewrite (join_do_idle c st i x H). destruct (is_start x) as [t'|] eqn:Hs'.
    + (* a start line: held *)
      eexists _, _, [], [(i, x)]. split; [reflexivity|]. split; [reflexivity|]. split; [exact (Hfresh _ eq_refl)|].
      repeat split. constructor.
    + (* any other event is passed; a time-out is not delivered to an idle action *)
      destruct (is_timeout x) eqn:Ht; [destruct x; [congruence|discriminate..]|].
      eexists _, _, [SPlain (i, x)], []. split; [reflexivity|]. split; [|split; [exact H|]].
      * intros r. apply segments_plain. exact Hs'.
      * repeat split. repeat constructor.
  - destruct H as (t & -> & Hs & Hr & Hcs). rewrite (join_do_run c s t cs i x Hwf Hr).
    assert (Hcut := fun r => segments_run (jnegs c) s t cs (((i, x) : jev) :: r) Hs Hcs). cbn [stops snd] in Hcut.
    destruct (is_start x) as [t'|] eqn:Hs'; [|destruct (is_cont (jnegs c) t x) eqn:Hc; [|destruct (is_timeout x) eqn:Ht]].
    + (* a start line closes the run and is held *)
      destruct (start_alone x t' Hs') as [Ht Hc].
      eexists _, _, [SRun s t cs CNext], [(i, x)]. split; [reflexivity|]. split; [|split; [exact (Hfresh _ eq_refl)|]].
      * intros r. cbn [app]. rewrite (Hcut r (Hc _ _)), Ht. reflexivity.
      * cbn. rewrite !app_nil_r. repeat split. repeat constructor.
    + (* a continuation line: appended *)
      eexists _, _, [], (s :: cs ++ [(i, x)]). split; [reflexivity|]. split; [|split].
      * intros r. cbn [app]. rewrite <- app_assoc. reflexivity.
      * exists t. repeat split; try assumption; try apply Hr.
        rewrite forallb_app. apply andb_true_iff. split; [exact Hcs|]. cbn [forallb snd]. rewrite Hc. reflexivity.
      * cbn. rewrite map_app. repeat split. constructor.
    + (* a time-out closes the run and is discarded *)
      eexists _, _, [SRun s t cs (CTimeout (i, x))], []. split; [reflexivity|]. split; [|split; [reflexivity|]].
      * intros r. cbn [app]. apply Hcut. reflexivity.
      * cbn. rewrite !app_nil_r. repeat split. repeat constructor.
    + (* any other event closes the run and is passed *)
      eexists _, _, [SRun s t cs CNext; SPlain (i, x)], []. split; [reflexivity|]. split; [|split; [reflexivity|]].
      * intros r. cbn [app]. rewrite (Hcut r eq_refl), (segments_plain _ (i, x) r Hs'). reflexivity.
      * cbn. rewrite !app_nil_r. repeat split. repeat constructor.
Qed.

(* the induction: [join_runs] from any state that [holds] a run [pre], against the segments of [pre ++ evs]; [join_step]
   is the step, [pend_closed] drops the segments it closes from the pending part *)
Lemma join_run_holds : forall c evs st pre,
  jwf c evs = true -> holds c st pre -> busy_ok_from c st (isJoining st) evs = true ->
  exists os st', join_run c st evs = (os, Ok st') /\ length os = length evs /\
    downstream os evs = flat_map (seg_down (jmax c)) (segments (jnegs c) (pre ++ evs)) /\
    held_results pre ++ results_of os = flat_map seg_results (segments (jnegs c) (pre ++ evs)) /\
    state_pending st' = spec_pending (jmax c) (segments (jnegs c) (pre ++ evs)).
Proof.
  intros c. induction evs as [|y r IH]; intros st pre Hwf H Hb.
  - (* the input ends: a held run is the open segment *)
    exists [], st. destruct pre as [|s cs].
    + cbn. repeat split. unfold state_pending. rewrite H. reflexivity.
    + destruct H as (t & -> & Hs & _ & Hcs). cbn [app]. rewrite (segments_run _ s t cs [] Hs Hcs I).
      cbn. rewrite !app_nil_r. repeat split.
  - cbn [jwf forallb] in Hwf. apply andb_true_iff in Hwf as [Hwy Hwr].
    cbn [busy_ok_from] in Hb. apply andb_true_iff in Hb as [Hto Hb].
    destruct (join_step c st pre y H Hwy Hto) as (st1 & o & closed & pre1 & Hdo & Hseg & H1 & Hd & Hres & Hp).
    rewrite Hdo, (join_busy_iff_joining _ _ _ _ _ Hdo) in Hb.
    destruct (IH st1 pre1 Hwr H1 Hb) as (os & st' & Hr & Hl & Hd' & Hres' & Hp').
    exists (o :: os), st'. cbn [join_run]. rewrite Hdo, Hr, Hseg, !flat_map_app, (pend_closed _ _ _ Hp).
    cbn [length downstream results_of map]. rewrite Hl, Hd, Hd', <- Hres', Hp'. repeat split.
    rewrite app_assoc, <- Hres, <- app_assoc. reflexivity.
Qed.

Theorem join_runs : forall c evs,
  jwf c evs = true -> busy_ok c evs = true ->
  exists os st, join_run c jstate0 evs = (os, Ok st) /\ length os = length evs /\
    downstream os evs = spec_down c evs /\
    results_of os = spec_results c evs /\
    state_pending st = spec_pending (jmax c) (segments (jnegs c) evs).
Proof. intros c evs Hwf Hb. exact (join_run_holds c evs jstate0 [] Hwf eq_refl Hb). Qed.

Theorem join_never_panics : forall c evs,
  jwf c evs = true -> busy_ok c evs = true -> is_ok (snd (join_run c jstate0 evs)) = true.
Proof.
  intros c evs Hwf Hb. destruct (join_runs c evs Hwf Hb) as [os [st [Hr _]]]. rewrite Hr. reflexivity.
Qed.
