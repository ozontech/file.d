(* Proofs about Model/C15Pipe.v, the join plugin inside a pipeline: the instances of the action behave as one action
   per stream, and an accepted observation meets the delivery hypothesis of the theorems of Proofs/Join.v. *)
From Verif Require Import Base.Sx Base.GoSem Model.Join Model.C15Pipe Proofs.Join.
From Coq Require Import Lia ZifyBool.

Lemma zget_same : forall {A} (d : A) k v m, zget d k ((k, v) :: m) = v.
Proof. intros A d k v m. unfold zget. cbn [zlookup]. rewrite Z.eqb_refl. reflexivity. Qed.

Lemma zget_other : forall {A} (d : A) k k' v m, k' <> k -> zget d k' ((k, v) :: m) = zget d k' m.
Proof.
  intros A d k k' v m Hne. unfold zget. cbn [zlookup].
  destruct (k =? k') eqn:E; [apply Z.eqb_eq in E; congruence | reflexivity].
Qed.

Lemma zlookup_in : forall {A} k (m : list (Z * A)) v, zlookup k m = Some v -> In k (map fst m).
Proof.
  intros A k m. induction m as [|[k' v'] r IH]; intros v H; cbn [zlookup] in H; [discriminate|].
  cbn [map fst]. destruct (k' =? k) eqn:E.
  - left. apply Z.eqb_eq in E. exact E.
  - right. eapply IH. exact H.
Qed.

(* an idle join action has no memory *)
Lemma join_do_idle_same : forall c st1 st2 e st' o,
  isJoining st1 = false -> isJoining st2 = false -> join_do c st1 e = Ok (st', o) ->
  exists st2', join_do c st2 e = Ok (st2', o) /\ isJoining st2' = isJoining st' /\
               (isJoining st' = true -> st' = st2').
Proof.
  intros c st1 st2 [i x] st' o H1 H2. rewrite (join_do_idle c st1 i x H1), (join_do_idle c st2 i x H2).
  destruct (is_start x); [intros E; injection E as <- <-; eexists; repeat split|].
  destruct (is_timeout x); [discriminate|]. intros E. injection E as <- <-.
  exists st2. repeat split; congruence.
Qed.

Lemma join_do_timeout_ok : forall c st i x r,
  join_do c st (i, x) = Ok r -> match x with JTimeout => isJoining st | _ => true end = true.
Proof.
  intros c st i [| |] r H; try reflexivity. destruct (isJoining st) eqn:Hj; [reflexivity|].
  rewrite (join_timeout_when_idle_panics c st i Hj) in H. discriminate.
Qed.

(* I: the state of each instance, V: of each stream, B: the stream an instance holds.  An instance that holds a stream
   is in that stream's state; every other instance, and every stream that nobody holds, is idle *)
Definition pj_inv (I V : list (Z * jstate)) (B : list (Z * option Z)) : Prop :=
  (forall i s, zget None i B = Some s -> zget jstate0 i I = zget jstate0 s V) /\
  (forall i, zget None i B = None -> isJoining (zget jstate0 i I) = false) /\
  (forall s, (forall i, zget None i B <> Some s) -> isJoining (zget jstate0 s V) = false).

Lemma pj_inv_init : pj_inv [] [] [].
Proof.
  split; [intros i s [=]|split; reflexivity].
Qed.

Lemma pj_inv_step : forall I V B i s st1 st2 b,
  pj_inv I V B ->
  (forall j, j <> i -> zget None j B <> Some s) ->
  (zget None i B = Some s \/ zget None i B = None) ->
  isJoining st1 = b -> isJoining st2 = b -> (b = true -> st1 = st2) ->
  pj_inv ((i, st1) :: I) ((s, st2) :: V) ((i, if b then Some s else None) :: B).
Proof.
  intros I V B i s st1 st2 b [Inv1 [Inv2 Inv3]] Hoth Hi H1 H2 Heq.
  split; [|split].
  - intros i' s' Hg. destruct (Z.eq_dec i' i) as [->|Hne].
    + rewrite zget_same in Hg. destruct b; [|discriminate]. inversion Hg; subst s'.
      rewrite !zget_same. apply Heq. reflexivity.
    + rewrite zget_other in Hg by exact Hne.
      assert (Hs : s' <> s) by (intros ->; exact (Hoth i' Hne Hg)).
      rewrite (zget_other jstate0 i i') by exact Hne.
      rewrite (zget_other jstate0 s s') by exact Hs.
      apply Inv1. exact Hg.
  - intros i' Hg. destruct (Z.eq_dec i' i) as [->|Hne].
    + rewrite zget_same in Hg. rewrite zget_same. destruct b; [discriminate | exact H1].
    + rewrite zget_other in Hg by exact Hne. rewrite zget_other by exact Hne. apply Inv2. exact Hg.
  - intros s' Hall. destruct (Z.eq_dec s' s) as [->|Hne].
    + rewrite zget_same. specialize (Hall i). rewrite zget_same in Hall.
      destruct b; [exfalso; apply Hall; reflexivity | exact H2].
    + rewrite zget_other by exact Hne. apply Inv3. intros i'.
      destruct (Z.eq_dec i' i) as [->|Hni].
      * destruct Hi as [Hi|Hi]; rewrite Hi; [intros Hc; inversion Hc; congruence | discriminate].
      * specialize (Hall i'). rewrite zget_other in Hall by exact Hni. exact Hall.
Qed.

Lemma disc_others : forall (B : list (Z * option Z)) i s,
  forallb (fun j => (j =? i) || negb (opt_is (zget None j B) s)) (map fst B) = true ->
  forall j, j <> i -> zget None j B <> Some s.
Proof.
  intros B i s H j Hne Hg.
  assert (Hin : In j (map fst B)).
  { unfold zget in Hg. destruct (zlookup j B) eqn:El; [|discriminate]. eapply zlookup_in. exact El. }
  rewrite forallb_forall in H. specialize (H j Hin). rewrite Hg in H. cbn [opt_is] in H.
  rewrite Z.eqb_refl in H. cbn in H. rewrite orb_false_r in H. apply Z.eqb_eq in H. exact (Hne H).
Qed.

Lemma pj_as_one_gen : forall c log I V B os,
  pj_inv I V B ->
  inst_run c I log = (os, true) ->
  pj_disc B (zip_busy log os) = true ->
  stream_run c V log = (os, true).
Proof.
  intros c log. induction log as [|[[i s] e] r IH]; intros I V B os Inv Hrun Hd.
  - cbn in Hrun. inversion Hrun; subst. reflexivity.
  - cbn [inst_run] in Hrun.
    destruct (join_do c (zget jstate0 i I) e) as [[st' o]| |] eqn:E; try discriminate.
    destruct (inst_run c ((i, st') :: I) r) as [os' ok'] eqn:E2.
    inversion Hrun; subst os ok'. clear Hrun.
    cbn [zip_busy pj_disc] in Hd.
    apply andb_prop in Hd as [[H1 H2]%andb_prop H3].
    pose proof (disc_others B i s H2) as Hoth.
    pose proof (join_busy_iff_joining c _ e st' o E) as Hbusy.
    (* the state kept for the stream makes the same step: it is the instance's state if the instance holds
       the stream, and both are idle if it holds nothing *)
    assert (Hv : (zget None i B = Some s \/ zget None i B = None) /\
                 exists st2, join_do c (zget jstate0 s V) e = Ok (st2, o) /\ isJoining st2 = isJoining st' /\
                             (isJoining st' = true -> st' = st2)).
    { destruct Inv as [Inv1 [Inv2 Inv3]]. destruct (zget None i B) as [s'|] eqn:EB.
      - apply Z.eqb_eq in H1. subst s'. rewrite <- (Inv1 i s EB). eauto 6.
      - split; [right; reflexivity|]. apply (join_do_idle_same c (zget jstate0 i I)); [exact (Inv2 i EB)| |exact E].
        apply Inv3. intros j. destruct (Z.eq_dec j i) as [->|Hne]; [rewrite EB; discriminate|exact (Hoth j Hne)]. }
    destruct Hv as (Hi & st2 & Ev & Hj & Heq). cbn [stream_run]. rewrite Ev.
    rewrite (IH ((i, st') :: I) ((s, st2) :: V) ((i, if is_busy (fst o) then Some s else None) :: B) os');
      [reflexivity| |exact E2|exact H3].
    apply pj_inv_step; try assumption; try congruence. intros Hb. apply Heq. congruence.
Qed.

(* under the delivery discipline ([pj_disc]: monitor 2, [pj_discipline], without its clause on time-outs and on the model's
   results instead of the observed ones) the per-instance join state machines - what the pipeline really has, one
   plugin instance per processor - compute exactly what ONE state machine per stream computes: the lines of a stream
   are joined as if the stream had the action to itself *)
Theorem pj_instances_as_one : forall c log os,
  inst_run c [] log = (os, true) ->
  pj_disc [] (zip_busy log os) = true ->
  stream_run c [] log = (os, true).
Proof. intros c log os. apply pj_as_one_gen. exact pj_inv_init. Qed.

Lemma pj_gate_sound_gen : forall c stop dos st fed outs,
  gate_run c stop st fed dos outs = true ->
  exists evs os st',
    join_run c st evs = (os, Ok st') /\
    map (fun o : jstep => fst o) os = map pd_res dos /\
    length evs = length dos /\
    busy_ok_from c st (isJoining st) evs = true.
Proof.
  intros c stop dos. induction dos as [|d dos' IH]; intros st fed outs H.
  - exists [], [], st. repeat split.
  - (* the Do call replayed: a time-out, or the event the call names *)
    assert (Hdo : exists ev st1 em fed' outs',
              join_do c st ev = Ok (st1, (pd_res d, em)) /\ gate_run c stop st1 fed' dos' outs' = true).
    { cbn [gate_run] in H. destruct (pd_timeout d).
      - destruct (join_do c st (-1, JTimeout)) as [[st1 [r em]]| |] eqn:E; try discriminate.
        apply andb_prop in H as [Hr H]. apply Z.eqb_eq in Hr. subst r.
        destruct (take_prefix (map emit_out em) outs) as [outs'|]; [|discriminate]. eauto 8.
      - destruct (if isJoining st then _ else _) as [[[e fed'] outs1]|]; [|discriminate].
        apply andb_prop in H as [_ H].
        destruct (join_do c st (pd_id d, pe_in e)) as [[st1 [r em]]| |] eqn:E; try discriminate.
        apply andb_prop in H as [Hr H]. apply Z.eqb_eq in Hr. subst r.
        destruct (take_prefix _ outs1) as [outs'|]; [|discriminate]. eauto 8. }
    destruct Hdo as ([i x] & st1 & em & fed' & outs' & E & H').
    destruct (IH _ _ _ H') as (evs & os & st' & Hrun & Hres & Hlen & Hb).
    exists ((i, x) :: evs), ((pd_res d, em) :: os), st'.
    cbn [join_run busy_ok_from map length fst snd]. rewrite E, Hrun, Hres, Hlen.
    rewrite (join_busy_iff_joining _ _ _ _ _ E), Hb, (join_do_timeout_ok _ _ _ _ _ E). repeat split.
Qed.

(* monitor 3 accepted => SOME sequence of events, one per observed Do call, is a panic-free join_run with the observed
   ActionResults and satisfies the delivery hypothesis busy_ok of the action-level theorems (c15_join_runs ...).  The
   proof takes the events the monitor replays, but the statement does not tie [evs] to [fed] or [outs]. *)
Theorem pj_gate_sound : forall c stop fed dos outs,
  gate_run c stop jstate0 fed dos outs = true ->
  exists evs os st',
    join_run c jstate0 evs = (os, Ok st') /\
    map (fun o : jstep => fst o) os = map pd_res dos /\
    length evs = length dos /\
    busy_ok c evs = true.
Proof. intros c stop fed dos outs H. exact (pj_gate_sound_gen c stop dos jstate0 fed outs H). Qed.

(* ... and a run that is open when the observation ends is accepted only for a stopped pipeline, and then
   nothing of it has reached the output: the last clause of gate_run, stated on its own *)
Theorem pj_gate_open_run : forall c stop st fed outs,
  isJoining st = true -> gate_run c stop st fed [] outs = true -> stop = true /\ outs = [].
Proof.
  intros c stop st fed outs Hj H. cbn [gate_run] in H. rewrite Hj in H.
  apply andb_prop in H as [Hs Ho]. split; [exact Hs|]. destruct outs; [reflexivity | discriminate].
Qed.
