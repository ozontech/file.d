(* Proofs about Model/Stream.v (pipeline/stream.go + the charged list of pipeline/streamer.go):
   one inductive invariant [Inv] over every stream of the state, preserved by every enabled label.
   The invariant of one stream, [sinv], is a list of implications between its flags; the proofs use
   the equivalent picture [sview]: a stream has one of eight shapes, and a label moves it from one
   shape to another. *)
From Verif Require Import Base.Sx Proofs.Lts Model.Stream Proofs.ListFacts.
From Coq Require Import Lia Bool List ZArith FinFun.
Import ListNotations.
Local Open Scope Z_scope.

Lemma sstep_live t l t' : sstep t l = Some t' -> scrashed t = false /\ 0 <= label_stream l.
Proof.
  unfold sstep. destruct (scrashed t); [discriminate|].
  destruct (Z.ltb_spec (label_stream l) 0); [discriminate|]. auto.
Qed.

(* Reduce [sstep t l] in the goal, for a live state and a label [l] (a constructor) of a stream
   [s >= 0], to the label's own guards and effect. *)
Ltac sstep_guards Hcr Hs :=
  unfold sstep, upd_stream; cbn [label_stream]; rewrite Hcr, (proj2 (Z.ltb_ge _ _) Hs); cbv zeta.

Lemma get_s_nth l i : get_s l i = nth i l stream0.
Proof. destruct l; reflexivity. Qed.

Lemma get_s_nil i : get_s [] i = stream0.
Proof. rewrite get_s_nth. destruct i; reflexivity. Qed.

Lemma get_set_s l i x j : get_s (set_s l i x) j = if Nat.eqb i j then x else get_s l j.
Proof.
  rewrite !get_s_nth. revert l j. induction i as [|i IH]; intros l j.
  - destruct l, j; cbn [set_s nth Nat.eqb]; try reflexivity. destruct j; reflexivity.
  - destruct l, j; cbn [set_s nth Nat.eqb]; try reflexivity.
    + rewrite IH. destruct (Nat.eqb i j); [reflexivity|destruct j; reflexivity].
    + apply IH.
Qed.

Lemma get_set_same l i x : get_s (set_s l i x) i = x.
Proof. rewrite get_set_s, Nat.eqb_refl. reflexivity. Qed.

Lemma get_set_other l i x j : i <> j -> get_s (set_s l i x) j = get_s l j.
Proof. intros H. rewrite get_set_s. apply Nat.eqb_neq in H. rewrite H. reflexivity. Qed.

(* [range a b] = a, a+1, ..., b *)
Definition range (a b : Z) : list Z := map (fun k => a + Z.of_nat k) (seq 0 (Z.to_nat (b - a + 1))).

Lemma range_empty a b : b < a -> range a b = [].
Proof. intros H. unfold range. replace (Z.to_nat (b - a + 1)) with O by lia. reflexivity. Qed.

Lemma range_cons a b : a <= b -> range a b = a :: range (a + 1) b.
Proof.
  intros H. unfold range. replace (Z.to_nat (b - a + 1)) with (S (Z.to_nat (b - (a + 1) + 1))) by lia.
  cbn [seq map]. f_equal; [lia|]. rewrite <- seq_shift, map_map. apply map_ext. intros k. lia.
Qed.

Lemma range_snoc a b : a <= b + 1 -> range a (b + 1) = range a b ++ [b + 1].
Proof.
  intros H. unfold range. replace (Z.to_nat (b + 1 - a + 1)) with (S (Z.to_nat (b - a + 1))) by lia.
  rewrite seq_S, map_app. cbn [map]. f_equal. f_equal. lia.
Qed.

Lemma range_one a : range a a = [a].
Proof. rewrite range_cons, range_empty by lia. reflexivity. Qed.

Lemma range_nonempty a b : a <= b -> range a b <> [].
Proof. intros H. rewrite range_cons by exact H. discriminate. Qed.

Lemma range_nil_inv a b : range a b = [] -> b < a.
Proof. intros H. destruct (Z_lt_le_dec b a) as [L|L]; [exact L|]. destruct (range_nonempty a b L H). Qed.

Lemma range_cons_inv a b x r : range a b = x :: r -> x = a /\ r = range (a + 1) b /\ a <= b.
Proof.
  intros H. destruct (Z_lt_le_dec b a) as [L|L]; [rewrite range_empty in H by exact L; discriminate|].
  rewrite range_cons in H by exact L. inversion H; subst. auto.
Qed.

(* what [step_split] learnt about a queue [range a b], as arithmetic *)
Ltac range_inv :=
  repeat match goal with
  | E : range _ _ = [] |- _ => apply range_nil_inv in E
  | E : range _ _ = _ :: _ |- _ => apply range_cons_inv in E; destruct E as (-> & -> & E)
  end.

Lemma range_In a b x : In x (range a b) <-> a <= x <= b.
Proof.
  unfold range. rewrite in_map_iff. split.
  - intros (k & <- & Hk). apply in_seq in Hk. lia.
  - intros Hx. exists (Z.to_nat (x - a)). split; [lia|]. apply in_seq. lia.
Qed.

Lemma range_length a b : length (range a b) = Z.to_nat (b - a + 1).
Proof. unfold range. rewrite map_length, seq_length. reflexivity. Qed.

Lemma range_NoDup a b : NoDup (range a b).
Proof.
  unfold range. apply FinFun.Injective_map_NoDup; [intros x y Hxy; lia|apply seq_NoDup].
Qed.

Lemma rev_nonempty {A} (l : list A) : l <> [] -> exists x r, rev l = x :: r /\ In x l.
Proof.
  intros Hne. destruct (rev l) as [|x r] eqn:E.
  - destruct Hne. rewrite <- (rev_involutive l), E. reflexivity.
  - exists x, r. split; [reflexivity|]. apply in_rev. rewrite E. left. reflexivity.
Qed.

(* the seqs taken from stream [i], newest first *)
Definition tk_of (i : Z) (tk : list (Z * Z)) : list Z := map snd (filter (fun p => fst p =? i) tk).

Lemma tk_of_cons_same i x tk : tk_of i ((i, x) :: tk) = x :: tk_of i tk.
Proof. unfold tk_of. cbn [filter fst]. rewrite Z.eqb_refl. reflexivity. Qed.

Lemma tk_of_cons_other i j x tk : j <> i -> tk_of i ((j, x) :: tk) = tk_of i tk.
Proof. intros H. unfold tk_of. cbn [filter fst]. apply Z.eqb_neq in H. rewrite H. reflexivity. Qed.

Lemma tk_of_rev i tk : tk_of i (rev tk) = rev (tk_of i tk).
Proof. unfold tk_of. rewrite filter_rev, map_rev. reflexivity. Qed.

(* the per-stream invariant.  [c] = "the stream's id is in the charged list",
   [tk] = the seqs of the regular events taken from it so far, newest first. *)
Record sinv (c : Prop) (tk : list Z) (st : stream) : Prop := {
  i_c0 : 0 <= scommit st;
  i_ca : scommit st <= away st;
  i_ac : away st <= cur st;
  (* queue = [pending time-out marker] ++ the seqs put and not yet taken *)
  i_q : q st = range (away st + 1) (cur st) \/
        (q st = (- scommit st - 1) :: range (away st + 1) (cur st) /\
         own st = true /\ away st = scommit st /\ blk st = false);
  i_ch : c -> att st = false /\ q st <> [] /\ popped st = false /\ pend st = false;
  i_un : att st = false -> q st <> [] -> c \/ popped st = true \/ pend st = true;
  i_na : att st = false -> det st = false /\ own st = false /\ blk st = false /\ away st = scommit st;
  i_pop : popped st = true -> att st = false /\ q st <> [] /\ pend st = false;
  i_pend : pend st = true -> att st = false /\ q st <> [];
  i_own : own st = true -> att st = true /\ det st = false;
  i_att : att st = true -> own st = true \/ det st = true;
  i_det : det st = true -> att st = true /\ own st = false /\ blk st = false;
  i_blk : blk st = true -> own st = true /\ q st = [] /\ away st = scommit st;
  i_tk : tk = rev (range 1 (away st))
}.

(* The same as a picture: the eight shapes of a stream, with [a], [co], [cu] its awaySeq, commitSeq
   and currentSeq.  Detached: idle (empty), or non-empty and offered to the processors in exactly one
   way: in the charged list, popped from it, or about to be charged.  Attached: owned by a processor
   (which may find a time-out marker at the head of the queue, or be blocked on the empty queue),
   or left by its owner and waiting for the commit of the last event taken.
   Columns:               q  cur away scommit  att det blk popped pend own *)
Inductive sview (c : Prop) (tk : list Z) : stream -> Prop :=
| v_idle a : ~ c -> 0 <= a -> tk = rev (range 1 a) ->
    sview c tk (Build_stream [] a a a  false false false false false false)
| v_charged a cu : c -> 0 <= a < cu -> tk = rev (range 1 a) ->
    sview c tk (Build_stream (range (a + 1) cu) cu a a  false false false false false false)
| v_popped a cu : ~ c -> 0 <= a < cu -> tk = rev (range 1 a) ->
    sview c tk (Build_stream (range (a + 1) cu) cu a a  false false false true false false)
| v_pending a cu : ~ c -> 0 <= a < cu -> tk = rev (range 1 a) ->
    sview c tk (Build_stream (range (a + 1) cu) cu a a  false false false false true false)
| v_owned a co cu : ~ c -> 0 <= co <= a -> a <= cu -> tk = rev (range 1 a) ->
    sview c tk (Build_stream (range (a + 1) cu) cu a co  true false false false false true)
| v_marked a cu : ~ c -> 0 <= a <= cu -> tk = rev (range 1 a) ->
    sview c tk (Build_stream ((- a - 1) :: range (a + 1) cu) cu a a  true false false false false true)
| v_blocked a : ~ c -> 0 <= a -> tk = rev (range 1 a) ->
    sview c tk (Build_stream [] a a a  true false true false false true)
| v_detaching a co cu : ~ c -> 0 <= co <= a -> a <= cu -> tk = rev (range 1 a) ->
    sview c tk (Build_stream (range (a + 1) cu) cu a co  true true false false false false).

(* unfold the field updates of the model down to a record of the shape above *)
Ltac sfields :=
  unfold mk, set_pend, set_own in *;
  cbn [q cur away scommit att det blk popped pend own negb andb orb app] in *.

Lemma view_sinv c tk st : sview c tk st -> sinv c tk st.
Proof.
  (* 8 shapes x 14 fields: arithmetic, a false premise, or [range_nonempty] *)
  destruct 1; constructor; sfields; try lia; try assumption; try easy.
  all: try (left; first [reflexivity|symmetry; apply range_empty; lia]).
  all: try (right; easy).
  all: intros; repeat split; auto; apply range_nonempty; lia.
Qed.

Lemma sinv_view c tk st : sinv c tk st -> sview c tk st.
Proof.
  destruct st as [q0 cu a co at0 de bl po pe ow].
  intros [c0 ca ac hq hch hun hna hpop hpend hown hatt hdet hblk htk]; sfields.
  destruct at0.
  - (* attached: offered to nobody, and either owned or detaching *)
    assert (Hc : ~ c) by (intros Hc; now apply hch in Hc).
    destruct po; [now destruct hpop|]. destruct pe; [now destruct hpend|].
    destruct (hatt eq_refl) as [->| ->].
    + destruct (hown eq_refl) as [_ ->]. destruct bl.
      * destruct (hblk eq_refl) as (_ & -> & ->). destruct hq as [E|(E & _)]; [|discriminate].
        symmetry in E. apply range_nil_inv in E. replace cu with co by lia. now apply v_blocked.
      * destruct hq as [->|(-> & _ & -> & _)]; [now apply v_owned|now apply v_marked].
    + destruct (hdet eq_refl) as (_ & -> & ->). destruct hq as [->|(_ & E & _)]; [|discriminate].
      now apply v_detaching.
  - (* detached: nothing taken is uncommitted; non-empty iff offered, in exactly one way *)
    destruct (hna eq_refl) as (-> & -> & -> & ->). destruct hq as [->|(_ & E & _)]; [|discriminate].
    destruct (Z_lt_le_dec co cu) as [L|L].
    + assert (Hq := range_nonempty (co + 1) cu ltac:(lia)). destruct po; [|destruct pe].
      * destruct (hpop eq_refl) as (_ & _ & ->). apply v_popped; auto. intros Hc. now apply hch in Hc.
      * apply v_pending; auto. intros Hc. now apply hch in Hc.
      * apply v_charged; auto. now destruct (hun eq_refl Hq) as [Hc|[?|?]].
    + replace cu with co in * by lia. rewrite range_empty in * by lia.
      destruct po; [now destruct hpop|]. destruct pe; [now destruct hpend|].
      apply v_idle; auto. intros Hc. now apply hch in Hc.
Qed.

Definition sget (t : sst) (i : Z) : stream := get_s (streams t) (Z.to_nat i).

Record Inv (t : sst) : Prop := {
  I_cr : scrashed t = false;
  I_nd : NoDup (charged t);
  I_pos : forall j, In j (charged t) -> 0 <= j;
  I_s : forall i, 0 <= i -> sinv (In i (charged t)) (tk_of i (taken t)) (sget t i)
}.

Lemma Inv_init : Inv sinit.
Proof.
  constructor; cbn [sinit scrashed charged taken]; [reflexivity|constructor|intros j []|].
  intros i Hi. unfold sget. cbn [sinit streams]. rewrite get_s_nil.
  apply view_sinv, v_idle; [intros []|lia|reflexivity].
Qed.

Lemma Inv_view t i : Inv t -> 0 <= i -> sview (In i (charged t)) (tk_of i (taken t)) (sget t i).
Proof. intros HI Hi. exact (sinv_view _ _ _ (I_s _ HI i Hi)). Qed.

(* frame: a step that rewrites stream [s] only *)
Lemma Inv_upd t s x ch' tk' tm' :
  Inv t -> 0 <= s ->
  NoDup ch' -> (forall j, In j ch' -> 0 <= j) ->
  (forall j, j <> s -> (In j ch' <-> In j (charged t))) ->
  (forall j, j <> s -> tk_of j tk' = tk_of j (taken t)) ->
  sview (In s ch') (tk_of s tk') x ->
  Inv {| streams := set_s (streams t) (Z.to_nat s) x; charged := ch'; scrashed := false; taken := tk'; timeouts := tm' |}.
Proof.
  intros HI Hs Hnd Hpos Hch Htk Hx. constructor; cbn [scrashed charged taken streams]; try assumption; [reflexivity|].
  intros i Hi. unfold sget. cbn [streams]. destruct (Z.eq_dec s i) as [->|Hne].
  - rewrite get_set_same. exact (view_sinv _ _ _ Hx).
  - rewrite get_set_other by lia. rewrite Htk by congruence.
    destruct (I_s _ HI i Hi); constructor; try assumption; rewrite Hch by congruence; assumption.
Qed.

(* the common case: the charged list and the history of taken events are unchanged *)
Lemma Inv_upd_same t s x tm' :
  Inv t -> 0 <= s -> sview (In s (charged t)) (tk_of s (taken t)) x ->
  Inv {| streams := set_s (streams t) (Z.to_nat s) x; charged := charged t; scrashed := false;
         taken := taken t; timeouts := tm' |}.
Proof.
  intros HI Hs Hx. apply Inv_upd; try assumption; try tauto; [exact (I_nd _ HI)|exact (I_pos _ HI)].
Qed.

(* One lemma per label: the shapes its guard admits, and the shape each of them turns into.
   For a label of stream [s] enabled in a state satisfying [Inv] ([H : sstep t l = Some t']): one goal
   for each shape of the stream and each branch of the step that the shape lets return [Some]; [H] is
   consumed, [t'] is the state the model builds and the guards are in the context as propositions. *)
Ltac label_cases HI H :=
  let Hs := fresh "Hs" in let Hv := fresh "Hv" in
  destruct (sstep_live _ _ _ H) as [_ Hs]; cbn [label_stream] in Hs;
  assert (Hv := Inv_view _ _ HI Hs); unfold sget in Hv;
  revert H; sstep_guards (I_cr _ HI) Hs; intros H;
  match type of Hv with sview _ _ ?x => generalize dependent x end; intros st Hv H;
  destruct Hv; sfields; step_split H; try discriminate H; bnorm; range_inv; injection H as <-.

Lemma Inv_put t s seq kind t' : Inv t -> sstep t (SPut s seq kind) = Some t' -> Inv t'.
Proof.
  intros HI H. label_cases HI H; subst seq; apply Inv_upd_same; trivial.
  - (* idle: the first event asks for makeCharged *)
    rewrite <- (range_one (a + 1)). apply v_pending; trivial; lia.
  - (* charged *) rewrite <- range_snoc, (range_cons (a + 1) cu) by lia. apply v_charged; trivial; lia.
  - (* popped *) rewrite <- range_snoc, (range_cons (a + 1) cu) by lia. apply v_popped; trivial; lia.
  - (* owned *) rewrite <- range_snoc by lia. destruct (range (a + 1) cu); apply v_owned; trivial; lia.
  - (* owned, marker first *) rewrite <- range_snoc by lia. apply v_marked; trivial; lia.
  - (* blocked: the put ends the wait *) rewrite <- (range_one (a + 1)). apply v_owned; trivial; lia.
  - (* detaching *) rewrite <- range_snoc by lia. destruct (range (a + 1) cu); apply v_detaching; trivial; lia.
Qed.

Lemma Inv_charge t s t' : Inv t -> sstep t (SCharge s) = Some t' -> Inv t'.
Proof.
  intros HI H. label_cases HI H. apply Inv_upd; trivial.
  - apply NoDup_snoc. split; [exact (I_nd _ HI)|apply existsb_eqb_notIn; assumption].
  - intros j Hj. apply in_app_iff in Hj. destruct Hj as [Hj|[<-|[]]]; [exact (I_pos _ HI j Hj)|exact Hs].
  - intros j Hj. rewrite in_app_iff. cbn [In]. intuition congruence.
  - apply v_charged; trivial. apply in_app_iff. right. left. reflexivity.
Qed.

(* the only label whose guard does not read the stream: it is charged because its id is in the list *)
Lemma Inv_pop t s t' : Inv t -> sstep t (SPop s) = Some t' -> Inv t'.
Proof.
  intros HI H. destruct (sstep_live _ _ _ H) as [_ Hs]; cbn [label_stream] in Hs.
  revert H. sstep_guards (I_cr _ HI) Hs.
  destruct (rev (charged t)) as [|x r] eqn:Hch; [discriminate|]. apply rev_eq_cons in Hch.
  destruct (Z.eqb_spec x s) as [->|]; [|discriminate]. intros H. injection H as <-.
  assert (Hc : In s (charged t)) by (rewrite Hch; apply in_app_iff; right; left; reflexivity).
  assert (Hnd := I_nd _ HI). rewrite Hch in Hnd. apply NoDup_snoc in Hnd.
  apply Inv_upd; trivial; [apply Hnd| | |].
  - intros j Hj. apply (I_pos _ HI). rewrite Hch. apply in_app_iff. left. exact Hj.
  - intros j Hj. rewrite Hch, in_app_iff. cbn [In]. intuition congruence.
  - assert (Hv := Inv_view _ _ HI Hs). unfold sget in Hv. destruct Hv; try contradiction.
    sfields. apply v_popped; trivial. apply Hnd.
Qed.

Lemma Inv_attach t s t' : Inv t -> sstep t (SAttach s) = Some t' -> Inv t'.
Proof.
  intros HI H. label_cases HI H.
  - (* not the Panicf: a popped stream is not empty *)
    rewrite (range_cons (a + 1) cu) in * by lia. discriminate.
  - apply Inv_upd_same; trivial. apply v_owned; trivial; lia.
Qed.

Lemma Inv_get t s seq kind t' : Inv t -> sstep t (SGet s seq kind) = Some t' -> Inv t'.
Proof.
  (* since seq >= 0, a regular get cannot match the marker, nor a time-out get a regular event *)
  intros HI H. label_cases HI H; try lia.
  - (* the owner takes the next regular event *)
    subst seq. apply Inv_upd; trivial; [exact (I_nd _ HI)|exact (I_pos _ HI)|tauto| |].
    + intros j Hj. apply tk_of_cons_other. congruence.
    + rewrite tk_of_cons_same. apply v_owned; trivial; try lia.
      rewrite range_snoc, rev_unit by lia. congruence.
  - (* the owner takes the time-out marker *)
    replace seq with a by lia. apply Inv_upd_same; trivial. apply v_owned; trivial; lia.
Qed.

Lemma Inv_leave t s t' : Inv t -> sstep t (SLeave s) = Some t' -> Inv t'.
Proof.
  intros HI H. label_cases HI H; apply Inv_upd_same; trivial.
  - (* owned, queue empty *) rewrite <- (range_empty (a + 1) cu) by lia. apply v_detaching; trivial.
  - (* blocked *) rewrite <- (range_empty (a + 1) a) by lia. apply v_detaching; trivial; lia.
Qed.

Lemma Inv_detach t s b t' : Inv t -> sstep t (SDetach s b) = Some t' -> Inv t'.
Proof.
  intros HI H. label_cases HI H. apply Inv_upd_same; trivial.
  subst co b. destruct (range (a + 1) cu) eqn:E; range_inv.
  - replace cu with a by lia. apply v_idle; trivial; lia.
  - rewrite <- range_cons by lia. apply v_pending; trivial; lia.
Qed.

(* a commit moves commitSeq only where awaySeq is ahead of it, and never changes the shape *)
Lemma Inv_commit t s seq t' : Inv t -> sstep t (SCommit s seq) = Some t' -> Inv t'.
Proof.
  intros HI H. label_cases HI H; apply Inv_upd_same; trivial.
  all: try replace seq with a by lia.
  all: constructor; trivial; lia.
Qed.

Lemma Inv_block t s t' : Inv t -> sstep t (SBlock s) = Some t' -> Inv t'.
Proof.
  intros HI H. label_cases HI H; apply Inv_upd_same; trivial.
  - (* owned, queue empty, last event committed *) subst co. replace cu with a by lia. apply v_blocked; trivial; lia.
  - (* blocked already *) apply v_blocked; trivial.
Qed.

Lemma Inv_timeout t s seq t' : Inv t -> sstep t (STimeout s seq) = Some t' -> Inv t'.
Proof.
  intros HI H. label_cases HI H.
  { (* not the Panicf: a blocked stream has awaySeq = commitSeq *) congruence. }
  subst seq.
  apply Inv_upd_same; trivial. rewrite <- (range_empty (a + 1) a) by lia. apply v_marked; trivial; lia.
Qed.

Lemma Inv_step t l t' : Inv t -> sstep t l = Some t' -> Inv t'.
Proof.
  intros HI H.
  destruct l; [eapply Inv_put|eapply Inv_charge|eapply Inv_pop|eapply Inv_attach|eapply Inv_get|eapply Inv_leave
              |eapply Inv_detach|eapply Inv_commit|eapply Inv_block|eapply Inv_timeout]; eassumption.
Qed.

Lemma Inv_reach ls t : srun sinit ls = Some t -> Inv t.
Proof. intros Hr. exact (run_invariant sstep Inv Inv_step ls _ _ Inv_init Hr). Qed.

Lemma Inv_nat t (i : nat) :
  Inv t -> sinv (In (Z.of_nat i) (charged t)) (tk_of (Z.of_nat i) (taken t)) (get_s (streams t) i).
Proof.
  intros HI. assert (H := I_s _ HI (Z.of_nat i) ltac:(lia)). unfold sget in H. rewrite Nat2Z.id in H. exact H.
Qed.

Lemma att_lost_set l s x i :
  0 <= s -> 0 <= i -> att (get_s l (Z.to_nat i)) = true ->
  att (get_s (set_s l (Z.to_nat s) x) (Z.to_nat i)) = false ->
  s = i /\ att x = false.
Proof.
  intros Hs Hi Ha Hb. destruct (Z.eq_dec s i) as [->|Hne].
  - rewrite get_set_same in Hb. auto.
  - rewrite get_set_other in Hb by lia. congruence.
Qed.

(* a stream stays attached until a tryDetach succeeds, and that needs awaySeq = commitSeq *)
Lemma att_lost_step t l t' i :
  0 <= i -> sstep t l = Some t' -> att (sget t i) = true -> att (sget t' i) = false ->
  exists b, l = SDetach i b /\ det (sget t i) = true /\ away (sget t i) = scommit (sget t i).
Proof.
  intros Hi H Ha Hb. destruct (sstep_live _ _ _ H) as [Hcr Hs]. unfold sget in *.
  destruct l; cbn [label_stream] in Hs; revert H; sstep_guards Hcr Hs; intros H;
    step_split H; try discriminate H; injection H as <-; cbn [streams crash] in Hb; try congruence.
  all: destruct (att_lost_set _ _ _ _ Hs Hi Ha Hb) as [-> Hx]; sfields; try congruence.
  bnorm. eauto.
Qed.

Lemma att_lost_run ls : forall t t' i,
  0 <= i -> srun t ls = Some t' -> att (sget t i) = true -> att (sget t' i) = false ->
  exists la b lb tm, ls = la ++ SDetach i b :: lb /\ srun t la = Some tm /\
    att (sget tm i) = true /\ det (sget tm i) = true /\ away (sget tm i) = scommit (sget tm i).
Proof.
  induction ls as [|l r IH]; intros t t' i Hi Hr Ha Hb; cbn [srun] in Hr.
  - inversion Hr; subst. congruence.
  - destruct (sstep t l) as [t1|] eqn:E; [|discriminate].
    destruct (att (sget t1 i)) eqn:Ea1.
    + destruct (IH t1 t' i Hi Hr Ea1 Hb) as (la & b & lb & tm & -> & Hla & Hm).
      exists (l :: la), b, lb, tm. split; [reflexivity|]. split; [cbn [srun]; rewrite E; exact Hla|exact Hm].
    + destruct (att_lost_step t l t1 i Hi E Ha Ea1) as (b & -> & Hd & Hac).
      exists [], b, r, t. split; [reflexivity|]. split; [reflexivity|]. auto.
Qed.
