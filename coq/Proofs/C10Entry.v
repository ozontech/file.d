(* Proofs about monitor 18 of Model/C10Entry.v (frontier clause for commit notifications outside the output path) *)
From Coq Require Import ZArith List Bool Lia ZifyBool.
From Verif Require Import Base.Sx Model.PipeGlue Model.C10Entry.
Import ListNotations.
Open Scope Z_scope.

(* an entry has one kind *)
Lemma is_k_other a k b k' e : is_k a k e = true -> k <> k' -> is_k b k' e = false.
Proof. unfold is_k. lia. Qed.

(* monitor 18 never asks more than the frontier clause itself (monitor 8) *)
Lemma direct_frontier_weaker :
  forall es fin accepted key_of outs,
    m_source_frontier es fin accepted key_of = true -> m_direct_frontier es fin accepted key_of outs = true.
Proof.
  induction es as [|e r IH]; intros fin accepted key_of outs H; [reflexivity|].
  cbn [m_source_frontier] in H. cbn [m_direct_frontier].
  destruct (is_k 2 20 e && (pd e =? 0)) eqn:E1; [now apply IH|].
  destruct (is_k 3 32 e) eqn:E2.
  - rewrite (is_k_other _ _ 4 33 _ E2), (is_k_other _ _ 4 38 _ E2) in H by discriminate. now apply IH.
  - destruct (is_k 4 33 e && (pc e =? 2) && ((pd e =? 0) || (pd e =? 2))) eqn:E3.
    + destruct (find (fun kv => key_eqb (fst kv) (pa e, pb e)) key_of); now apply IH.
    + destruct (is_k 4 38 e) eqn:E4; [|now apply IH].
      apply andb_true_iff in H as [Ha Hb].
      rewrite Ha, orb_true_r. now apply IH.
Qed.

(* what monitor 18 says at a commit notification: the record went through the output, or every accepted record of its
   source with a smaller offset is finished *)
Lemma direct_frontier_commit :
  forall e r fin accepted key_of outs,
    is_k 4 38 e = true ->
    m_direct_frontier (e :: r) fin accepted key_of outs = true ->
    (mem_key (pa e, pb e) outs = true \/
     forall k, In k accepted -> fst k = pd e -> snd k < pc e -> mem_key k fin = true) /\
    m_direct_frontier r ((pd e, pc e) :: fin) accepted key_of outs = true.
Proof.
  intros e r fin accepted key_of outs K H.
  cbn [m_direct_frontier] in H.
  rewrite (is_k_other _ _ 2 20 _ K), (is_k_other _ _ 3 32 _ K), (is_k_other _ _ 4 33 _ K), K in H by discriminate.
  apply andb_true_iff in H as [Ha Hb]. split; [|exact Hb].
  apply orb_true_iff in Ha as [Ha|Ha]; [now left|right].
  intros k Hin Hs Ho. rewrite forallb_forall in Ha. specialize (Ha k Hin). lia.
Qed.
