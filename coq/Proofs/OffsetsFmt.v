(* Proofs about Model/OffsetsFmt.v: the parser reads back everything the writer prints. *)
From Verif Require Import Base.Sx Base.GoSem Model.OffsetsFmt Proofs.GoSemFacts.
From Coq Require Import Lia ZifyBool.

Definition noNL (l : bytes) : Prop := ~ In NL l.

Definition stream_wf (so : bytes * Z) : Prop := noNL (fst so) /\ (0 <= snd so < 2 ^ 63)%Z.
Definition job_wf (j : job) : Prop :=
  noNL (jfile j) /\ (jinode j < 2 ^ 64)%N /\ (jsid j < 2 ^ 64)%N /\ (- 2 ^ 63 <= jts j < 2 ^ 63)%Z /\
  Forall stream_wf (jstreams j) /\ NoDup (map fst (jstreams j)).
(* the jobs map is keyed by source id: the ids of the jobs that are written are pairwise different *)
Definition table_wf (js : list job) : Prop :=
  Forall job_wf js /\ NoDup (map jsid (filter has_streams js)).

Lemma strip_prefix_app p : forall l, strip_prefix p (p ++ l) = Some l.
Proof. induction p as [|a p IH]; intros l; cbn [strip_prefix app]; [reflexivity|]. rewrite N.eqb_refl. apply IH. Qed.

Lemma has_prefix_app p : forall l, has_prefix (p ++ l) p = true.
Proof.
  induction p as [|a p IH]; intros l; [destruct l; reflexivity|].
  cbn [has_prefix app]. rewrite N.eqb_refl. apply IH.
Qed.

Lemma last_index_byte_from_absent c : forall b i best, ~ In c b -> last_index_byte_from b c i best = best.
Proof.
  induction b as [|x b IH]; intros i best H; cbn [last_index_byte_from]; [reflexivity|].
  destruct (N.eqb_spec x c) as [E|E]; [exfalso; apply H; left; exact E|].
  apply IH. intros HI. apply H. right. exact HI.
Qed.

Lemma last_index_byte_from_last c b : ~ In c b -> forall a i best, last_index_byte_from (a ++ c :: b) c i best = i + len a.
Proof.
  intros Hb. induction a as [|x a IH]; intros i best; cbn [app last_index_byte_from].
  - rewrite N.eqb_refl, last_index_byte_from_absent by exact Hb. rewrite len_nil. lia.
  - rewrite IH, len_cons. lia.
Qed.

Lemma last_index_byte_last c a b : ~ In c b -> last_index_byte (a ++ c :: b) c = len a.
Proof. intros H. unfold last_index_byte. now rewrite last_index_byte_from_last. Qed.

(* a line "<p>name<c><x>value", [c] not occurring after the name: the last [c] sits right behind the name, and the
   two slices the parser takes are the name and the value *)
Lemma field_split (l p name d : bytes) (c x : byte) :
  l = p ++ name ++ c :: x :: d -> ~ In c (x :: d) ->
  has_prefix l p = true /\ len p + len name + 2 <= len l /\
  last_index_byte l c = len p + len name /\
  slice l (len p) (len p + len name) = Ok name /\
  slice_from l (len p + len name + 2) = Ok d.
Proof.
  intros -> Hc. repeat split.
  - apply has_prefix_app.
  - rewrite !len_app, !len_cons. pose proof (len_nonneg d). lia.
  - rewrite app_assoc, last_index_byte_last by exact Hc. apply len_app.
  - apply slice_mid.
  - replace (p ++ name ++ c :: x :: d) with ((p ++ name ++ [c; x]) ++ d) by (rewrite <- !app_assoc; reflexivity).
    replace (len p + len name + 2) with (len (p ++ name ++ [c; x])) by (rewrite !len_app; change (len [c; x]) with 2; lia).
    apply slice_from_app.
Qed.

Lemma digits_val_app a : forall b acc,
  digits_val (a ++ b) acc = match digits_val a acc with Some v => digits_val b v | None => None end.
Proof.
  induction a as [|c a IH]; intros b acc; cbn [app digits_val]; [reflexivity|].
  destruct (is_digit c); [apply IH | reflexivity].
Qed.

Lemma is_digit_48 d : (d < 10)%N -> is_digit (48 + d)%N = true.
Proof. intros H. unfold is_digit. lia. Qed.

Lemma dec_le_val fuel : forall n, (n < 10 ^ N.of_nat fuel)%N -> digits_val (rev (dec_le fuel n)) 0 = Some n.
Proof.
  induction fuel as [|f IH]; intros n Hn.
  - cbn in Hn. assert (n = 0%N) by lia. subst. reflexivity.
  - cbn [dec_le]. destruct (N.ltb_spec n 10) as [Hlt|Hge].
    + cbn [rev app digits_val]. rewrite is_digit_48 by exact Hlt. f_equal. lia.
    + cbn [rev]. rewrite digits_val_app.
      assert (Hpow : (10 ^ N.of_nat (S f) = 10 * 10 ^ N.of_nat f)%N).
      { rewrite Nat2N.inj_succ. apply N.pow_succ_r'. }
      assert (Hdiv : (n / 10 < 10 ^ N.of_nat f)%N).
      { apply N.div_lt_upper_bound; lia. }
      rewrite (IH _ Hdiv). cbn [digits_val].
      assert (Hm : (n mod 10 < 10)%N) by (apply N.mod_lt; lia).
      rewrite is_digit_48 by exact Hm. f_equal.
      pose proof (N.div_mod' n 10) as Hdm. clear - Hdm Hm.
      set (q := (n / 10)%N) in *. set (r := (n mod 10)%N) in *. clearbody q r. lia.
Qed.

Lemma dec_le_digits fuel : forall n, Forall (fun c => is_digit c = true) (dec_le fuel n).
Proof.
  induction fuel as [|f IH]; intros n; cbn [dec_le]; [constructor|].
  destruct (N.ltb_spec n 10) as [Hlt|Hge].
  - constructor; [apply is_digit_48; exact Hlt | constructor].
  - constructor; [apply is_digit_48; apply N.mod_lt; lia | apply IH].
Qed.

Lemma dec_le_cons fuel n : exists c r, dec_le (S fuel) n = c :: r.
Proof. cbn [dec_le]. destruct (n <? 10)%N; eauto. Qed.

Lemma dec_N_rev n : dec_N n = rev (dec_le 20 n).
Proof. unfold dec_N. rewrite rev_append_rev, app_nil_r. reflexivity. Qed.

Lemma dec_N_val n : (n < 2 ^ 64)%N -> digits_val (dec_N n) 0 = Some n.
Proof.
  intros H. rewrite dec_N_rev. apply dec_le_val.
  eapply N.lt_trans; [exact H | reflexivity].
Qed.

Lemma dec_N_digits n : Forall (fun c => is_digit c = true) (dec_N n).
Proof. rewrite dec_N_rev. apply Forall_rev, dec_le_digits. Qed.

Lemma dec_N_cons n : exists c r, dec_N n = c :: r /\ is_digit c = true.
Proof.
  pose proof (dec_N_digits n) as F. rewrite dec_N_rev in *.
  destruct (dec_le_cons 19 n) as (c0 & r0 & E0). rewrite E0 in *. cbn [rev] in *.
  destruct (rev r0) as [|x l]; cbn [app] in *; eexists _, _; (split; [reflexivity | now inversion F]).
Qed.

Lemma dec_N_notin n x : (x < 48 \/ 57 < x)%N -> ~ In x (dec_N n).
Proof.
  intros Hx HI. pose proof (dec_N_digits n) as F. rewrite Forall_forall in F. specialize (F x HI).
  unfold is_digit in F. lia.
Qed.

Lemma parse_uint64_dec n : (n < 2 ^ 64)%N -> parse_uint64 (dec_N n) = Some n.
Proof.
  intros H. destruct (dec_N_cons n) as (c & r & E & _).
  unfold parse_uint64. rewrite E. rewrite <- E. rewrite dec_N_val by exact H.
  destruct (N.ltb_spec n (2 ^ 64)); [reflexivity | lia].
Qed.

Lemma parse_int64_dec_N n : (n < 2 ^ 63)%N -> parse_int64 (dec_N n) = Some (Z.of_N n).
Proof.
  intros H. destruct (dec_N_cons n) as (c & r & E & Hc). unfold is_digit in Hc.
  unfold parse_int64. rewrite E.
  replace (N.eqb c 43) with false by (unfold DASH; lia). replace (N.eqb c DASH) with false by (unfold DASH; lia).
  rewrite <- E, parse_uint64_dec by (eapply N.lt_trans; [exact H | reflexivity]).
  destruct (N.ltb_spec n (2 ^ 63)); [reflexivity | lia].
Qed.

Lemma parse_int64_dec_Z z : (- 2 ^ 63 <= z < 2 ^ 63)%Z -> parse_int64 (dec_Z z) = Some z.
Proof.
  intros H. destruct z as [|p|p].
  - apply (parse_int64_dec_N 0). reflexivity.
  - cbn [dec_Z]. replace (Z.to_N (Z.pos p)) with (N.pos p) by reflexivity.
    rewrite parse_int64_dec_N by lia. reflexivity.
  - cbn [dec_Z]. unfold parse_int64. cbn [N.eqb DASH Pos.eqb].
    change (N.eqb DASH 43) with false. change (N.eqb DASH DASH) with true. cbv iota.
    rewrite parse_uint64_dec by lia.
    destruct (N.leb_spec (N.pos p) (2 ^ 63)); [reflexivity | lia].
Qed.

Lemma dec_Z_cons z : exists c r, dec_Z z = c :: r.
Proof.
  destruct z as [|p|p]; cbn [dec_Z];
    [destruct (dec_N_cons (Z.to_N 0)) as (c & r & E & _) | destruct (dec_N_cons (Z.to_N (Z.pos p))) as (c & r & E & _) |]; eauto.
Qed.

Lemma split_lines_line l : forall rest, noNL l ->
  split_lines (l ++ NL :: rest) = (l :: fst (split_lines rest), snd (split_lines rest)).
Proof.
  induction l as [|c l IH]; intros rest H.
  - cbn [app split_lines]. destruct (split_lines rest) as [ls t]. rewrite N.eqb_refl. reflexivity.
  - cbn [app split_lines]. rewrite IH by (intros HI; apply H; right; exact HI).
    destruct (N.eqb_spec c NL) as [E|E]; [exfalso; apply H; left; exact E | reflexivity].
Qed.

Lemma split_unlines ls : Forall noNL ls -> split_lines (unlines ls) = (ls, []).
Proof.
  induction 1 as [|l ls Hl _ IH]; [reflexivity|].
  unfold unlines in *. cbn [map concat]. rewrite <- app_assoc. cbn [app].
  rewrite split_lines_line by exact Hl. rewrite IH. reflexivity.
Qed.

Lemma noNL_app a b : noNL a -> noNL b -> noNL (a ++ b).
Proof. unfold noNL. intros Ha Hb HI. apply in_app_or in HI. tauto. Qed.

Lemma noNL_const (p : bytes) : forallb (fun c => negb (N.eqb c NL)) p = true -> noNL p.
Proof.
  unfold noNL. intros H HI. rewrite forallb_forall in H. specialize (H _ HI).
  rewrite N.eqb_refl in H. discriminate.
Qed.

Lemma dec_N_noNL n : noNL (dec_N n).
Proof. apply dec_N_notin. unfold NL. lia. Qed.

Lemma dec_Z_noNL z : noNL (dec_Z z).
Proof. destruct z; cbn [dec_Z]; try apply dec_N_noNL. apply (noNL_app [DASH]); [apply noNL_const; reflexivity | apply dec_N_noNL]. Qed.

(* a printed line: a constant prefix, then a value without newline *)
Lemma line_noNL (p v : bytes) : forallb (fun c => negb (N.eqb c NL)) p = true -> noNL v -> noNL (p ++ v).
Proof. intros Hp Hv. apply noNL_app; [now apply noNL_const | exact Hv]. Qed.

Lemma stream_line_noNL so : stream_wf so -> noNL (stream_line so).
Proof.
  intros [Hn _]. unfold stream_line. apply line_noNL; [reflexivity|]. apply noNL_app; [exact Hn|].
  apply (line_noNL [COLON; 32%N]); [reflexivity | apply dec_N_noNL].
Qed.

Lemma job_lines_noNL j : job_wf j -> Forall noNL (job_lines j).
Proof.
  intros (Hf & _ & _ & _ & Hst & _). unfold job_lines.
  repeat (constructor; [apply line_noNL; [reflexivity | first [exact Hf | apply dec_N_noNL | apply dec_Z_noNL]]|]).
  constructor; [now apply noNL_const|].
  apply Forall_map. eapply Forall_impl; [|exact Hst]. exact stream_line_noNL.
Qed.

Lemma stream_entry_line acc name off :
  (0 <= off < 2 ^ 63)%Z ->
  existsb (fun kv => bytes_eqb (fst kv) name) acc = false ->
  stream_entry acc (stream_line (name, off)) = Ok ((name, off) :: acc).
Proof.
  intros Hoff Hdup. set (d := dec_N (off_u64 off)).
  assert (Hd : parse_int64 d = Some off).
  { unfold d, off_u64. rewrite Z.mod_small, parse_int64_dec_N by lia. f_equal. lia. }
  clear Hoff.
  assert (Hc : ~ In COLON (32%N :: d)).
  { intros [E|HI]; [discriminate E|]. revert HI. apply dec_N_notin. unfold COLON. lia. }
  destruct (field_split (stream_line (name, off)) P_IND name d COLON 32%N eq_refl Hc) as (Hpre & Hlen & Hpos & Hname & Hval).
  change (len P_IND) with 4 in *. pose proof (len_nonneg name).
  unfold stream_entry. rewrite Hpre, Hpos. cbn [negb].
  replace (len (stream_line (name, off)) <? 5) with false by lia. replace (4 + len name <? 0) with false by lia.
  cbn [orb]. rewrite Hname. cbn [bind]. rewrite Hdup, Hval. cbn [bind]. rewrite Hd. reflexivity.
Qed.

Lemma feed_streams done f sid ts : forall ss acc,
  Forall stream_wf ss -> NoDup (map fst ss) ->
  (forall x, In x ss -> existsb (fun kv => bytes_eqb (fst kv) (fst x)) acc = false) ->
  fold_left pstep (map stream_line ss) (PStreams done f sid ts acc) = PStreams done f sid ts (rev ss ++ acc).
Proof.
  induction ss as [|[name off] ss IH]; intros acc Hwf Hnd Hacc; [reflexivity|].
  cbn [map fold_left]. inversion Hwf as [|? ? [Hn Ho] Hwf']; subst. inversion Hnd as [|? ? Hnotin Hnd']; subst.
  cbn [fst snd] in *.
  assert (Hstep : pstep (PStreams done f sid ts acc) (stream_line (name, off)) = PStreams done f sid ts ((name, off) :: acc)).
  { pose proof (stream_entry_line acc name off Ho (Hacc _ (or_introl eq_refl))) as E.
    unfold pstep. unfold stream_line in *. cbn [fst snd P_IND app] in *.
    change (N.eqb 32 DASH) with false. cbv iota. rewrite E. reflexivity. }
  rewrite Hstep. rewrite IH; [cbn [rev]; rewrite <- app_assoc; reflexivity | exact Hwf' | exact Hnd' |].
  intros x Hx. cbn [existsb fst]. rewrite (Hacc x (or_intror Hx)).
  destruct (bytes_eqb name (fst x)) eqn:E; [|reflexivity].
  exfalso. apply Hnotin. apply bytes_eqb_eq in E as ->. apply in_map. exact Hx.
Qed.

(* the entries read so far, newest first, when the parser stands between two entries: at the top of parse's loop,
   or inside parseStreams' loop, where a "- file: " line or the end of the input closes the entry *)
Definition closed (st : pst) : option (list entry) :=
  match st with
  | PStart d => Some d
  | PStreams d f sid ts acc => Some (close_entry d f sid ts acc)
  | _ => None
  end.

Lemma first_line_step st d f : closed st = Some d -> pstep st (P_FILE ++ f) = PInode d f.
Proof.
  destruct st; intros [= <-]; cbn [pstep].
  - unfold start_line. rewrite strip_prefix_app. reflexivity.
  - (* parseStreams looks at the first byte only: a dash ends the streams of the entry *)
    change (P_FILE ++ f) with (DASH :: tl P_FILE ++ f) at 1. cbv iota. rewrite N.eqb_refl.
    unfold start_line. rewrite strip_prefix_app. reflexivity.
Qed.

Lemma pfinish_closed st d : closed st = Some d -> pfinish st [] = Ok (rev d).
Proof. destruct st; intros [= <-]; cbn [pfinish]; now rewrite rev_append_rev, app_nil_r. Qed.

Lemma feed_job st d j :
  closed st = Some d -> job_wf j -> existsb (fun e => N.eqb (esid e) (jsid j)) d = false ->
  closed (fold_left pstep (job_lines j) st) = Some (view j :: d).
Proof.
  intros Hc (Hf & Hi & Hs & Ht & Hst & Hnd) Hd. unfold job_lines. cbn [fold_left].
  rewrite (first_line_step st d _ Hc).
  cbn [pstep]. rewrite strip_prefix_app. rewrite parse_uint64_dec by exact Hi.
  cbn [pstep]. rewrite strip_prefix_app. rewrite parse_uint64_dec by exact Hs. rewrite Hd.
  cbn [pstep]. rewrite strip_prefix_app.
  destruct (dec_Z_cons (jts j)) as (c & r & E). rewrite E. rewrite <- E.
  rewrite parse_int64_dec_Z by exact Ht.
  cbn [pstep]. unfold hdr_line.
  replace P_STREAMS with (P_STREAMS ++ []) at 2 by apply app_nil_r. rewrite strip_prefix_app.
  rewrite feed_streams; [| exact Hst | exact Hnd | reflexivity].
  cbn [closed]. unfold close_entry, view. now rewrite rev_append_rev, !app_nil_r, rev_involutive.
Qed.

Lemma feed_jobs : forall js st d,
  closed st = Some d -> Forall job_wf js -> NoDup (map jsid js) ->
  (forall j, In j js -> existsb (fun e => N.eqb (esid e) (jsid j)) d = false) ->
  closed (fold_left pstep (flat_map job_lines js) st) = Some (rev (map view js) ++ d).
Proof.
  induction js as [|j js IH]; intros st d Hc Hwf Hnd Hd; [exact Hc|].
  cbn [flat_map]. rewrite fold_left_app.
  inversion Hwf as [|? ? Hj Hwf']; subst. inversion Hnd as [|? ? Hnotin Hnd']; subst.
  cbn [map rev]. rewrite <- app_assoc. cbn [app].
  apply IH; [exact (feed_job st d j Hc Hj (Hd j (or_introl eq_refl))) | exact Hwf' | exact Hnd' |].
  intros j' Hj'. cbn [existsb view esid]. rewrite (Hd j' (or_intror Hj')).
  destruct (N.eqb_spec (jsid j) (jsid j')) as [E|E]; [|reflexivity].
  exfalso. apply Hnotin. rewrite E. apply in_map. exact Hj'.
Qed.

Theorem parse_print : forall js, table_wf js -> parse (print_jobs js) = Ok (expected_load js).
Proof.
  intros js [Hwf Hnd]. unfold parse, print_jobs, expected_load.
  set (js' := filter has_streams js) in *.
  pose proof (incl_Forall (incl_filter has_streams js) Hwf) as Hwf'. fold js' in Hwf'.
  rewrite split_unlines by (apply Forall_flat_map; exact (Forall_impl _ job_lines_noNL Hwf')).
  rewrite (pfinish_closed _ _ (feed_jobs js' (PStart []) [] eq_refl Hwf' Hnd (fun _ _ => eq_refl))).
  now rewrite app_nil_r, rev_involutive.
Qed.

(* the parser never panics on what the writer prints *)
Corollary parse_print_no_panic : forall js, table_wf js -> is_panic (parse (print_jobs js)) = false.
Proof. intros js H. rewrite parse_print by exact H. reflexivity. Qed.

(* stream "a\nb": the file does not load at all *)
Definition nl_job_unloadable : job :=
  {| jfile := [102]%N; jinode := 1%N; jsid := 1%N; jts := 0%Z; jstreams := [([97; 10; 98]%N, 7%Z)] |}.
(* stream "x: 1\n    y": the file loads, as two other streams *)
Definition nl_job_forged : job :=
  {| jfile := [102]%N; jinode := 1%N; jsid := 1%N; jts := 0%Z;
     jstreams := [([120; 58; 32; 49; 10; 32; 32; 32; 32; 121]%N, 2%Z)] |}.

(* names with a newline (known finding): the round trip fails *)
Lemma parse_print_newline_refuted :
  (exists e, parse (print_jobs [nl_job_unloadable]) = Err e) /\
  parse (print_jobs [nl_job_forged]) =
    Ok [{| efile := [102]%N; esid := 1%N; ets := Some 0%Z; estreams := [([120]%N, 1%Z); ([121]%N, 2%Z)] |}] /\
  parse (print_jobs [nl_job_forged]) <> Ok (expected_load [nl_job_forged]).
Proof.
  split; [|split].
  - eexists. vm_compute. reflexivity.
  - vm_compute. reflexivity.
  - vm_compute. discriminate.
Qed.
