(* Proofs about Model/Http.v: processBulk hands over the newline split of the body however it is read; the source-id
   pool; the buffer-level machine (pooled buffers, views read late), whose invariant keeps the allocator's books
   ([alloc_ok]) apart from who owns which buffer with what in it ([owns]); the route in front of serveBulk; and what
   the verdicts of the extracted judges mean. *)
From Verif Require Import Base.Sx Model.Http Proofs.GoSemFacts Proofs.ListFacts.
From Coq Require Import Lia Permutation Bool.

(* the line split with an accumulator for the line in progress, as processChunk computes it with its carry-over
   buffer; the bridge between [scan] and [lines_tail] (never executed) *)
Fixpoint split_acc (b acc : bytes) : list bytes * bytes :=
  match b with
  | [] => ([], acc)
  | c :: b' =>
      if N.eqb c NL then let '(ls, t) := split_acc b' [] in (acc :: ls, t)
      else split_acc b' (acc ++ [c])
  end.

Definition noNL (l : bytes) : Prop := ~ In NL l.

Lemma split_acc_spec b : forall acc, noNL acc ->
  let '(ls, t) := split_acc b acc in
  acc ++ b = concat (map (fun l => l ++ [NL]) ls) ++ t /\ Forall noNL ls /\ noNL t.
Proof.
  induction b as [|c b IH]; intros acc Hacc; cbn [split_acc].
  - cbn. rewrite app_nil_r. auto.
  - destruct (N.eqb c NL) eqn:Hc.
    + apply N.eqb_eq in Hc. subst c.
      specialize (IH [] (fun H => H)). destruct (split_acc b []) as [ls t].
      destruct IH as (E & F & T). cbn [map concat app] in *. split; [|split; auto].
      rewrite <- !app_assoc. cbn [app]. rewrite <- E. reflexivity.
    + apply N.eqb_neq in Hc.
      assert (Hacc' : noNL (acc ++ [c])).
      { unfold noNL. rewrite in_app_iff. cbn. intros [H|[H|[]]]; [apply Hacc, H|congruence]. }
      specialize (IH _ Hacc'). destruct (split_acc b (acc ++ [c])) as [ls t].
      rewrite <- app_assoc in IH. exact IH.
Qed.

Lemma lines_tail_noNL t : noNL t -> lines_tail t = ([], t).
Proof.
  induction t as [|c t IH]; intros H; cbn [lines_tail]; [reflexivity|].
  rewrite IH by (intros Hi; apply H; right; exact Hi).
  destruct (N.eqb_spec c NL) as [->|_]; [elim H; left|]; reflexivity.
Qed.

(* terminated newline-free lines and a newline-free tail, joined, split into themselves *)
Lemma lines_tail_join ls t : Forall noNL ls -> noNL t ->
  lines_tail (concat (map (fun l => l ++ [NL]) ls) ++ t) = (ls, t).
Proof.
  intros F T. induction F as [|l ls N _ IH]; [exact (lines_tail_noNL t T)|].
  cbn [map concat]. rewrite <- !app_assoc. cbn [app].
  induction l as [|c l IHl]; cbn [app lines_tail].
  - rewrite IH, N.eqb_refl. reflexivity.
  - rewrite IHl by (intros Hi; apply N; right; exact Hi).
    destruct (N.eqb_spec c NL) as [->|_]; [elim N; left|]; reflexivity.
Qed.

(* both splitters compute the one decomposition into newline-free lines *)
Lemma split_acc_nil b : split_acc b [] = lines_tail b.
Proof.
  pose proof (split_acc_spec b [] (fun H => H)) as H. destruct (split_acc b []) as [ls t], H as (E & F & T).
  cbn [app] in E. rewrite E. symmetry. exact (lines_tail_join ls t F T).
Qed.

(* invariant of [scan]: the line in progress is eb ++ rev rcur. At a newline the code's two branches (eventBuff empty: the
   slice of readBuff itself; otherwise the joined copy) give the same line: [destruct eb] *)
Lemma scan_split rb : forall rcur eb,
  let '(evs, cur', eb') := scan rb rcur eb in split_acc rb (eb ++ rev rcur) = (evs, eb' ++ cur').
Proof.
  induction rb as [|c rb IH]; intros rcur eb; cbn [scan split_acc]; unfold rev_fast; rewrite <- ?rev_alt.
  - reflexivity.
  - destruct (N.eqb c NL).
    + specialize (IH [] []). destruct (scan rb [] []) as [[evs cur'] eb'].
      cbn [app rev] in IH. rewrite IH. destruct eb; reflexivity.
    + specialize (IH (c :: rcur) eb). destruct (scan rb (c :: rcur) eb) as [[evs cur'] eb'].
      cbn [rev] in IH. rewrite app_assoc in IH. exact IH.
Qed.

Lemma process_chunk_false rb eb :
  process_chunk rb eb false = split_acc rb eb.
Proof.
  unfold process_chunk. pose proof (scan_split rb [] eb) as H.
  destruct (scan rb [] eb) as [[evs cur] eb']. cbn [rev] in H. rewrite app_nil_r in H. symmetry. exact H.
Qed.

Lemma split_acc_app x : forall y acc,
  split_acc (x ++ y) acc =
  let '(l1, t) := split_acc x acc in let '(l2, t') := split_acc y t in (l1 ++ l2, t').
Proof.
  induction x as [|c x IH]; intros y acc; cbn [app split_acc].
  - destruct (split_acc y acc); reflexivity.
  - destruct (N.eqb c NL).
    + rewrite IH. destruct (split_acc x []) as [l1 t]. destruct (split_acc y t). reflexivity.
    + apply IH.
Qed.

Lemma process_chunk_last eb : process_chunk [] eb true = ([eb], []).
Proof. unfold process_chunk; cbn. rewrite app_nil_r. reflexivity. Qed.

Fixpoint before_err (reads : list rd) : list bytes :=
  match reads with Chunk c :: r => c :: before_err r | _ => [] end.

Lemma bulk_loop_split reads : forall eb,
  bulk_loop reads eb = let '(ls, t) := split_acc (concat (before_err reads)) eb in (ls, t, no_err reads).
Proof.
  induction reads as [|[c|] rs IH]; intros eb; cbn [bulk_loop before_err concat]; try reflexivity.
  rewrite process_chunk_false, split_acc_app. destruct (split_acc c eb) as [e1 eb1]. rewrite IH.
  destruct (split_acc (concat (before_err rs)) eb1). reflexivity.
Qed.

(* processBulk on any reads: the lines of what was read before the first error, the unterminated tail among them
   iff there was no error *)
Lemma process_bulk_rd_spec reads :
  process_bulk_rd reads =
  (if no_err reads then split_body (concat (before_err reads)) else fst (lines_tail (concat (before_err reads))),
   no_err reads).
Proof.
  unfold process_bulk_rd, split_body. rewrite bulk_loop_split, split_acc_nil.
  destruct (lines_tail (concat (before_err reads))) as [ls t]. destruct (no_err reads); [|reflexivity].
  destruct t; [reflexivity|]. rewrite process_chunk_last. reflexivity.
Qed.

Lemma before_err_chunks chunks : before_err (map Chunk chunks) = chunks /\ no_err (map Chunk chunks) = true.
Proof. induction chunks as [|c cs [IH1 IH2]]; cbn [map before_err]; [|rewrite IH1]; auto. Qed.

Lemma before_err_no_err reads : no_err reads = true -> before_err reads = chunks_of reads.
Proof.
  induction reads as [|[c|] rs IH]; cbn; [reflexivity| |discriminate]. intros H. rewrite (IH H). reflexivity.
Qed.

Lemma http_chunking chunks : process_bulk chunks = split_body (concat chunks).
Proof.
  unfold process_bulk. rewrite process_bulk_rd_spec. destruct (before_err_chunks chunks) as [-> ->]. reflexivity.
Qed.

Lemma http_ok_after_all_in reads evs :
  serve_bulk reads = (evs, 200) ->
  no_err reads = true /\ evs = split_body (concat (chunks_of reads)).
Proof.
  unfold serve_bulk. rewrite process_bulk_rd_spec. destruct (no_err reads) eqn:N; [|discriminate].
  intros [= <-]. rewrite (before_err_no_err _ N). auto.
Qed.

Lemma http_err_prefix reads :
  no_err reads = false ->
  serve_bulk reads = (fst (lines_tail (concat (before_err reads))), 400).
Proof. intros N. unfold serve_bulk. rewrite process_bulk_rd_spec, N. reflexivity. Qed.

Lemma split_body_spec b :
  exists ls t, b = concat (map (fun l => l ++ [NL]) ls) ++ t /\ Forall noNL ls /\ noNL t /\
               split_body b = ls ++ (match t with [] => [] | _ => [t] end).
Proof.
  unfold split_body. pose proof (split_acc_spec b [] (fun H => H)) as H. rewrite split_acc_nil in H.
  destruct (lines_tail b) as [ls t]. destruct H as (E & F & T).
  exists ls, t. repeat split; auto. destruct t; [rewrite app_nil_r|]; reflexivity.
Qed.

(* such a decomposition is unique, [lines_tail] recovering it, and split_body is THE newline split *)
Lemma nl_split_unique : forall ls1 t1 ls2 t2,
  Forall noNL ls1 -> noNL t1 -> Forall noNL ls2 -> noNL t2 ->
  concat (map (fun l => l ++ [NL]) ls1) ++ t1 = concat (map (fun l => l ++ [NL]) ls2) ++ t2 ->
  ls1 = ls2 /\ t1 = t2.
Proof.
  intros ls1 t1 ls2 t2 F1 T1 F2 T2 E. apply (f_equal lines_tail) in E.
  rewrite !lines_tail_join in E by assumption. injection E as -> ->. split; reflexivity.
Qed.

(* the ids that exist (free or held) are pairwise different, lie in [0, seq) and are as many as the counter says: kept by
   [id_step] (id_step_inv); http_sourceid_dense is this after a run from the empty pool *)
Definition id_inv (p : idpool) : Prop :=
  NoDup (free p ++ held p) /\ (forall x, In x (free p ++ held p) -> 0 <= x < seq p) /\
  seq p = Z.of_nat (length (free p) + length (held p)).

Lemma remove_nth_incl {A} k (l : list A) x : In x (remove_nth k l) -> In x l.
Proof.
  revert k; induction l as [|a l IH]; intros k H; [destruct k; exact H|].
  destruct k; cbn in *; [right; exact H|]. destruct H; [left; exact H|right; eapply IH; eauto].
Qed.

(* Put of an id and Get of a pooled buffer take the k-th element out of a list *)
Lemma remove_nth_perm {A} k (l : list A) x : nth_error l k = Some x -> Permutation (x :: remove_nth k l) l.
Proof.
  revert k; induction l as [|y l IH]; intros [|k] H; try discriminate; cbn in *.
  - injection H as ->. reflexivity.
  - rewrite perm_swap, (IH _ H). reflexivity.
Qed.

(* Get takes the last id of the list it draws from *)
Lemma perm_last (l h : list Z) : l <> [] ->
  Permutation (removelast l ++ h ++ [last l 0]) (l ++ h).
Proof.
  intros Hne. rewrite (app_removelast_last 0 Hne) at 3.
  rewrite <- !app_assoc. apply Permutation_app_head. cbn [app].
  apply Permutation_sym, Permutation_cons_append.
Qed.

(* a step moves an id between the two lists, or creates the id [seq p]; after a step that created one no id is free *)
Lemma id_step_perm p o :
  let p' := fst (id_step p o) in
  (Permutation (free p' ++ held p') (free p ++ held p) /\ seq p' = seq p) \/
  (Permutation (free p' ++ held p') (seq p :: free p ++ held p) /\ seq p' = seq p + 1 /\ free p' = []).
Proof.
  destruct o as [|k]; cbn [id_step].
  - destruct (free p) as [|f fr] eqn:Hf; cbn [fst free held seq].
    + right. repeat split. apply (perm_last [seq p] (held p)). discriminate.
    + left. split; [|reflexivity]. apply (perm_last (f :: fr) (held p)). discriminate.
  - left. destruct (nth_error (held p) k) as [x|] eqn:Hk; cbn [fst free held seq]; split; try reflexivity.
    rewrite <- app_assoc. apply Permutation_app_head. exact (remove_nth_perm _ _ _ Hk).
Qed.

Lemma id_step_inv p o : id_inv p -> id_inv (fst (id_step p o)).
Proof.
  intros (ND & R & LEN). unfold id_inv. rewrite <- app_length in *.
  destruct (id_step_perm p o) as [[P ->]|(P & -> & _)]; rewrite (Permutation_length P).
  - split; [exact (Permutation_NoDup (Permutation_sym P) ND)|split; [|exact LEN]].
    intros x Hx. exact (R x (Permutation_in x P Hx)).
  - split; [|split].
    + apply (Permutation_NoDup (Permutation_sym P)). constructor; [|exact ND]. intros H. specialize (R _ H). lia.
    + intros x Hx. destruct (Permutation_in x P Hx) as [<-|H]; [|specialize (R _ H)]; lia.
    + cbn [length]. lia.
Qed.

Lemma id_inv0 : id_inv idpool0.
Proof. split; [constructor|split; [intros x []|reflexivity]]. Qed.

Lemma id_run_cons p o r : fst (id_run p (o :: r)) = fst (id_run (fst (id_step p o)) r).
Proof. cbn [id_run]. destruct (id_step p o) as [p1 x]. cbn [fst]. destruct (id_run p1 r). reflexivity. Qed.

Lemma id_run_inv ops : forall p, id_inv p -> id_inv (fst (id_run p ops)).
Proof.
  induction ops as [|o r IH]; intros p H; [exact H|]. rewrite id_run_cons. apply IH, id_step_inv, H.
Qed.

(* no two requests in progress ever hold the same source id, and no held id is in the free list *)
Lemma http_sourceid_exclusive ops :
  let p := fst (id_run idpool0 ops) in
  NoDup (held p) /\ (forall x, In x (held p) -> ~ In x (free p)).
Proof.
  cbn. destruct (id_run_inv ops _ id_inv0) as [ND _]. apply NoDup_app_iff in ND as (_ & Hh & Hd).
  split; [exact Hh|]. intros x Hx Hf. exact (Hd x Hf Hx).
Qed.

(* after any get/put history: the ids that exist (free or held) are pairwise different, are exactly as many as the
   counter says and lie in [0, seq): the ids handed out so far are 0 .. seq-1, each either free or held by ONE request *)
Lemma http_sourceid_dense ops :
  let p := fst (id_run idpool0 ops) in
  NoDup (free p ++ held p) /\
  (forall x, In x (free p ++ held p) -> 0 <= x < seq p) /\
  seq p = Z.of_nat (length (free p) + length (held p)).
Proof.
  exact (id_run_inv ops _ id_inv0).
Qed.

(* [held_le n p ops]: during the run of ops from p never more than n requests hold an id at once *)
Fixpoint held_le (n : nat) (p : idpool) (ops : list idop) : Prop :=
  (length (held p) <= n)%nat /\
  match ops with
  | [] => True
  | o :: r => held_le n (fst (id_step p o)) r
  end.

Lemma held_le_head n p ops : held_le n p ops -> (length (held p) <= n)%nat.
Proof. destruct ops; intros [H _]; exact H. Qed.

(* the counter grows only in a step after which every id is held *)
Lemma id_run_high_water n ops : forall p,
  id_inv p -> seq p <= Z.of_nat n -> held_le n p ops -> seq (fst (id_run p ops)) <= Z.of_nat n.
Proof.
  induction ops as [|o r IH]; intros p I S [_ H]; [exact S|].
  pose proof (id_step_inv p o I) as I1. rewrite id_run_cons. apply IH; [exact I1| |exact H].
  destruct (id_step_perm p o) as [[_ ->]|(_ & _ & F)]; [exact S|].
  pose proof (held_le_head _ _ _ H) as HL. destruct I1 as (_ & _ & ->). rewrite F. cbn [length]. lia.
Qed.

(* the high-water bound: if never more than n requests were live at once on an instance, every id that was ever handed
   out - in particular every id held now - is below n; with the density above: n requests live at once on such an
   instance hold exactly the ids 0 .. n-1 *)
Lemma http_sourceid_high_water n ops :
  held_le n idpool0 ops ->
  let p := fst (id_run idpool0 ops) in
  seq p <= Z.of_nat n /\ NoDup (held p) /\ (forall x, In x (held p) -> 0 <= x < Z.of_nat n).
Proof.
  intros H. cbn.
  pose proof (id_run_high_water n ops idpool0 id_inv0 ltac:(cbn; lia) H) as S.
  destruct (http_sourceid_dense ops) as (_ & R & _). destruct (http_sourceid_exclusive ops) as (NDh & _).
  cbn in R, NDh. split; [exact S|]. split; [exact NDh|].
  intros x Hx. specialize (R x (in_or_app _ _ _ (or_intror Hx))). lia.
Qed.

Lemma get2_set2_same {A} (t : two A) s x : get2 (set2 t s x) s = x.
Proof. destruct s; reflexivity. Qed.
Lemma get2_set2_other {A} (t : two A) s s' x : s' <> s -> get2 (set2 t s x) s' = get2 t s'.
Proof. destruct s, s'; intros H; try reflexivity; congruence. Qed.
Lemma slot_dec (a b : slot) : a = b \/ a <> b.
Proof. destruct a, b; (left; reflexivity) || (right; discriminate). Qed.
Lemma upd_same {A} (f : nat -> A) k x : upd f k x k = x.
Proof. unfold upd. rewrite Nat.eqb_refl. reflexivity. Qed.
Lemma upd_other {A} (f : nat -> A) k x j : j <> k -> upd f k x j = f j.
Proof. unfold upd. intros H. apply Nat.eqb_neq in H. rewrite H. reflexivity. Qed.
Lemma upd_cases {A} (f : nat -> A) k x j :
  (j = k /\ upd f k x j = x) \/ (j <> k /\ upd f k x j = f j).
Proof.
  destruct (Nat.eq_dec j k) as [->|H]; [left; split; [reflexivity|apply upd_same]|right; split; [exact H|apply upd_other, H]].
Qed.

(* the buffers, in two layers over one witness: [ow b] is the cell (request, slot) that holds buffer b, if any.  [inv]
   quantifies it; it is not computed from the state, whose requests are a function on all of nat.
   [alloc_ok], the allocator's books, which know neither requests nor contents (Get and Put change them, and nothing
   else does): pooled buffers are pairwise different, and pooled and never allocated buffers are held by nobody *)
Record alloc_ok (pl : list nat) (fr : nat) (ow : nat -> option (nat * slot)) : Prop := mkAlloc {
  a_nodup : NoDup pl;
  a_pool : forall b, In b pl -> (b < fr)%nat /\ ow b = None;
  a_lt : forall b c, ow b = Some c -> (b < fr)%nat
}.

(* [owns], what requests and heap have to do with [ow], pool and fresh apart: a cell that owns holds the buffer [ow]
   gives it, and that buffer contains what the request wrote.  That no two cells hold one buffer needs no clause, [ow]
   being a function; the converse is not asked for, so [ow] may name a cell for a buffer that no cell owns *)
Definition owns (h : nat -> bytes) (rqs : nat -> rstate) (ow : nat -> option (nat * slot)) : Prop :=
  forall r s, get2 (own (rqs r)) s = true ->
    exists b, get2 (arr (rqs r)) s = Some b /\ ow b = Some (r, s) /\ h b = get2 (loc (rqs r)) s.

(* one request, running or blocked in In: the rest of its program keeps the discipline, and what it has handed over,
   waits on and will hand over is what it would hand over alone; the view it waits on is a view of a buffer it holds *)
Definition req_ok (intent : list bytes) (rs : rstate) : Prop :=
  match pend rs with
  | None => wf_from (own rs) false (prog rs) = true /\ rev (outs rs) ++ intended (loc rs) (prog rs) = intent
  | Some (b, off, len, d) =>
      (exists s, get2 (own rs) s = true /\ get2 (arr rs) s = Some b /\ view (get2 (loc rs) s) off len = d) /\
      wf_from (own rs) true (prog rs) = true /\ rev (outs rs) ++ d :: intended (loc rs) (prog rs) = intent
  end.

Definition inv (progs : nat -> list op) (st : mstate) : Prop :=
  (exists ow, alloc_ok (pool st) (fresh st) ow /\ owns (heap st) (rq st) ow) /\
  forall r, req_ok (intended (mk2 [] []) (progs r)) (rq st r).

Lemma inv_init progs :
  (forall r, wf_from (mk2 false false) false (progs r) = true) -> inv progs (init_st progs).
Proof.
  intros Hwf. split; [exists (fun _ => None)|intros r; exact (conj (Hwf r) eq_refl)].
  split; [constructor; [constructor|intros b []|discriminate]|intros r [|]; discriminate].
Qed.

Lemma inv_upd progs st h pl fr r rs' ow :
  inv progs st -> alloc_ok pl fr ow -> owns h (upd (rq st) r rs') ow -> req_ok (intended (mk2 [] []) (progs r)) rs' ->
  inv progs (mkM h pl fr (upd (rq st) r rs')).
Proof.
  intros [_ Q] A O R. split; [exists ow; exact (conj A O)|]. intros r0. cbn [rq].
  destruct (upd_cases (rq st) r rs' r0) as [[-> ->]|[_ ->]]; auto.
Qed.

Lemma owns_same h rqs ow r rs' :
  owns h rqs ow -> own rs' = own (rqs r) -> arr rs' = arr (rqs r) -> loc rs' = loc (rqs r) -> owns h (upd rqs r rs') ow.
Proof.
  intros OW Eo Ea El r0. destruct (upd_cases rqs r rs' r0) as [[-> ->]|[_ ->]]; rewrite ?Eo, ?Ea, ?El; apply OW.
Qed.

(* a step of request r that changes its slot s and the buffer b and nothing else; [h'] is the heap afterwards, [rs']
   the state of r, [ow'] says who holds what *)
Lemma owns_frame h rqs ow h' r rs' s b ow' :
  owns h rqs ow ->
  (forall x, x <> b -> ow' x = ow x /\ h' x = h x) ->
  (forall s1, s1 <> s -> get2 (own rs') s1 = get2 (own (rqs r)) s1 /\
                         get2 (arr rs') s1 = get2 (arr (rqs r)) s1 /\
                         get2 (loc rs') s1 = get2 (loc (rqs r)) s1) ->
  (forall c, ow b = Some c -> c = (r, s)) ->
  (get2 (own rs') s = true -> get2 (arr rs') s = Some b /\ ow' b = Some (r, s) /\ h' b = get2 (loc rs') s) ->
  owns h' (upd rqs r rs') ow'.
Proof.
  intros OW Hb Hs1 Hexcl Hs.
  (* a cell other than (r, s) holds another buffer than b, and that one is untouched *)
  assert (Hold : forall r0 s0, ~ (r0 = r /\ s0 = s) -> get2 (own (rqs r0)) s0 = true ->
            exists b0, get2 (arr (rqs r0)) s0 = Some b0 /\ ow' b0 = Some (r0, s0) /\ h' b0 = get2 (loc (rqs r0)) s0).
  { intros r0 s0 Nc O. destruct (OW r0 s0 O) as (b0 & A0 & W0 & H0).
    assert (Nb : b0 <> b) by (intros ->; apply Nc; specialize (Hexcl _ W0); split; congruence).
    destruct (Hb _ Nb) as [E1 E2]. exists b0. rewrite E1, E2. auto. }
  intros r0 s0. destruct (upd_cases rqs r rs' r0) as [[-> ->]|[N ->]]; [|apply Hold; tauto].
  destruct (slot_dec s0 s) as [->|Ns]; [intros O; exists b; exact (Hs O)|].
  destruct (Hs1 _ Ns) as (-> & -> & ->). apply Hold. tauto.
Qed.

(* Get: the buffer taken, pooled or new, was held by nobody, and the books are in order with it entered for c *)
Lemma alloc_take st ow k b pl fr c :
  alloc_ok (pool st) (fresh st) ow -> take_pool k st = (b, pl, fr) ->
  ow b = None /\ alloc_ok pl fr (upd ow b (Some c)).
Proof.
  intros [ND PL LT]. unfold take_pool. destruct (nth_error (pool st) k) as [x|] eqn:Hk; intros [= <- <- <-].
  - pose proof (remove_nth_perm _ _ _ Hk) as P.
    pose proof (Permutation_NoDup (Permutation_sym P) ND) as ND'. inversion ND' as [|? ? Nx ND1]; subst.
    destruct (PL x (Permutation_in _ P (or_introl eq_refl))) as [Lx Ox]. split; [exact Ox|]. constructor.
    + exact ND1.
    + intros y Hy. rewrite upd_other by (intros ->; exact (Nx Hy)). exact (PL y (remove_nth_incl _ _ _ Hy)).
    + intros y c0. destruct (upd_cases ow x (Some c) y) as [[-> _]|[_ ->]]; [intros _; exact Lx|apply LT].
  - assert (O : ow (fresh st) = None).
    { destruct (ow (fresh st)) eqn:E; [|reflexivity]. pose proof (LT _ _ E). lia. }
    split; [exact O|]. constructor.
    + exact ND.
    + intros y Hy. destruct (PL y Hy) as [Ly Oy]. rewrite upd_other by lia. split; [lia|exact Oy].
    + intros y c0. destruct (upd_cases ow (fresh st) (Some c) y) as [[-> _]|[_ ->]]; [lia|].
      intros E. specialize (LT _ _ E). lia.
Qed.

(* Put: the holder lets go of the buffer as it enters the pool *)
Lemma alloc_give pl fr ow b c : alloc_ok pl fr ow -> ow b = Some c -> alloc_ok (b :: pl) fr (upd ow b None).
Proof.
  intros [ND PL LT] How.
  assert (Hnin : ~ In b pl) by (intros Hi; destruct (PL _ Hi); congruence).
  constructor.
  - constructor; assumption.
  - intros x [<-|Hi]; [rewrite upd_same; split; [exact (LT _ _ How)|reflexivity]|].
    destruct (PL _ Hi). rewrite upd_other by (intros ->; exact (Hnin Hi)). auto.
  - intros y c0. destruct (upd_cases ow b None y) as [[-> ->]|[_ ->]]; [discriminate|apply LT].
Qed.

Lemma inv_exec progs st r k o rest :
  inv progs st -> prog (rq st r) = o :: rest -> inv progs (exec_op st r k (rq st r) o rest).
Proof.
  intros I Hp. pose proof I as [(ow & A & OW) Q]. specialize (Q r). unfold req_ok in Q. rewrite Hp in Q. unfold exec_op.
  destruct (pend (rq st r)) as [[[[b off] len] d]|].
  - (* blocked in In: the request can only return, and the controller reads the view now *)
    destruct Q as ((s & Hown & Harr & Hview) & Qw & Qo).
    destruct o; try discriminate Qw.
    destruct (OW r s Hown) as (b' & Harr' & _ & Hheap).
    assert (b' = b) by congruence. subst b'. rewrite Hheap, Hview.
    apply inv_upd with (ow := ow); [exact I|exact A|apply owns_same; auto|split; [exact Qw|]].
    cbn [rev outs]. rewrite <- app_assoc. exact Qo.
  - (* running: the request does not return from In, and (but for Get) holds the buffer of slot s *)
    destruct Q as [Qw Qo].
    destruct o as [s|s d|s off len| |s]; cbn [wf_from intended negb andb] in Qw, Qo; try discriminate Qw;
      apply andb_prop in Qw as [Hown Hrest].
    + (* Get: nobody holds the buffer that is taken *)
      destruct (take_pool k st) as [[b pl] fr] eqn:Htp.
      destruct (alloc_take _ _ _ _ _ _ (r, s) A Htp) as [Hfree A'].
      apply inv_upd with (ow := upd ow b (Some (r, s))); [exact I|exact A'| |split; assumption].
      apply owns_frame with (1 := OW) (s := s) (b := b).
      * intros x N. split; apply upd_other, N.
      * intros s1 N. cbn [own arr loc]. rewrite !get2_set2_other by exact N. auto.
      * rewrite Hfree. discriminate.
      * intros _. cbn [arr loc]. rewrite !get2_set2_same, !upd_same. auto.
    + (* Write: only the buffer of slot s changes *)
      destruct (OW r s Hown) as (b & Harr & How & Hheap). rewrite Harr.
      apply inv_upd with (ow := ow); [exact I|exact A| |split; assumption].
      apply owns_frame with (1 := OW) (s := s) (b := b).
      * intros x N. split; [reflexivity|apply upd_other, N].
      * intros s1 N. cbn [own arr loc]. rewrite get2_set2_other by exact N. auto.
      * rewrite How. intros c [= <-]. reflexivity.
      * intros _. cbn [arr loc]. rewrite get2_set2_same, upd_same. auto.
    + (* In: the view is taken from the heap, which holds what the request wrote *)
      destruct (OW r s Hown) as (b & Harr & How & Hheap). rewrite Harr, Hheap.
      apply inv_upd with (ow := ow); [exact I|exact A|apply owns_same; auto|].
      split; [exists s; auto|split; assumption].
    + (* Put: the request lets go of the buffer as it enters the pool *)
      destruct (OW r s Hown) as (b & Harr & How & Hheap). rewrite Harr.
      apply inv_upd with (ow := upd ow b None); [exact I|exact (alloc_give _ _ _ _ _ A How)| |split; assumption].
      apply owns_frame with (1 := OW) (s := s) (b := b).
      * intros x N. split; [apply upd_other, N|reflexivity].
      * intros s1 N. cbn [own arr loc]. rewrite get2_set2_other by exact N. auto.
      * rewrite How. intros c [= <-]. reflexivity.
      * cbn [own]. rewrite get2_set2_same. discriminate.
Qed.

Lemma inv_step progs st x : inv progs st -> inv progs (mstep st x).
Proof.
  intros I. destruct x as [r k|f]; cbn [mstep].
  - destruct (prog (rq st r)) as [|o rest] eqn:Hp; [exact I|]. apply inv_exec; assumption.
  - (* poison: only pooled buffers change, and nobody holds one *)
    destruct I as [(ow & A & OW) Q]. split; [exists ow; split; [exact A|]|exact Q].
    intros r s Ho. destruct (OW r s Ho) as (b & Ar & W & H).
    exists b. repeat split; auto. cbn [heap].
    destruct (existsb (Nat.eqb b) (pool st)) eqn:E; [|exact H].
    apply existsb_exists in E as (x & Hi & ->%Nat.eqb_eq). destruct (a_pool _ _ _ A _ Hi). congruence.
Qed.

Lemma inv_run progs sch : forall st, inv progs st -> inv progs (run_sched sch st).
Proof.
  induction sch as [|x sch IH]; intros st I; [exact I|]. cbn [run_sched fold_left]. apply IH, inv_step, I.
Qed.

(* any programs that keep the discipline, any schedule, any pool behaviour, any scribbling over free buffers:
   what the controller reads when it finally looks is what the request handed over *)
Lemma pool_views_stable progs sch r :
  (forall r, wf_from (mk2 false false) false (progs r) = true) ->
  let st := run_sched sch (init_st progs) in
  prog (rq st r) = [] -> rev (outs (rq st r)) = intended (mk2 [] []) (progs r).
Proof.
  intros Hwf st Hp. destruct (inv_run progs sch _ (inv_init progs Hwf)) as [_ Q]. fold st in Q.
  specialize (Q r). unfold req_ok in Q. rewrite Hp in Q.
  destruct (pend (rq st r)) as [[[[? ?] ?] ?]|]; [destruct Q as (_ & [=] & _)|].
  rewrite <- (app_nil_r (rev _)). exact (proj2 Q).
Qed.

(* Between its two Gets and its two Puts processBulk holds both buffers and only writes, calls In and returns from it.
   Each piece of its program is described with whatever follows it, [q], appended (after the scanner comes the rest of
   the loop, after the loop the two Puts): the whole keeps the discipline iff [q] does, and [q] hands over from the
   buffer contents the piece leaves behind *)
Lemma wf_scan_ops full q rb : forall nlPos pos eb,
  wf_from (mk2 true true) false (scan_ops full rb nlPos pos eb ++ q) = wf_from (mk2 true true) false q.
Proof.
  induction rb as [|c rb IH]; intros nlPos pos eb; cbn [scan_ops]; [reflexivity|].
  destruct (N.eqb c NL); [|apply IH]. rewrite <- app_assoc. destruct eb; apply IH.
Qed.

Lemma wf_loop_ops q reads : forall eb,
  wf_from (mk2 true true) false (loop_ops false reads eb ++ q) = wf_from (mk2 true true) false q.
Proof.
  induction reads as [|[c|] rs IH]; intros eb; cbn [loop_ops app].
  - destruct eb; reflexivity.
  - rewrite <- app_assoc. cbn [wf_from get2 at_rb negb andb]. rewrite wf_scan_ops. apply IH.
  - reflexivity.
Qed.

Lemma wf_bulk_ops reads : wf_from (mk2 false false) false (bulk_ops reads) = true.
Proof. unfold bulk_ops. cbn [wf_from get2 set2 at_rb at_eb negb andb]. rewrite wf_loop_ops. reflexivity. Qed.

Lemma view_all l : view l 0 (length l) = l.
Proof. unfold view. cbn [skipn]. apply firstn_all. Qed.

(* the byte at [pos] extends the view that ends there *)
Lemma view_next full nlPos pos c rb : skipn pos full = c :: rb -> (nlPos <= pos)%nat ->
  view full nlPos (S pos - nlPos) = view full nlPos (pos - nlPos) ++ [c] /\ skipn (S pos) full = rb.
Proof.
  intros E Hle. split; [|rewrite <- (Nat.add_1_r pos), <- skipn_plus, E; reflexivity].
  unfold view. replace (S pos - nlPos)%nat with (pos - nlPos + 1)%nat by lia.
  rewrite firstn_plus, skipn_plus. replace (nlPos + (pos - nlPos))%nat with pos by lia. rewrite E. reflexivity.
Qed.

(* scanning the rest [rb] of the read buffer from [pos] on, the line in progress being the carry-over followed by
   readBuff[nlPos:pos], hands over the lines that end in rb and leaves the line in progress in eventBuff *)
Lemma scan_ops_spec q rb : forall nlPos pos eb l,
  skipn pos (at_rb l) = rb -> (nlPos <= pos)%nat ->
  let '(ls, t) := split_acc rb (eb ++ view (at_rb l) nlPos (pos - nlPos)) in
  intended l (scan_ops (at_rb l) rb nlPos pos eb ++ q) = ls ++ intended (mk2 (at_rb l) t) q.
Proof.
  induction rb as [|c rb IH]; intros nlPos pos eb l Hrb Hle; cbn [scan_ops split_acc].
  - reflexivity.
  - destruct (view_next _ _ _ _ _ Hrb Hle) as [Hv Hrb'].
    destruct (N.eqb c NL).
    + (* a line ends here; the next one starts with nothing carried over and nothing read *)
      assert (Hnil : [] ++ view (at_rb l) (S pos) (S pos - S pos) = []) by (rewrite Nat.sub_diag; reflexivity).
      rewrite <- app_assoc. destruct eb as [|e eb].
      * pose proof (IH (S pos) _ [] l Hrb' (le_n _)) as IH'. rewrite Hnil in IH'.
        destruct (split_acc rb []) as [ls t]. exact (f_equal (cons _) IH').
      * pose proof (IH (S pos) _ [] (mk2 (at_rb l) []) Hrb' (le_n _)) as IH'. cbn [at_rb] in IH'. rewrite Hnil in IH'.
        destruct (split_acc rb []) as [ls t]. cbn [app intended get2 at_eb]. rewrite view_all. exact (f_equal (cons _) IH').
    + pose proof (IH nlPos _ eb l Hrb' (Nat.le_le_succ_r _ _ Hle)) as IH'. rewrite Hv, app_assoc in IH'. exact IH'.
Qed.

(* the loop hands over what [bulk_loop] returns, and the unterminated tail after it if no read failed *)
Lemma loop_ops_spec q reads : (forall l, intended l q = []) -> forall eb l, at_eb l = eb ->
  let '(evs, eb', ok) := bulk_loop reads eb in
  intended l (loop_ops false reads eb ++ q) =
  evs ++ (if ok then match eb' with [] => [] | _ :: _ => [eb'] end else []).
Proof.
  intros Hq. induction reads as [|[c|] rs IH]; intros eb l Heb; cbn [loop_ops bulk_loop app].
  - destruct eb; [apply Hq|]. cbn [app intended get2]. rewrite Heb, view_all, Hq. reflexivity.
  - cbn [intended]. rewrite <- app_assoc, process_chunk_false.
    pose proof (scan_ops_spec (loop_ops false rs (snd (split_acc c eb)) ++ q) c 0%nat 0%nat eb (set2 l RB c)
                  eq_refl (le_n _)) as S.
    change (at_rb (set2 l RB c)) with c in S.
    replace (eb ++ view c 0 (0 - 0)) with eb in S by (symmetry; apply app_nil_r).
    destruct (split_acc c eb) as [e1 eb1]. cbn [snd] in *. rewrite S.
    specialize (IH eb1 (mk2 c eb1) eq_refl). destruct (bulk_loop rs eb1) as [[e2 eb2] ok].
    rewrite <- app_assoc. exact (f_equal (app e1) IH).
  - apply Hq.
Qed.

Lemma intended_bulk_ops reads : intended (mk2 [] []) (bulk_ops reads) = fst (process_bulk_rd reads).
Proof.
  unfold process_bulk_rd.
  pose proof (loop_ops_spec [OPut EB; OPut RB] reads (fun _ => eq_refl) [] (mk2 [] []) eq_refl) as L.
  destruct (bulk_loop reads []) as [[evs eb] ok]. etransitivity; [exact L|].
  destruct ok; [|apply app_nil_r]. destruct eb; [apply app_nil_r|]. rewrite process_chunk_last. reflexivity.
Qed.

(* every interleaving of processBulk runs over shared pools, with a controller that reads each view as late as it
   likes: a request that has run to its end has delivered exactly the events of its own body *)
Lemma http_pool_no_alias (reads : nat -> list rd) sch r :
  let st := run_sched sch (init_st (fun r => bulk_ops (reads r))) in
  prog (rq st r) = [] -> rev (outs (rq st r)) = fst (process_bulk_rd (reads r)).
Proof.
  intros st Hp. unfold st in *.
  rewrite (pool_views_stable (fun r => bulk_ops (reads r)) sch r (fun r0 => wf_bulk_ops (reads r0)) Hp).
  apply intended_bulk_ops.
Qed.

(* which = 9, the request route in front of serveBulk: whatever the options (auth strategy / header / secrets, CORS,
   meta, emulate mode) are, a request that reaches processBulk is treated exactly as serve_bulk treats its reads, and
   no other request hands over anything *)
Lemma route_cases c q :
  if ingests c q then fst (route c q) = serve_bulk (q_reads q) else fst (fst (route c q)) = [].
Proof.
  unfold ingests, route.
  destruct (Z.eqb (q_method q) 2); [reflexivity|].
  destruct (auth c q); try reflexivity. cbn [auth_ok negb andb].
  destruct (bulk_route c q); [|reflexivity].
  destruct (Z.eqb (q_method q) 0); [|reflexivity].
  destruct (serve_bulk (q_reads q)) as [evs st]. reflexivity.
Qed.

Lemma route_ingests c q : ingests c q = true -> fst (route c q) = serve_bulk (q_reads q).
Proof. intros I. pose proof (route_cases c q) as H. rewrite I in H. exact H. Qed.

Lemma route_not_ingests c q : ingests c q = false -> fst (fst (route c q)) = [].
Proof. intros I. pose proof (route_cases c q) as H. rewrite I in H. exact H. Qed.

Lemma lookup_exists u p l s :
  lookup u l = Some s -> N_eqb_list s p = true ->
  existsb (fun np => N_eqb_list (fst np) u && N_eqb_list (snd np) p) l = true.
Proof.
  induction l as [|[a b] l IH]; cbn [lookup existsb fst snd]; [discriminate|].
  destruct (N_eqb_list a u) eqn:E.
  - intros H Hp. inversion H; subst. rewrite Hp. reflexivity.
  - intros H Hp. rewrite (IH H Hp). apply orb_true_r.
Qed.

Lemma rlookup_exists t l n :
  rlookup t l = Some n -> existsb (fun np => N_eqb_list (snd np) t) l = true.
Proof.
  induction l as [|[a b] l IH]; cbn [rlookup existsb snd]; [discriminate|].
  destruct (N_eqb_list b t) eqn:E; [reflexivity|]. intros H. exact (IH H).
Qed.

(* [auth] never says yes to a request that does not present a configured secret *)
Lemma auth_ok_authorised c q : auth_ok (auth c q) = true -> authorised c q = true.
Proof.
  unfold auth, authorised.
  destruct (Z.eqb (c_strat c) 0); [reflexivity|].
  destruct (Z.eqb (c_strat c) 1).
  - destruct (eff_cred c q) as [|u p|t|v]; cbn [auth_ok]; try discriminate.
    destruct (lookup u (c_secrets c)) as [s|] eqn:L.
    + destruct (N_eqb_list s p) eqn:E; cbn [auth_ok]; [|discriminate]. intros _. exact (lookup_exists _ _ _ _ L E).
    + destruct p; cbn [auth_ok]; discriminate.
  - destruct (bearer_token (eff_cred c q)) as [t|]; cbn [auth_ok]; [|discriminate].
    destruct (rlookup t (c_secrets c)) as [n|] eqn:L; cbn [auth_ok]; [|discriminate].
    intros _. exact (rlookup_exists _ _ _ L).
Qed.

Lemma route_unauthorised c q :
  authorised c q = false ->
  fst (fst (route c q)) = [] /\ (q_method q <> 2 -> snd (fst (route c q)) <> 200).
Proof.
  intros H.
  assert (A : auth_ok (auth c q) = false).
  { destruct (auth_ok (auth c q)) eqn:E; [|reflexivity]. rewrite (auth_ok_authorised _ _ E) in H. discriminate. }
  unfold route. destruct (Z.eqb (q_method q) 2) eqn:M.
  - apply Z.eqb_eq in M. split; [reflexivity|]. intros N. contradiction.
  - destruct (auth c q); cbn [auth_ok] in A; try discriminate; cbn [fst snd]; split; try reflexivity; intros _; discriminate.
Qed.

Lemma route_200_after_all_in c q evs st cl :
  route c q = (evs, st, cl) -> ingests c q = true -> st = 200 ->
  no_err (q_reads q) = true /\ evs = split_body (concat (chunks_of (q_reads q))).
Proof.
  intros R I S. pose proof (route_ingests _ _ I) as E. rewrite R in E. cbn [fst] in E. subst st.
  exact (http_ok_after_all_in _ _ (eq_sym E)).
Qed.

Lemma map_fst_pair {A B} (l : list A) (m : B) : map fst (map (fun e => (e, m)) l) = l.
Proof. induction l as [|x l IH]; cbn [map fst]; [reflexivity|rewrite IH; reflexivity]. Qed.

(* which = 12 / 13: headers and meta templates are arguments the delivery ignores: the In calls of a request carry
   exactly the events of the route model, the status and the class are its *)
Lemma route_h_events render c tm h :
  (map fst (fst (fst (route_h render c tm h))), snd (fst (route_h render c tm h)), snd (route_h render c tm h)) =
  route c (h_req h).
Proof.
  unfold route_h. destruct (route c (h_req h)) as [[evs st] cl]. cbn [fst snd]. rewrite map_fst_pair. reflexivity.
Qed.

Lemma route_h_ingests render c tm h :
  ingests c (h_req h) = true ->
  (map fst (fst (fst (route_h render c tm h))), snd (fst (route_h render c tm h))) = serve_bulk (q_reads (h_req h)).
Proof. intros I. rewrite <- (route_ingests _ _ I), <- (route_h_events render c tm h). reflexivity. Qed.

(* two runs of the same request line and body under different header sets, queries, framings, template sets, renderers
   (and the meta flag of the configuration) hand over the same events and are answered alike.
   [change (route c' q) with (route c q)] is a conversion because [route] never reads c_meta (only route_meta does). *)
Lemma route_h_independent render render' c m' tm tm' q hs hs' xq xq' fl fl' :
  let c' := mkCfg (c_mode c) (c_strat c) (c_hdr c) (c_secrets c) (c_origins c) m' in
  let a := route_h render c tm (mkHReq q hs xq fl) in
  let b := route_h render' c' tm' (mkHReq q hs' xq' fl') in
  map fst (fst (fst a)) = map fst (fst (fst b)) /\ snd (fst a) = snd (fst b) /\ snd a = snd b.
Proof.
  intros c' a b. unfold a, b, route_h. cbn [h_req]. change (route c' q) with (route c q).
  destruct (route c q) as [[evs st] cl]. cbn [fst snd]. rewrite !map_fst_pair. auto.
Qed.

Lemma hmeta_keys render c tm h : hmeta render c tm h = [] \/ map fst (hmeta render c tm h) = map fst tm.
Proof.
  unfold hmeta. destruct (auth c (h_req h)); try (left; reflexivity).
  right. rewrite map_map. cbn [fst]. reflexivity.
Qed.

Lemma hmeta_keys_ok render c tm h login :
  auth c (h_req h) = AuthOk login -> map fst (hmeta render c tm h) = map fst tm.
Proof. intros A. unfold hmeta. rewrite A. rewrite map_map. reflexivity. Qed.

Lemma ingests_auth c q : ingests c q = true -> exists login, auth c q = AuthOk login.
Proof.
  unfold ingests. destruct (auth c q) as [l| |]; [eauto|..]; cbn [auth_ok]; rewrite andb_false_r; discriminate.
Qed.

(* under every header set, template set and renderer: a 200 comes after every line of the body was handed over, and every
   In call carries one meta value per configured template *)
Lemma route_h_200 render c tm h calls st cl :
  route_h render c tm h = (calls, st, cl) -> ingests c (h_req h) = true -> st = 200 ->
  no_err (q_reads (h_req h)) = true /\
  map fst calls = split_body (concat (chunks_of (q_reads (h_req h)))) /\
  Forall (fun cm => map fst (snd cm) = map fst tm) calls.
Proof.
  unfold route_h. destruct (route c (h_req h)) as [[evs st0] cl0] eqn:E. intros [= <- <- <-] I S.
  rewrite map_fst_pair. destruct (route_200_after_all_in _ _ _ _ _ E I S) as [H1 H2]. split; [exact H1|]. split; [exact H2|].
  destruct (ingests_auth _ _ I) as [login A].
  apply Forall_forall. intros cm (e & <- & _)%in_map_iff. exact (hmeta_keys_ok render c tm h login A).
Qed.

Lemma route_h_not_ingests render c tm h :
  ingests c (h_req h) = false -> fst (fst (route_h render c tm h)) = [].
Proof.
  intros I. apply map_eq_nil with (f := fst).
  rewrite <- (route_not_ingests _ _ I), <- (route_h_events render c tm h). reflexivity.
Qed.

Lemma route_h_unauthorised render c tm h :
  authorised c (h_req h) = false ->
  fst (fst (route_h render c tm h)) = [] /\ (q_method (h_req h) <> 2 -> snd (fst (route_h render c tm h)) <> 200).
Proof.
  intros A. destruct (route_unauthorised _ _ A) as [R1 R2].
  rewrite <- (route_h_events render c tm h) in R1, R2. split; [exact (map_eq_nil _ _ R1)|exact R2].
Qed.

Definition accepted (v : verdict) : Prop := v = Agree \/ exists m, v = Differ m.

Lemma bad_case_rejected : ~ accepted BadCase.
Proof. intros [H|[m H]]; discriminate. Qed.

Lemma pairs_run_sound f (P : sx -> sx -> Prop) case obs :
  (forall r o m, f r o = Some (m, true) -> P r o) ->
  accepted (pairs_run f case obs) ->
  exists reqs outs, case = SL reqs /\ obs = SL outs /\ Forall2 P reqs outs.
Proof.
  intros Hf H. unfold pairs_run in H.
  destruct case as [?|?|reqs]; try elim (bad_case_rejected H).
  destruct obs as [?|?|outs]; try elim (bad_case_rejected H).
  exists reqs, outs. split; [reflexivity|]. split; [reflexivity|].
  destruct (pairs_go f reqs outs) as [[ms ok]|] eqn:Hg; [|elim (bad_case_rejected H)].
  destruct ok; [clear H|destruct H as [H|[m H]]; discriminate].
  revert outs ms Hg. induction reqs as [|r rs IH]; intros [|o os] ms H; cbn [pairs_go] in H; try discriminate.
  - constructor.
  - destruct (f r o) as [[m ok]|] eqn:Hr; [|discriminate].
    destruct (pairs_go f rs os) as [[ms' oks]|] eqn:Hg; [|discriminate].
    injection H as _ H. apply andb_prop in H as [-> ->]. constructor; [exact (Hf _ _ _ Hr)|exact (IH _ _ Hg)].
Qed.

(* a request that went through processBulk: answered 200 after exactly the newline split of its body was handed over,
   and answered 200 unless a read failed *)
Definition served (rds : list rd) (evs : list sx) (st : Z) : Prop :=
  (st = 200 -> no_err rds = true /\ evs = map SB (split_body (concat (chunks_of rds)))) /\
  (st <> 200 -> no_err rds = false).

Lemma c11_pred_meaning reads rds o :
  as_list rd_of_sx reads = Some rds -> c11_pred reads o = true ->
  exists evs st, o = SL [SL evs; SZ st] /\ served rds evs st.
Proof.
  intros Hr H. unfold c11_pred in H. rewrite Hr in H.
  destruct o as [?|?|[|[?|?|evs] [|[st|?|?] [|? ?]]]]; try discriminate.
  exists evs, st. split; [reflexivity|].
  destruct (Z.eqb_spec st 200) as [->|N]; split; intros E; try contradiction.
  - apply andb_prop in H as [H1 H2]. apply sx_eqb_sound in H2. split; [exact H1|]. now inversion H2.
  - apply negb_true_iff in H. exact H.
Qed.

(* what the judge of the gated histories (which = 8) accepts for one request *)
Definition gated_req_ok (r o : sx) : Prop :=
  exists gz reads parks rds evs st,
    r = SL [SZ gz; reads; SL parks] /\ as_list rd_of_sx reads = Some rds /\ o = SL [SL evs; SZ st] /\
    served rds evs st.

Lemma gated_one_meaning r o m : gated_one r o = Some (m, true) -> gated_req_ok r o.
Proof.
  unfold gated_one.
  destruct r as [?|?|[|[gz|?|?] [|reads [|[?|?|parks] [|? ?]]]]]; try discriminate.
  destruct (gated_reads_ok gz reads && all_ints parks); [|discriminate].
  unfold c11_model. destruct (as_list rd_of_sx reads) as [rds|] eqn:Hr; [|discriminate].
  destruct (serve_bulk rds). intros [= _ Hp].
  destruct (c11_pred_meaning _ _ _ Hr Hp) as (evs & st & Ho & S).
  exists gz, reads, parks, rds, evs, st. auto.
Qed.

(* a verdict Agree / Differ on a gated history means: whatever GOMAXPROCS, the park positions, the order in which the
   requests ran / were released and the poison steps were, every request answered 200 delivered - as the controller
   read it AFTER its gate was released - exactly the newline split of ITS OWN body, and no request whose reads all
   succeeded was answered anything but 200 *)
Lemma gated_verdict_sound case obs :
  (c11_gated_run case obs = Agree \/ exists m, c11_gated_run case obs = Differ m) ->
  exists cfg reqs steps outs,
    case = SL [SL cfg; SL reqs; SL steps] /\ obs = SL outs /\ Forall2 gated_req_ok reqs outs.
Proof.
  intros H. unfold c11_gated_run in H.
  destruct case as [?|?|[|[?|?|cfg] [|[?|?|reqs] [|[?|?|steps] [|? ?]]]]]; try elim (bad_case_rejected H).
  destruct (all_ints cfg && all_ints steps); [|elim (bad_case_rejected H)].
  destruct (pairs_run_sound _ _ _ _ gated_one_meaning H) as (rs & outs & [= <-] & -> & F).
  exists cfg, reqs, steps, outs. auto.
Qed.

(* what the judges of the routed requests (which = 9, 12, 13) accept for one request *)
Definition judged (c : rcfg) (q : rreq) (rds : list rd) (evs : list sx) (st : Z) : Prop :=
  (ingests c q = true -> served rds evs st) /\
  (ingests c q = false ->
     evs = [] /\ (authorised c q = false -> q_method q <> 2 -> st <> 200)).

Lemma route_obs_ok_meaning c q reads rds oevs ost :
  as_list rd_of_sx reads = Some rds -> route_obs_ok c q reads oevs ost = true ->
  exists evs, oevs = SL evs /\ judged c q rds evs ost.
Proof.
  intros Hr H. unfold route_obs_ok in H. destruct oevs as [?|?|evs]; try discriminate.
  exists evs. split; [reflexivity|]. split; intros I; rewrite I in H.
  - destruct (c11_pred_meaning _ _ _ Hr H) as (evs' & st & [= <- <-] & S). exact S.
  - apply andb_prop in H as [Hn Hs]. split; [destruct evs; [reflexivity|discriminate]|].
    intros A M S. rewrite A in Hs. apply orb_prop in Hs as [Hs|Hs].
    + apply Z.eqb_eq in Hs. contradiction.
    + subst ost. discriminate.
Qed.

Lemma req_of_sx_reads r q reads :
  req_of_sx r = Some (q, reads) -> as_list rd_of_sx reads = Some (q_reads q).
Proof.
  unfold req_of_sx. intros H. step_split H. inversion H; subst. assumption.
Qed.

Definition route_req_ok (c : rcfg) (r o : sx) : Prop :=
  exists q reads rds evs st x y z,
    req_of_sx r = Some (q, reads) /\ as_list rd_of_sx reads = Some rds /\ q_reads q = rds /\
    o = SL [SL evs; SZ st; x; y; z] /\ judged c q rds evs st.

Lemma route_one_meaning c r o m : route_one c r o = Some (m, true) -> route_req_ok c r o.
Proof.
  unfold route_one. destruct (req_of_sx r) as [[q reads]|] eqn:Hq; [|discriminate].
  destruct (cred_ok (q_cred q)); [|discriminate].
  destruct (route c q) as [[evs0 st0] cl0].
  pose proof (req_of_sx_reads _ _ _ Hq) as Hr.
  destruct o as [?|?|[|[?|?|oevs] [|[ost|?|?] [|x [|y [|z [|? ?]]]]]]]; try discriminate.
  intros [= _ Hok].
  destruct (route_obs_ok_meaning c q reads _ (SL oevs) ost Hr Hok) as (evs & [= <-] & J).
  exists q, reads, (q_reads q), oevs, ost, x, y, z. auto 6.
Qed.

(* a verdict Agree / Differ on a routed history means: every request that the configuration lets through to processBulk
   (POST, bulk route of the emulate mode, a configured secret) delivered exactly the newline split of its body when it was
   answered 200 and was answered 200 unless a read failed; every other request handed over nothing, and a request without
   a configured secret was not answered 200 (but for the CORS preflight) *)
Lemma route_verdict_sound case obs :
  (c11_route_run case obs = Agree \/ exists m, c11_route_run case obs = Differ m) ->
  exists cfg c reqs outs,
    case = SL [cfg; SL reqs] /\ cfg_of_sx cfg = Some c /\ obs = SL outs /\ Forall2 (route_req_ok c) reqs outs.
Proof.
  intros H. unfold c11_route_run in H.
  destruct case as [?|?|[|cfg [|reqs [|? ?]]]]; try elim (bad_case_rejected H).
  destruct (cfg_of_sx cfg) as [c|] eqn:Hc; [|elim (bad_case_rejected H)].
  destruct (cfg_ok c); [|elim (bad_case_rejected H)].
  destruct (pairs_run_sound _ _ _ _ (route_one_meaning c) H) as (rs & outs & -> & -> & F).
  exists cfg, c, rs, outs. auto.
Qed.

Definition hroute_req_ok (c : rcfg) (r o : sx) : Prop :=
  exists rq hs xq fl q reads rds evs st x y z,
    r = SL [rq; hs; SB xq; SZ fl] /\
    req_of_sx rq = Some (q, reads) /\ as_list rd_of_sx reads = Some rds /\ q_reads q = rds /\
    o = SL [SL evs; SZ st; x; y; z] /\ judged c q rds evs st.

Lemma hroute_one_meaning c tm r o m : hroute_one c tm r o = Some (m, true) -> hroute_req_ok c r o.
Proof.
  unfold hroute_one.
  destruct r as [?|?|[|rq [|hs [|[?|xq|?] [|[fl|?|?] [|? ?]]]]]]; try discriminate.
  destruct (req_of_sx rq) as [[q reads]|] eqn:Hq; [|discriminate].
  destruct (as_list pair_of_sx hs) as [hdrs|]; [|discriminate].
  destruct (cred_ok (q_cred q) && forallb (hdr_ok c q) hdrs && Z.leb 0 fl && Z.leb fl 2); [|discriminate].
  destruct (route_h render0 c tm (mkHReq q hdrs xq fl)) as [[calls st0] cl0].
  pose proof (req_of_sx_reads _ _ _ Hq) as Hr.
  destruct o as [?|?|[|oevs [|[ost|?|?] [|x [|y [|z [|? ?]]]]]]]; try discriminate.
  intros [= _ Hok].
  destruct (route_obs_ok_meaning _ _ _ _ _ _ Hr Hok) as (evs & -> & J).
  exists rq, hs, xq, fl, q, reads, (q_reads q), evs, ost, x, y, z. auto 7.
Qed.

(* which = 12, a routed history with headers and templates: a verdict means per request what it means for which = 9 *)
Lemma hroute_verdict_sound case obs :
  (c11_hroute_run case obs = Agree \/ exists m, c11_hroute_run case obs = Differ m) ->
  exists cfg c tms tm reqs outs,
    case = SL [cfg; tms; SL reqs] /\ cfg_of_sx cfg = Some c /\ tmpls_of_sx tms = Some tm /\ obs = SL outs /\
    Forall2 (hroute_req_ok c) reqs outs.
Proof.
  intros H. unfold c11_hroute_run in H.
  destruct case as [?|?|[|cfg [|tms [|reqs [|? ?]]]]]; try elim (bad_case_rejected H).
  destruct (cfg_of_sx cfg) as [c|] eqn:Hc; [|elim (bad_case_rejected H)].
  destruct (tmpls_of_sx tms) as [tm|] eqn:Ht; [|elim (bad_case_rejected H)].
  destruct (cfg_ok c && Bool.eqb (c_meta c) (negb (is_nil tm))); [|elim (bad_case_rejected H)].
  destruct (pairs_run_sound _ _ _ _ (hroute_one_meaning c tm) H) as (rs & outs & -> & -> & F).
  exists cfg, c, tms, tm, rs, outs. auto 6.
Qed.

(* the own listener: a body is a list of byte strings, no read of it fails *)
Lemma all_bytes_no_err ws : forall rds, all_bytes ws = true -> opt_map rd_of_sx ws = Some rds -> no_err rds = true.
Proof.
  induction ws as [|w ws IH]; intros rds A H; cbn [opt_map] in H.
  - inversion H. reflexivity.
  - unfold all_bytes in A. cbn [forallb] in A. apply andb_prop in A as [Aw A].
    destruct w as [?|b|?]; try discriminate. cbn [rd_of_sx] in H.
    destruct (opt_map rd_of_sx ws) as [rds'|] eqn:E; [|discriminate]. inversion H; subst.
    cbn [no_err forallb]. exact (IH rds' A eq_refl).
Qed.

Definition hwire_req_ok (r o : sx) : Prop :=
  exists gz piece ws hs target odd rds evs x,
    r = SL [SZ gz; SZ piece; SL ws; hs; SB target; SZ odd] /\ as_list rd_of_sx (SL ws) = Some rds /\
    no_err rds = true /\ o = SL [SL evs; SZ 200; x] /\ evs = map SB (split_body (concat (chunks_of rds))).

Lemma hwire_one_meaning tm r o m : hwire_one tm r o = Some (m, true) -> hwire_req_ok r o.
Proof.
  unfold hwire_one.
  (* one field at a time: a nested pattern would carry the whole judge into each of its refusing branches *)
  destruct r as [?|?|[|[gz|?|?] r]]; try discriminate.
  destruct r as [|[piece|?|?] r]; try discriminate.
  destruct r as [|[?|?|ws] r]; try discriminate.
  destruct r as [|hs r]; try discriminate.
  destruct r as [|[?|target|?] r]; try discriminate.
  destruct r as [|[odd|?|?] [|? ?]]; try discriminate.
  destruct (as_list rd_of_sx (SL ws)) as [rds|] eqn:Hr; [|discriminate].
  destruct (as_list pair_of_sx hs) as [hdrs|]; [|discriminate].
  destruct ((Z.eqb gz 0 || Z.eqb gz 1) && all_bytes ws) eqn:G; cbn [andb]; [|discriminate].
  apply andb_prop in G as [_ Ab]. pose proof (all_bytes_no_err ws rds Ab Hr) as N.
  destruct (forallb _ hdrs && Z.leb 0 odd && Z.leb odd 6); [|discriminate].
  destruct (route_h render0 (wire_cfg tm) tm _) as [[calls st0] cl0].
  destruct o as [?|?|[|oevs [|[ost|?|?] [|x [|? ?]]]]]; try discriminate.
  intros [= _ Hok].
  (* wire_cfg has neither auth nor emulation and wire_req is a POST: ingested, whatever the target *)
  destruct (route_obs_ok_meaning _ _ _ _ _ _ Hr Hok) as (evs & -> & [[J1 J2] _]); [reflexivity|].
  destruct (Z.eq_dec ost 200) as [->|ne]; [|rewrite (J2 ne) in N; discriminate].
  destruct (J1 eq_refl) as [_ Je].
  exists gz, piece, ws, hs, target, odd, rds, evs, x. auto.
Qed.

(* which = 13, the plugin's own listener (no read fails): a verdict means that every request was answered 200 after the
   newline split of its body was handed over *)
Lemma hwire_verdict_sound case obs :
  (c11_hwire_run case obs = Agree \/ exists m, c11_hwire_run case obs = Differ m) ->
  exists cfg tms tm reqs outs,
    case = SL [SL cfg; tms; SL reqs] /\ tmpls_of_sx tms = Some tm /\ obs = SL outs /\ Forall2 hwire_req_ok reqs outs.
Proof.
  intros H. unfold c11_hwire_run in H.
  destruct case as [?|?|[|[?|?|cfg] [|tms [|reqs [|? ?]]]]]; try elim (bad_case_rejected H).
  destruct (tmpls_of_sx tms) as [tm|] eqn:Ht; [|elim (bad_case_rejected H)].
  destruct (all_ints cfg); [|elim (bad_case_rejected H)].
  destruct (pairs_run_sound _ _ _ _ (hwire_one_meaning tm) H) as (rs & outs & -> & -> & F).
  exists cfg, tms, tm, rs, outs. auto.
Qed.

Lemma z_nodup_sound l : z_nodup l = true -> NoDup l.
Proof.
  induction l as [|x r IH]; cbn [z_nodup]; intros H; [constructor|].
  apply andb_true_iff in H. destruct H as [H1 H2]. apply negb_true_iff in H1.
  constructor; [apply existsb_eqb_notIn, H1|exact (IH H2)].
Qed.

Lemma remove_first_perm e : forall l l', remove_first e l = Some l' -> Permutation l (e :: l').
Proof.
  induction l as [|x r IH]; cbn [remove_first]; intros l' H; [discriminate|].
  destruct (sx_eqb e x) eqn:E.
  - inversion H; subst. apply sx_eqb_sound in E. subst. reflexivity.
  - destruct (remove_first e r) as [r'|] eqn:R; [|discriminate]. inversion H; subst.
    rewrite (IH _ eq_refl). apply perm_swap.
Qed.

Lemma perm_match_sound : forall ex obs, perm_match ex obs = true -> Permutation ex obs.
Proof.
  induction ex as [|e r IH]; cbn [perm_match]; intros obs H.
  - destruct obs; [constructor|discriminate].
  - destruct (remove_first e obs) as [o'|] eqn:R; [|discriminate].
    rewrite (remove_first_perm _ _ _ R). constructor. exact (IH _ H).
Qed.

Lemma opt_map_z_of_sx : forall ids zs, opt_map z_of_sx ids = Some zs -> ids = map SZ zs.
Proof.
  induction ids as [|i r IH]; cbn [opt_map]; intros zs H; [inversion H; reflexivity|].
  destruct i as [z|b|l]; cbn [z_of_sx] in H; try discriminate.
  destruct (opt_map z_of_sx r) as [zr|]; [|discriminate]. inversion H; subst. cbn. f_equal. exact (IH _ eq_refl).
Qed.

(* which = 14, an accepted phase observation: every request was answered 200; the source ids seen by controller.In are pairwise
   different, one per request, all in [0, hw); and the event sequences under the source ids are - up to the order of
   the ids - exactly the newline splits of the bodies: no source id carried lines of two bodies *)
Lemma burst_phase_sound hw reqs o :
  burst_phase_ok hw reqs o = true ->
  exists zs groups,
    o = SL [SL (map (fun _ => SZ 200) reqs); SL (map SZ zs); SL groups] /\
    NoDup zs /\ length zs = length reqs /\ (forall z, In z zs -> 0 <= z < hw) /\
    Permutation (map burst_expected reqs) groups.
Proof.
  unfold burst_phase_ok. intros H.
  destruct o as [?|?|[|[?|?|sts] [|[?|?|ids] [|[?|?|groups] [|? ?]]]]]; try discriminate.
  destruct (opt_map z_of_sx ids) as [zs|] eqn:Z; [|discriminate].
  apply andb_prop in H as [[[[Hs Hn]%andb_prop Hr]%andb_prop Hl]%andb_prop Hp].
  apply sx_eqb_sound in Hs. injection Hs as ->. rewrite (opt_map_z_of_sx _ _ Z).
  exists zs, groups. split; [reflexivity|].
  split; [exact (z_nodup_sound _ Hn)|]. split; [apply Nat.eqb_eq, Hl|]. split; [|exact (perm_match_sound _ _ Hp)].
  intros z Hz. rewrite forallb_forall in Hr. apply Hr, andb_prop in Hz. lia.
Qed.
