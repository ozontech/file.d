(* Proofs about Model/FsCrash.v: a protocol accepted by [protocol_safe] keeps the offsets file a complete
   old or new snapshot at every crash point, under every pattern of failing calls. *)
From Verif Require Import Base.Sx Base.GoSem Model.FsCrash Proofs.GoSemFacts.

Lemma good_inode_spec new s :
  good_inode new s = true <-> vol s = new /\ dur s = new /\ ws_failed s = false.
Proof.
  unfold good_inode. rewrite !andb_true_iff, !bytes_eqb_eq, negb_true_iff. tauto.
Qed.

(* the invariant behind [bad]: once cur is re-bound, the inode is exactly the new snapshot, durably *)
Definition inv (new : bytes) (s : fs) : Prop :=
  bad s = false -> cur_new s = true -> vol s = new /\ dur s = new.

Lemma inv_step new s e : inv new s -> inv new (fs_step new s e).
Proof.
  unfold inv, fs_step. intros I.
  destruct e as [op ok n]; cbn [eop eok part]. destruct ok, op; cbn [bad cur_new vol dur]; intros Hb Hc;
    try (apply orb_false_iff in Hb; destruct Hb as [Hb1 Hb2]);
    try (rewrite Hc in *; discriminate);
    try (apply I; assumption).
  - (* sync ok *) destruct (I Hb Hc) as [V _]. split; exact V.
  - (* rename ok *) apply negb_false_iff in Hb2. apply good_inode_spec in Hb2. tauto.
Qed.

Lemma inv_states new : forall evs s, inv new s -> Forall (inv new) (states new s evs).
Proof.
  induction evs as [|e evs IH]; intros s I; cbn [states]; constructor; auto.
  apply IH. apply inv_step. exact I.
Qed.

Lemma inv_fs0 new : inv new fs0.
Proof. unfold inv. cbn. discriminate. Qed.

Lemma in_states_prefix new : forall pre post s, In (fs_run new s pre) (states new s (pre ++ post)).
Proof.
  induction pre as [|e pre IH]; intros post s.
  - cbn [fs_run fold_left app]. destruct post; cbn [states]; left; reflexivity.
  - cbn [app states]. right. apply IH.
Qed.

Lemma in_states_last new evs s : In (fs_run new s evs) (states new s evs).
Proof. rewrite <- (app_nil_r evs) at 2. apply in_states_prefix. Qed.

(* the abstraction relation of the decision procedure: the abstract state [a], on which [acheck] runs, describes the file
   system [s] ([vrel]: what a [vabs] says of the inode's bytes); [inv] above speaks of concrete states alone *)
Definition vrel (new : bytes) (v : vabs) (b : bytes) : Prop :=
  match v with VEmpty => b = [] | VFull => b = new | VOther => True end.

Record R (new : bytes) (s : fs) (a : afs) : Prop := {
  R_open : fd_open s = a_open a;
  R_tmp : tmp_bound s = a_tmp a;
  R_cur : cur_new s = a_cur a;
  R_wsf : ws_failed s = a_wsf a;
  R_vol : vrel new (a_vol a) (vol s);
  R_dur : a_durfull a = true -> dur s = new;
  R_bad : a_bad a = false -> bad s = false
}.

Lemma R0 new : R new fs0 afs0.
Proof. constructor; cbn; auto; discriminate. Qed.

Lemma R_precond new s a op : R new s a -> precond s op = aprecond a op.
Proof. intros [Ho Ht _ _ _ _ _]. destruct op; cbn; congruence. Qed.

Definition dev_ok (d : option nat) : bool := match d with None => true | Some _ => false end.

(* the inode is written to or re-created after the rename *)
Lemma touched_rel (b c ab ac : bool) : c = ac -> (ab = false -> b = false) -> ab || ac = false -> b || c = false.
Proof. intros -> Hb H. apply orb_false_iff in H as [H1 H2]. now rewrite (Hb H1), H2. Qed.

Lemma R_step new s a op d : R new s a -> R new (fs_step new s (mk_ev s op d)) (astep a op (dev_ok d)).
Proof.
  intros HR. pose proof (R_precond new s a op HR) as HP.
  destruct HR as [Ho Ht Hc Hw Hv Hd Hb].
  unfold mk_ev, astep, fs_step.
  destruct d as [n|]; cbn [dev_ok eop eok part andb].
  - (* the device fails the call *)
    destruct op; constructor; cbn; try assumption; try reflexivity; try congruence. now apply touched_rel.
  - rewrite <- HP. destruct (precond s op) eqn:EP.
    + destruct op; constructor; cbn; try assumption; try reflexivity; try congruence; try (now apply touched_rel).
      * (* write: vol *) destruct (a_vol a); cbn in *; [rewrite Hv; reflexivity | exact I | exact I].
      * (* sync: dur *) intros H. destruct (a_vol a); cbn in *; try discriminate. exact Hv.
      * (* rename: bad *) intros H. apply orb_false_iff in H as [H1 H2].
        apply negb_false_iff in H2. apply andb_true_iff in H2 as [H2 H4]. apply andb_true_iff in H2 as [H2 H3].
        rewrite (Hb H1). cbn [orb]. apply negb_false_iff. apply good_inode_spec.
        destruct (a_vol a); cbn in *; try discriminate.
        apply negb_true_iff in H4. split; [exact Hv|]. split; [apply Hd; exact H3 | congruence].
    + (* a call on a closed descriptor / a missing name: for write, vol is unchanged where the abstract state says VOther *)
      destruct op; cbn in EP; try discriminate; constructor; cbn; try assumption; try reflexivity; try congruence.
      now apply touched_rel.
Qed.

Definition not_bad (s : fs) : Prop := bad s = false.

Lemma acheck_cleanup_sound new : forall cl o s a,
  R new s a -> acheck_cleanup cl a = true -> Forall not_bad (states new s (run_cleanup new cl o s)).
Proof.
  induction cl as [|op cl IH]; intros o s a HR HC; cbn [acheck_cleanup] in HC;
    apply andb_true_iff in HC; destruct HC as [HB HC]; apply negb_true_iff in HB.
  - cbn [run_cleanup states]. constructor; [apply (R_bad _ _ _ HR HB) | constructor].
  - cbn [run_cleanup]. destruct (next o) as [d o'] eqn:En. cbn [states].
    constructor; [apply (R_bad _ _ _ HR HB)|].
    apply andb_true_iff in HC. destruct HC as [HC1 HC2].
    pose proof (R_step new s a op d HR) as HR'.
    eapply IH; [exact HR'|]. destruct d; [exact HC2 | exact HC1].
Qed.

Lemma astep_no_precond a op : aprecond a op = false -> astep a op true = astep a op false.
Proof. intros H. unfold astep. rewrite H. reflexivity. Qed.

Lemma acheck_sound new : forall p o s a,
  R new s a -> acheck p a = true -> Forall not_bad (states new s (run_proto new p o s)).
Proof.
  induction p as [|[op h] p IH]; intros o s a HR HC; cbn [acheck] in HC;
    apply andb_true_iff in HC; destruct HC as [HB HC]; apply negb_true_iff in HB.
  - cbn [run_proto states]. constructor; [apply (R_bad _ _ _ HR HB) | constructor].
  - cbn [run_proto]. destruct (next o) as [d o'] eqn:En. cbn [states].
    constructor; [apply (R_bad _ _ _ HR HB)|].
    pose proof (R_step new s a op d HR) as HR'.
    pose proof (R_precond new s a op HR) as HP.
    assert (Hfail : forall a', a' = astep a op false ->
              match h with None => acheck p a' | Some cl => acheck_cleanup cl a' end = true).
    { intros a' ->. destruct (aprecond a op); [apply andb_true_iff in HC; destruct HC as [_ HC]|]; exact HC. }
    destruct d as [n|]; cbn [mk_ev eok dev_ok] in *.
    + (* device failure *)
      specialize (Hfail _ eq_refl). destruct h as [cl|].
      * eapply acheck_cleanup_sound; eassumption.
      * eapply IH; eassumption.
    + rewrite HP in HR' |- *. destruct (aprecond a op) eqn:EP.
      * apply andb_true_iff in HC. destruct HC as [HC _]. eapply IH; eassumption.
      * rewrite (astep_no_precond a op EP) in HR'. specialize (Hfail _ eq_refl). destruct h as [cl|].
        -- eapply acheck_cleanup_sound; eassumption.
        -- eapply IH; eassumption.
Qed.

(* the all-success run *)
Lemma cleanup_ok_R new : forall cl s a, R new s a ->
  R new (fs_run new s (run_cleanup new cl [] s)) (fold_left (fun a op => astep a op true) cl a).
Proof.
  induction cl as [|op cl IH]; intros s a HR; [exact HR|].
  cbn [run_cleanup next fs_run fold_left]. apply IH. apply (R_step new s a op None HR).
Qed.

Lemma afinal_ok_R new : forall p s a, R new s a -> R new (fs_run new s (run_proto new p [] s)) (afinal_ok p a).
Proof.
  induction p as [|[op h] p IH]; intros s a HR; [exact HR|].
  cbn [run_proto next afinal_ok]. pose proof (R_step new s a op None HR) as HR'. cbn [dev_ok] in HR'.
  pose proof (R_precond new s a op HR) as HP. cbn [mk_ev eok] in *. rewrite HP in HR' |- *.
  destruct (aprecond a op) eqn:EP; cbn [fs_run fold_left].
  - apply IH. exact HR'.
  - rewrite (astep_no_precond a op EP) in HR'. destruct h as [cl|].
    + apply cleanup_ok_R. exact HR'.
    + apply IH. exact HR'.
Qed.

(* what [cur] holds — for a reader now, and after a power loss — is the complete old or the complete new
   snapshot *)
Definition state_safe (old new : bytes) (s : fs) : Prop :=
  (reader_sees old s = old \/ reader_sees old s = new) /\
  (forall c, after_crash old s c -> c = old \/ c = new).

Definition crash_safe (p : protocol) : Prop :=
  forall (old new : bytes) (o : oracle),
    let evs := run_proto new p o fs0 in
    (* every crash point, every pattern of failing calls *)
    Forall (state_safe old new) (states new fs0 evs) /\
    (* a rename only ever happens after an un-failed write and fsync made exactly the new snapshot durable *)
    (forall pre e post, evs = pre ++ e :: post -> eop e = OpRename -> eok e = true ->
       let s := fs_run new fs0 pre in ws_failed s = false /\ vol s = new /\ dur s = new) /\
    (* and when no call fails the new snapshot is in place *)
    (o = [] -> reader_sees old (fs_run new fs0 evs) = new).

Lemma cur_new_safe old new s :
  (cur_new s = true -> vol s = new /\ dur s = new) -> state_safe old new s.
Proof.
  unfold state_safe, reader_sees, after_crash. intros I.
  destruct (cur_new s) eqn:EC.
  - destruct (I eq_refl) as [V D]. split; [right; exact V|].
    intros c [Hc|[_ [Hc|Hc]]]; [left; exact Hc | right; congruence | exfalso; congruence].
  - split; [left; reflexivity|]. intros c [Hc|[Hc _]]; [left; exact Hc | discriminate].
Qed.

(* what the decision procedure establishes: at every crash point of every run the ghost flag is down, hence ([inv])
   once cur is re-bound the inode holds exactly the new snapshot, durably *)
Lemma safe_states p new o s :
  acheck p afs0 = true -> In s (states new fs0 (run_proto new p o fs0)) ->
  bad s = false /\ (cur_new s = true -> vol s = new /\ dur s = new).
Proof.
  intros HC Hs.
  pose proof (acheck_sound new p o fs0 afs0 (R0 new) HC) as HNB.
  pose proof (inv_states new (run_proto new p o fs0) fs0 (inv_fs0 new)) as HI.
  rewrite Forall_forall in HNB, HI. split; [exact (HNB s Hs) | exact (HI s Hs (HNB s Hs))].
Qed.

Theorem protocol_safe_sound : forall p, protocol_safe p = true -> crash_safe p.
Proof.
  intros p HP. unfold protocol_safe in HP. apply andb_true_iff in HP. destruct HP as [HC HF].
  intros old new o evs. split; [|split].
  - apply Forall_forall. intros s Hs. apply cur_new_safe. exact (proj2 (safe_states p new o s HC Hs)).
  - intros pre e post E Hop Hok s.
    assert (Hin : In (fs_run new fs0 (pre ++ [e])) (states new fs0 evs)).
    { rewrite E. replace (pre ++ e :: post) with ((pre ++ [e]) ++ post) by (rewrite <- app_assoc; reflexivity).
      apply in_states_prefix. }
    apply (safe_states p new o _ HC) in Hin as [HNB _].
    unfold fs_run in HNB. rewrite fold_left_app in HNB. cbn [fold_left] in HNB. fold (fs_run new fs0 pre) in HNB. fold s in HNB.
    unfold fs_step in HNB. rewrite Hok, Hop in HNB. cbn [bad] in HNB.
    apply orb_false_iff in HNB. destruct HNB as [_ HG]. apply negb_false_iff in HG.
    apply good_inode_spec in HG. tauto.
  - intros ->. subst evs.
    pose proof (afinal_ok_R new p fs0 afs0 (R0 new)) as HR.
    destruct (safe_states p new [] _ HC (in_states_last new (run_proto new p [] fs0) fs0)) as [_ HI].
    unfold reader_sees. rewrite (R_cur _ _ _ HR), HF. apply HI. now rewrite (R_cur _ _ _ HR).
Qed.

(* one unsafe crash point refutes a protocol *)
Lemma crash_unsafe p old new o s :
  In s (states new fs0 (run_proto new p o fs0)) -> ~ state_safe old new s -> ~ crash_safe p.
Proof. intros Hs Hn H. destruct (H old new o) as [H1 _]. rewrite Forall_forall in H1. exact (Hn (H1 s Hs)). Qed.

(* cur re-bound to an inode that was not synced: after a power loss it may hold anything *)
Lemma unsynced_unsafe old new s c :
  cur_new s = true -> vol s <> dur s -> c <> old -> c <> new -> ~ state_safe old new s.
Proof. intros Hc Hv Ho Hn [_ H]. destruct (H c); [right; auto | contradiction | contradiction]. Qed.

(* offsetDB.save: the write fails having transferred nothing, the rename still happens: an empty file
   replaces the good one *)
Lemma legacy_filed_refuted : ~ crash_safe legacy_filed_protocol.
Proof.
  apply (crash_unsafe _ [9%N] [1%N; 2%N] [None; Some 0%nat]
           {| fd_open := false; tmp_bound := false; vol := []; dur := []; cur_new := true; ws_failed := true; bad := true |});
    [vm_compute; tauto|].
  intros [[H|H] _]; discriminate H.
Qed.

(* Offset.Save: every call succeeds, but nothing was fsynced before the rename: after a power loss the
   file may hold anything *)
Lemma legacy_generic_refuted : ~ crash_safe legacy_generic_protocol.
Proof.
  apply (crash_unsafe _ [9%N] [1%N; 2%N] []
           {| fd_open := false; tmp_bound := false; vol := [1%N; 2%N]; dur := []; cur_new := true; ws_failed := false; bad := true |});
    [vm_compute; tauto|].
  apply (unsynced_unsafe _ _ _ [7%N]); (reflexivity || discriminate).
Qed.

(* a protocol that renames BEFORE the fsync (the mutation the check must catch) *)
Definition rename_before_sync_protocol : protocol :=
  [(OpOpen, Some []); (OpWrite, Some [OpRemove; OpClose]); (OpRename, Some [OpClose]);
   (OpSync, Some [OpClose]); (OpClose, None)].
Lemma rename_before_sync_refuted : ~ crash_safe rename_before_sync_protocol.
Proof.
  apply (crash_unsafe _ [9%N] [1%N; 2%N] []
           {| fd_open := true; tmp_bound := false; vol := [1%N; 2%N]; dur := []; cur_new := true; ws_failed := false; bad := true |});
    [vm_compute; tauto|].
  apply (unsynced_unsafe _ _ _ [7%N]); (reflexivity || discriminate).
Qed.

(* observed traces: the executable predicate the harness evaluates means the same thing *)
Lemma trace_safe_sound old new evs :
  trace_safe new evs = true ->
  state_safe old new (fs_run new fs0 evs).
Proof.
  unfold trace_safe. intros H. apply negb_true_iff in H. apply cur_new_safe.
  pose proof (inv_states new evs fs0 (inv_fs0 new)) as HI. rewrite Forall_forall in HI.
  exact (HI _ (in_states_last new evs fs0) H).
Qed.

Lemma bad_sticky new s e : bad s = true -> bad (fs_step new s e) = true.
Proof.
  intros H. unfold fs_step. destruct e as [op ok n]; cbn [eop eok part].
  destruct ok, op; cbn [bad]; rewrite ?H; try reflexivity; exact H.
Qed.

(* [trace_safe] of the whole trace covers every prefix (every crash point) *)
Lemma trace_safe_prefix new pre post : trace_safe new (pre ++ post) = true -> trace_safe new pre = true.
Proof.
  unfold trace_safe, fs_run. rewrite fold_left_app. intros H. apply negb_true_iff in H. apply negb_true_iff.
  destruct (bad (fold_left (fs_step new) pre fs0)) eqn:E; [|reflexivity].
  exfalso. revert H. generalize (fold_left (fs_step new) pre fs0) E. clear.
  induction post as [|e post IH]; intros s E H; cbn [fold_left] in H; [congruence|].
  eapply IH; [|exact H]. apply bad_sticky. exact E.
Qed.

Lemma kill_dir_crash_dir old s tmp : crash_dir old s {| dcur := dcur (kill_dir old s); dtmp := tmp |}.
Proof.
  unfold crash_dir, kill_dir. cbn [dcur]. destruct (cur_new s) eqn:EC; [|left; reflexivity].
  right. split; [reflexivity|]. exists (vol s). split; [reflexivity|].
  destruct (bytes_eqb (vol s) (dur s)) eqn:E.
  - left. apply bytes_eqb_eq. exact E.
  - right. intros H. apply bytes_eqb_eq in H. congruence.
Qed.

(* for a protocol accepted by the decision procedure: at every crash point, under every pattern of failing
   calls, whatever the temp name holds, a loader that reads only the committed file yields the state committed
   before the save (the empty state when there was no offsets file yet) or the complete new one *)
Theorem load_after_crash : forall p, protocol_safe p = true ->
  forall (A : Type) (decode : bytes -> A) (empty : A) (old : option bytes) (new : bytes) (o : oracle),
    Forall (fun s => forall d, crash_dir old s d ->
                       load_dir decode empty d = load_old decode empty old \/ load_dir decode empty d = decode new)
           (states new fs0 (run_proto new p o fs0)).
Proof.
  intros p HP A decode empty old new o. unfold protocol_safe in HP. apply andb_true_iff in HP. destruct HP as [HC _].
  apply Forall_forall. intros s Hs d Hd. destruct (safe_states p new o s HC Hs) as [HB HI].
  unfold load_dir, load_old. destruct Hd as [Hd | [Hc [c [Hd Hcd]]]]; rewrite Hd; [now left | right].
  destruct (HI Hc) as [V D]. destruct Hcd as [Hcd|Hcd]; [congruence | exfalso; congruence].
Qed.

Lemma before_op_prefix op : forall l, exists post, l = before_op op l ++ post.
Proof.
  induction l as [|e l [post IH]]; [exists []; reflexivity|]. cbn [before_op].
  destruct (fsop_eqb (eop e) op); [exists (e :: l); reflexivity|].
  exists post. cbn [app]. rewrite <- IH. reflexivity.
Qed.

Lemma crash_evs_prefix p new cp :
  exists post, run_proto new p (crash_oracle p new cp) fs0 = crash_evs p new cp ++ post.
Proof.
  destruct cp as [|cut| |]; unfold crash_evs; cbv zeta.
  - eexists. reflexivity.
  - eexists. symmetry. apply firstn_skipn.
  - cbn [crash_oracle]. apply before_op_prefix.
  - cbn [crash_oracle]. exists []. rewrite app_nil_r. reflexivity.
Qed.

Lemma crash_state_in_states p new cp :
  In (crash_state p new cp) (states new fs0 (run_proto new p (crash_oracle p new cp) fs0)).
Proof.
  destruct (crash_evs_prefix p new cp) as [post E]. rewrite E. apply in_states_prefix.
Qed.

(* ... in particular at the crash points the harness realises on the real code, with anything under the temp name *)
Theorem crash_point_recovery : forall p, protocol_safe p = true ->
  forall (A : Type) (decode : bytes -> A) (empty : A) (old : option bytes) (new : bytes) (cp : crashpt) (tmp : option bytes),
    let d := {| dcur := dcur (kill_dir old (crash_state p new cp)); dtmp := tmp |} in
    load_dir decode empty d = load_old decode empty old \/ load_dir decode empty d = decode new.
Proof.
  intros p HP A decode empty old new cp tmp d.
  pose proof (load_after_crash p HP A decode empty old new (crash_oracle p new cp)) as H.
  rewrite Forall_forall in H. apply (H _ (crash_state_in_states p new cp)). apply kill_dir_crash_dir.
Qed.

(* a loader that falls back to the temp file when the offsets file is missing: the very first save is killed
   after one byte of the two-byte snapshot reached the temp file; the restart loads that byte *)
Lemma fallback_load_refuted :
  protocol_safe tmp_sync_rename_protocol = true /\
  exists (new : bytes) (cp : crashpt),
    let d := kill_dir None (crash_state tmp_sync_rename_protocol new cp) in
    load_dir_fallback (@Some bytes) None d <> load_old (@Some bytes) None None /\
    load_dir_fallback (@Some bytes) None d <> Some new /\
    load_dir (@Some bytes) None d = None.
Proof.
  split; [reflexivity|]. exists [1%N; 2%N], (CWrite 1). cbv zeta.
  assert (E : kill_dir None (crash_state tmp_sync_rename_protocol [1%N; 2%N] (CWrite 1)) = {| dcur := None; dtmp := Some [1%N] |})
    by (vm_compute; reflexivity).
  rewrite E. cbn. repeat split; discriminate.
Qed.

Lemma load_old_id (old : option bytes) : load_old (@Some bytes) None old = old.
Proof. destruct old; reflexivity. Qed.

(* the raw loader (Offset.Load hands the file's bytes to the callback): the value IS the byte string *)
Theorem load_after_crash_raw : forall p, protocol_safe p = true ->
  forall (old : option bytes) (new : bytes) (o : oracle),
    Forall (fun s => forall d, crash_dir old s d ->
                       load_dir (@Some bytes) None d = old \/ load_dir (@Some bytes) None d = Some new)
           (states new fs0 (run_proto new p o fs0)).
Proof.
  intros p HP old new o. pose proof (load_after_crash p HP (option bytes) (@Some bytes) None old new o) as H.
  rewrite load_old_id in H. exact H.
Qed.
