(* C14 — action selection follows the documented boolean semantics.
   Only statements, each closed by [exact]; proofs live in Proofs/DoIf.v, Proofs/DoIfData.v,
   Proofs/DoIfChain.v and Proofs/MatchFields.v.
   External behaviour is universally quantified: [lower] (bytes.ToLower), [re_match] (Go regexp),
   [any] (bytes.ContainsAny), [ptime] (xtime.ParseTime), [aint] (insane-json AsInt), [re_ok]
   (regexp.Compile succeeds). The c14_config_* theorems are about fd/util.go extractConditions (a value of the
   match_fields map as a JSON tree -> the condition handed to isMatch). *)
From Verif Require Import Base.Sx Base.GoSem Base.Json Model.DoIf Model.MatchFields Proofs.DoIf Proofs.MatchFields
  Proofs.DoIfData Proofs.DoIfChain.
From Coq Require Import Permutation.

(* do_if: for every rule tree the constructors accept (any depth, any width, every operator) and
   every event, the decision computed WITH the code's short-cuts (length buckets, minimum-length
   exit, truncation to maxValLen before lower-casing, de-duplicated type lists, short-circuit
   and/or, byte-size arithmetic) is the documented one — provided lower-casing keeps byte lengths
   and commutes with the truncation on the strings of this rule and event, and no array/object
   field is accepted through the placeholder byte eventData.Get substitutes for it. *)
Theorem c14_check_eq_eval :
  forall lower re_match any ptime aint re_ok n e now,
    wfb re_ok n = true ->
    lower_hyp lower n e = true ->
    cont_ok lower re_match any n e = true ->
    check lower re_match any ptime aint n e now = eval lower re_match any ptime aint n e now.
Proof. exact check_eq_eval. Qed.
Print Assumptions c14_check_eq_eval.

(* the lower-casing side condition holds for every rule and event when lower-casing is byte-wise *)
Theorem c14_check_eq_eval_bytewise_lower :
  forall lower re_match any ptime aint re_ok,
    (forall x, length (lower x) = length x) ->
    (forall k x, lower (firstn k x) = firstn k (lower x)) ->
    (forall k x, lower (skipn k x) = skipn k (lower x)) ->
    forall n e now,
      wfb re_ok n = true -> cont_ok lower re_match any n e = true ->
      check lower re_match any ptime aint n e now = eval lower re_match any ptime aint n e now.
Proof. exact check_eq_eval_global. Qed.
Print Assumptions c14_check_eq_eval_bytewise_lower.

(* ... in particular for ASCII lower-casing (what bytes.ToLower does on ASCII text) *)
Theorem c14_check_eq_eval_ascii :
  forall re_match any ptime aint re_ok n e now,
    wfb re_ok n = true -> cont_ok ascii_lower re_match any n e = true ->
    check ascii_lower re_match any ptime aint n e now = eval ascii_lower re_match any ptime aint n e now.
Proof. exact check_eq_eval_ascii. Qed.
Print Assumptions c14_check_eq_eval_ascii.

(* the Unicode clause is FALSE of the faithful model: with a lower-casing that, like
   bytes.ToLower, maps KELVIN SIGN (3 bytes) to "k" (1 byte), case-insensitive [equal] value K
   does not match field "k" (minValLen is taken before lower-casing) ... *)
Theorem c14_doif_unicode_refuted :
  exists lower n e,
    wfb all_ok n = true /\ cont_ok lower no_re no_re n e = true
    /\ check lower no_re no_re no_time no_int n e 0 = false
    /\ eval lower no_re no_re no_time no_int n e 0 = true.
Proof. exists fold_lower. eexists. eexists. exact unicode_refuted_equal_value. Qed.
Print Assumptions c14_doif_unicode_refuted.

(* ... nor value "k" the field K (the length bucket is chosen before lower-casing) ... *)
Theorem c14_doif_unicode_refuted_field :
  exists lower n e,
    wfb all_ok n = true /\ cont_ok lower no_re no_re n e = true
    /\ check lower no_re no_re no_time no_int n e 0 = false
    /\ eval lower no_re no_re no_time no_int n e 0 = true.
Proof. exists fold_lower. eexists. eexists. exact unicode_refuted_equal_field. Qed.
Print Assumptions c14_doif_unicode_refuted_field.

(* ... and [suffix] value "İ" (lower-cased to 3 bytes) is not found at the end of "xi̇" because only
   the last maxValLen = 2 bytes of the field are looked at *)
Theorem c14_doif_unicode_refuted_suffix :
  exists lower n e,
    wfb all_ok n = true /\ cont_ok lower no_re no_re n e = true
    /\ check lower no_re no_re no_time no_int n e 0 = false
    /\ eval lower no_re no_re no_time no_int n e 0 = true.
Proof. exists fold_lower. eexists. eexists. exact unicode_refuted_suffix. Qed.
Print Assumptions c14_doif_unicode_refuted_suffix.

(* "array and object values are considered as not matched" is FALSE of the faithful model: an object
   is matched by [contains] with an empty value (the placeholder byte contains the empty needle) *)
Theorem c14_doif_container_refuted :
  exists n e,
    wfb all_ok n = true /\ lower_hyp ascii_lower n e = true
    /\ check ascii_lower no_re no_re no_time no_int n e 0 = true
    /\ eval ascii_lower no_re no_re no_time no_int n e 0 = false.
Proof. eexists. eexists. exact container_refuted. Qed.
Print Assumptions c14_doif_container_refuted.

(* byte_len_cmp on an array/object (as repaired): the computed size is the length of the compact
   JSON text, for every value (strings and keys without escape sequences) *)
Theorem c14_byte_size_spec : forall j, byte_size j = len (encode j).
Proof. exact byte_size_spec. Qed.
Print Assumptions c14_byte_size_spec.

(* the decision does not depend on the order of operands ... *)
Theorem c14_and_operand_order :
  forall lower re_match any ptime aint ops ops' e now,
    Permutation ops ops' ->
    check lower re_match any ptime aint (NAnd ops) e now = check lower re_match any ptime aint (NAnd ops') e now.
Proof. exact check_and_perm. Qed.
Print Assumptions c14_and_operand_order.

Theorem c14_or_operand_order :
  forall lower re_match any ptime aint ops ops' e now,
    Permutation ops ops' ->
    check lower re_match any ptime aint (NOr ops) e now = check lower re_match any ptime aint (NOr ops') e now.
Proof. exact check_or_perm. Qed.
Print Assumptions c14_or_operand_order.

(* ... nor on the order of the values of a field operation (buckets, minValLen, maxValLen) *)
Theorem c14_value_order :
  forall lower re_match any ptime aint op path cs v0 vr w0 wr e now,
    op <> FContainsAny -> Permutation (v0 :: vr) (w0 :: wr) ->
    check lower re_match any ptime aint (NField op path cs v0 vr) e now
    = check lower re_match any ptime aint (NField op path cs w0 wr) e now.
Proof. exact check_values_perm. Qed.
Print Assumptions c14_value_order.

(* ... nor on the events checked before or after (the clock of ts_cmp "now" is an explicit input) *)
Theorem c14_check_pure :
  forall lower re_match any ptime aint n pre post e now,
    nth_error (decisions lower re_match any ptime aint n (pre ++ (e, now) :: post)) (length pre)
    = Some (check lower re_match any ptime aint n e now).
Proof. exact check_pure. Qed.
Print Assumptions c14_check_pure.

(* match_fields (isMatchAnd as repaired): and / or / and_prefix / or_prefix over exact, prefix and
   regexp conditions with optional inversion, for every condition list and event *)
Theorem c14_match_fields_spec :
  forall re_match mode invert conds e,
    is_match re_match mode invert conds e = match_spec re_match mode invert conds e.
Proof. exact match_fields_spec. Qed.
Print Assumptions c14_match_fields_spec.

(* extractConditions ranges over a Go map: any order of the conditions gives the same decision *)
Theorem c14_match_fields_order :
  forall re_match mode invert conds conds' e,
    Permutation conds conds' ->
    is_match re_match mode invert conds e = is_match re_match mode invert conds' e.
Proof. exact match_fields_perm. Qed.
Print Assumptions c14_match_fields_order.

(* ---- one rule shared by all processors of a pipeline (Pipeline.newProc: one *ActionPluginStaticInfo) --------- *)
(* evaluating a selector reads the rule: after any sequence of evaluations - any interleaving of the evaluations of
   any number of processors is such a sequence - the rule is the configured one (values in order, regexps) *)
Theorem c14_shared_rule_unchanged :
  forall re_match mode invert rule es,
    snd (shared_run re_match mode invert rule es) = rule.
Proof. exact shared_rule_unchanged. Qed.
Print Assumptions c14_shared_rule_unchanged.

(* history independence, the theorem the concurrent family of the harness relies on: the decision for an event is
   the documented one for (rule as configured, event), whatever was evaluated before or after it *)
Theorem c14_shared_history_independent :
  forall re_match mode invert rule pre e post,
    nth_error (fst (shared_run re_match mode invert rule (pre ++ e :: post))) (length pre)
    = Some (match_spec re_match mode invert rule e).
Proof. exact shared_history_independent. Qed.
Print Assumptions c14_shared_history_independent.

(* the predicate an observed run over a shared rule is judged by holds of the model's run ... *)
Theorem c14_shared_run_ok :
  forall re_match mode invert rule es,
    shared_ok re_match mode invert rule es (fst (shared_run re_match mode invert rule es))
              (snd (shared_run re_match mode invert rule es)) = true.
Proof. exact shared_run_ok. Qed.
Print Assumptions c14_shared_run_ok.

(* ... and says: the rule read back is the configured one and every decision is the documented one *)
Theorem c14_shared_ok_sound :
  forall re_match mode invert rule es decisions rule_after,
    shared_ok re_match mode invert rule es decisions rule_after = true ->
    rule_after = rule /\ decisions = map (match_spec re_match mode invert rule) es.
Proof. exact shared_ok_sound. Qed.
Print Assumptions c14_shared_ok_sound.

(* ---- match_fields as written in a configuration: fd/util.go extractConditions ----------------- *)
(* a value of the match_fields map is a JSON tree; [re_ok] = regexp.Compile succeeds. The translation as coded
   (first byte a slash -> cfg.CompileRegex, else one exact value; list -> its strings; anything else refused) is
   the documented kind of test for EVERY value *)
Theorem c14_config_value_documented :
  forall re_ok v, extract_value re_ok v = doc_kind re_ok v.
Proof. exact extract_value_documented. Qed.
Print Assumptions c14_config_value_documented.

(* a list is ALWAYS the list of its strings taken as exact values (prefixes in the *_prefix modes), whatever its
   length (0, 1, 2, ...) and whatever the strings look like ("/x/", "/var/log/", ".*") ... *)
Theorem c14_config_list_exact :
  forall re_ok vs, extract_value re_ok (JArr (map JStr vs)) = CExact vs.
Proof. exact extract_list_exact. Qed.
Print Assumptions c14_config_list_exact.

(* ... and never a regular expression *)
Theorem c14_config_list_never_regexp :
  forall re_ok l p, extract_value re_ok (JArr l) <> CRegexp p.
Proof. exact extract_list_never_regexp. Qed.
Print Assumptions c14_config_list_never_regexp.

(* ONLY a scalar string delimited by slashes whose inner part compiles is a regular expression (of that inner part) *)
Theorem c14_config_regexp_iff :
  forall re_ok v p,
    extract_value re_ok v = CRegexp p <-> v = JStr (47%N :: p ++ [47%N]) /\ re_ok p = true.
Proof. exact extract_regexp_iff. Qed.
Print Assumptions c14_config_regexp_iff.

(* every scalar string that does not start with a slash is one exact value, itself (blanks, dots, stars and all) *)
Theorem c14_config_scalar_plain :
  forall re_ok s, starts_with_slash s = false -> extract_value re_ok (JStr s) = CExact [s].
Proof. exact extract_scalar_plain. Qed.
Print Assumptions c14_config_scalar_plain.

(* refused: exactly what is neither a list of strings, nor a string without a leading slash, nor a /regexp/ that
   compiles (numbers, booleans, null, objects, nested lists, "/unterminated", "/", "/(/") *)
Theorem c14_config_refused_iff :
  forall re_ok v, extract_value re_ok v = CRefused <-> cfg_accepted re_ok v = false.
Proof. exact extract_refused_iff. Qed.
Print Assumptions c14_config_refused_iff.

(* END TO END: whenever the reader accepts a match_fields map, the decision processor.isMatch takes with the
   conditions the reader built is the documented meaning of the map AS WRITTEN (cfg_spec reads the JSON values
   directly: list = exact values / prefixes, /.../ = regexp, other string = itself; all / one of the fields;
   inversion), for every map, mode, inversion and event *)
Theorem c14_config_match_spec :
  forall re_match re_ok mode invert cfg conds e,
    extract_conds re_ok cfg = Some conds ->
    is_match re_match mode invert conds e = cfg_spec re_match mode invert cfg e.
Proof. exact config_match_spec. Qed.
Print Assumptions c14_config_match_spec.

(* a map whose values are all lists is decided without the regexp engine, whatever the strings inside look like *)
Theorem c14_config_lists_ignore_regexp :
  forall re1 re2 re_ok mode invert cfg conds e,
    (forall pv, In pv cfg -> exists l, snd pv = JArr l) ->
    extract_conds re_ok cfg = Some conds ->
    is_match re1 mode invert conds e = is_match re2 mode invert conds e.
Proof. exact config_lists_ignore_regexp. Qed.
Print Assumptions c14_config_lists_ignore_regexp.

(* ---- the second caller of a checker: antispam rules (pipeline/antispam) ----------------------- *)
(* the data is (record bytes, source name, meta map); field operations over  event | source_name |
   meta.<key>  and and / or / not are supported, every other path is absent and the length /
   timestamp / type leaves never hold (antispam/README.md). For every rule tree the constructors
   accept and every datum the decision computed with the short-cuts is the documented one. *)
Theorem c14_antispam_check_eq_eval :
  forall lower re_match any re_ok n d,
    wfb re_ok n = true ->
    lower_hyp_as lower n d = true ->
    check_as lower re_match any n d = eval_as lower re_match any n d.
Proof. exact check_as_eq_eval_as. Qed.
Print Assumptions c14_antispam_check_eq_eval.

(* a rule built of field operations over the three documented paths decides an antispam datum exactly
   as it decides the event  {"event": ..., "source_name": ..., "meta": {...}} : one semantics, two callers *)
Theorem c14_antispam_is_check_on_tree :
  forall lower re_match any ptime aint n d now,
    documented_paths n = true ->
    check_as lower re_match any n d = check lower re_match any ptime aint n (as_tree d) now.
Proof. exact check_as_is_check_on_tree. Qed.
Print Assumptions c14_antispam_is_check_on_tree.

(* ---- action chains: processor.doActions over the actions of a pipeline ------------------------ *)
(* which actions every event of a stream enters and which events reach the output — through pass /
   break / discard / collapse results and busy actions — is the same whether every selector is
   computed with the code's short-cuts or read as documented *)
Theorem c14_chain_check_eq_eval :
  forall lower re_match any ptime aint re_ok acts sts (evs : list (json * Z)),
    (forall e, In e evs -> chain_ok lower re_match any re_ok acts (fst e)) ->
    chain_run (fun e n => check lower re_match any ptime aint n (fst e) (snd e)) acts sts evs
    = chain_run (fun e n => eval lower re_match any ptime aint n (fst e) (snd e)) acts sts evs.
Proof. exact chain_check_eq_eval. Qed.
Print Assumptions c14_chain_check_eq_eval.

(* whether action i is applied to an event is exactly: the event got as far as action i (every earlier
   action it entered passed it on) and the selector of action i holds — for every chain, every
   position and every decision function, whenever no action is in the middle of a sequence *)
Theorem c14_chain_entered_exact :
  forall dec acts sts i a s,
    length sts = length acts ->
    forallb (fun s => negb (cs_busy s)) sts = true ->
    nth_error acts i = Some a -> nth_error sts i = Some s ->
    nth_error (fst (fst (chain_step dec acts sts))) i
    = Some (sel_dec dec a && forallb (gets_past dec) (firstn i (combine acts (results_of acts sts)))).
Proof. exact (fun dec acts sts i a s _ => chain_entered_exact dec acts sts i a s). Qed.
Print Assumptions c14_chain_entered_exact.

(* the one exception, as coded (the join protocol): an action that answered `collapse` is entered by
   the next event of the stream that reaches it whatever its selector says *)
Theorem c14_chain_busy_entered :
  forall dec a ar s sr,
    cs_busy s = true -> hd_error (fst (fst (chain_step dec (a :: ar) (s :: sr)))) = Some true.
Proof. exact chain_busy_entered. Qed.
Print Assumptions c14_chain_busy_entered.

(* non-vacuity: a depth-3 tree over a nested event meets wfb / lower_hyp / cont_ok and is decided
   "true" through a truncated case-insensitive prefix, a length bucket, a de-duplicated type list and
   the size of a nested object; the README example of match_mode "and" with a regexp is discarded *)
Definition ex_tree : node :=
  NAnd [ NOr [ NField FEqual [[97]%N] true (Some [120; 121]%N) [Some [122]%N; None];
               NField FPrefix [[98]%N; [99]%N] false (Some [72; 69]%N) [Some [119; 111; 114]%N] ];
         NNot (NType [[97]%N] [TObj; TArr; TObj]);
         NLen LByte [[98]%N] CEq 13 ].
Definition ex_event : json :=
  JObj [([97]%N, JStr [113]%N); ([98]%N, JObj [([99]%N, JStr [104; 101; 108; 108; 111]%N)])].
Example c14_check_eq_eval_nonvacuous :
  wfb all_ok ex_tree = true /\ lower_hyp ascii_lower ex_tree ex_event = true
  /\ cont_ok ascii_lower no_re no_re ex_tree ex_event = true
  /\ check ascii_lower no_re no_re no_time no_int ex_tree ex_event 0 = true
  /\ eval ascii_lower no_re no_re no_time no_int ex_tree ex_event 0 = true.
Proof. vm_compute. repeat split. Qed.

Definition ex_re (p s : bytes) : bool := has_prefix s p.      (* stands for /^payment-api.*/ *)
Definition ex_conds : list cond :=
  [ {| c_field := [[110]%N]; c_values := [[112]%N; [116]%N]; c_regexp := None |};
    {| c_field := [[112]%N]; c_values := []; c_regexp := Some [112; 45]%N |} ].
Definition ex_legacy_event : json := JObj [([110]%N, JStr [112]%N); ([112]%N, JStr [112; 45; 97]%N)].
Example c14_match_fields_nonvacuous :
  is_match ex_re MAnd false ex_conds ex_legacy_event = true
  /\ is_match ex_re MAndPrefix true ex_conds ex_legacy_event = false
  /\ is_match ex_re MOr false ex_conds (JObj [([110]%N, JStr [120]%N)]) = false.
Proof. vm_compute. repeat split. Qed.

(* a shared rule over events that match different non-first values: all selected, rule unchanged; a run that lost a
   value of the rule is rejected by the predicate *)
Example c14_shared_nonvacuous :
  shared_run ex_re MOr false ex_conds
             [JObj [([110]%N, JStr [116]%N)]; JObj [([110]%N, JStr [112]%N)]; JObj [([110]%N, JStr [120]%N)]]
  = ([true; true; false], ex_conds)
  /\ shared_ok ex_re MOr false ex_conds [JObj [([110]%N, JStr [116]%N)]] [true]
               [ {| c_field := [[110]%N]; c_values := [[116]%N; [116]%N]; c_regexp := None |};
                 {| c_field := [[112]%N]; c_values := []; c_regexp := Some [112; 45]%N |} ] = false.
Proof. vm_compute. split; reflexivity. Qed.

(* the README rule `custom_threshold` (pipeline/README.md, Antispam) on a matching and a non-matching datum;
   a length leaf never holds on antispam data *)
Definition ex_as_rule : node :=
  NAnd [ NField FContains [b_meta; [115]%N] true (Some [116; 115]%N) [];
         NField FPrefix [b_event] false (Some [123; 34; 76]%N) [] ].
Definition ex_as_datum (ev : bytes) : asdata :=
  {| as_event := ev; as_source := [120]%N; as_meta := [([115]%N, [109; 116; 115]%N)] |}.
Example c14_antispam_nonvacuous :
  wfb all_ok ex_as_rule = true /\ documented_paths ex_as_rule = true
  /\ lower_hyp_as ascii_lower ex_as_rule (ex_as_datum [123; 34; 108; 34]%N) = true
  /\ check_as ascii_lower no_re no_re ex_as_rule (ex_as_datum [123; 34; 108; 34]%N) = true
  /\ eval_as ascii_lower no_re no_re ex_as_rule (ex_as_datum [123; 34; 108; 34]%N) = true
  /\ check_as ascii_lower no_re no_re ex_as_rule (ex_as_datum [123; 120]%N) = false
  /\ check_as ascii_lower no_re no_re (NLen LByte [b_event] CGe 0) (ex_as_datum [123]%N) = false.
Proof. vm_compute. repeat split. Qed.

(* a join-like chain: action 0 is selected by the first line only and collapses it and the next line it
   is handed while busy; action 1 has no selector; the second event does not satisfy the selector of
   action 0 and is entered all the same *)
Definition ex_first : node := NField FEqual [[108]%N] true (Some [101]%N) [].
Definition ex_chain : list cact :=
  [ {| ca_sel := Some ex_first; ca_script := [RCollapse; RCollapse; RPass] |}; {| ca_sel := None; ca_script := [RPass] |} ].
Definition ex_line (l : bytes) : json := JObj [([108]%N, JStr l)].
Example c14_chain_nonvacuous :
  chain_run (fun e n => check ascii_lower no_re no_re no_time no_int n e 0) ex_chain (cst_init ex_chain)
            [ex_line [105]%N; ex_line [101]%N; ex_line []; ex_line [105]%N; ex_line [105]%N]
  = [([false; true], true); ([true; false], false); ([true; false], false); ([true; true], true); ([false; true], true)].
Proof. vm_compute. reflexivity. Qed.

(* match_fields as written: `p: ["/x/"]` (a list of ONE string between slashes) is the exact value "/x/" and not the
   regexp x; `p: /x/` is the regexp; `p: ["/var"]` is accepted, `p: /var` and `p: 5` are refused *)
Definition ex_sl_x : bytes := [47; 120; 47]%N.
Definition ex_re_contains (p s : bytes) : bool := contains s p.          (* stands for an unanchored literal pattern *)
Definition ex_cfg (v : json) : list (list bytes * json) := [([[112]%N], v)].
Definition ex_cfg_event (s : bytes) : json := JObj [([112]%N, JStr s)].
Example c14_config_nonvacuous :
  extract_conds all_ok (ex_cfg (JArr [JStr ex_sl_x]))
  = Some [ {| c_field := [[112]%N]; c_values := [ex_sl_x]; c_regexp := None |} ]
  /\ extract_conds all_ok (ex_cfg (JStr ex_sl_x))
     = Some [ {| c_field := [[112]%N]; c_values := []; c_regexp := Some [120]%N |} ]
  /\ cfg_spec ex_re_contains MAnd false (ex_cfg (JArr [JStr ex_sl_x])) (ex_cfg_event [97; 120; 98]%N) = false
  /\ cfg_spec ex_re_contains MAnd false (ex_cfg (JArr [JStr ex_sl_x])) (ex_cfg_event ex_sl_x) = true
  /\ cfg_spec ex_re_contains MAnd false (ex_cfg (JStr ex_sl_x)) (ex_cfg_event [97; 120; 98]%N) = true
  /\ cfg_spec ex_re_contains MOrPrefix true (ex_cfg (JArr [JStr ex_sl_x])) (ex_cfg_event [47; 120; 47; 121]%N) = false
  /\ isSome (extract_conds all_ok (ex_cfg (JArr [JStr [47; 118]%N]))) = true
  /\ extract_conds all_ok (ex_cfg (JStr [47; 118]%N)) = None
  /\ extract_conds all_ok (ex_cfg (JNum [53]%N)) = None
  /\ extract_conds all_ok (ex_cfg (JArr [JArr [JStr [97]%N]])) = None.
Proof. vm_compute. repeat split. Qed.
