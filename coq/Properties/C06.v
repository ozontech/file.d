(* C06 — file reader emits each complete line once with its end-of-line offset.
   Only statements, each closed by [exact]; proofs live in Proofs/Worker.v.

   Vocabulary (Model/Worker.v):
     rounds c st rs   the worker model run for successive job passes; [rs : list (list bytes)] gives,
                      for every pass, the byte strings returned by its successive Read calls — ANY
                      split (any sizes, empty reads included) of what was appended since the last pass;
     flat rs          all those bytes in order = the file content from the start offset on;
     split_lines b    (complete lines of b, each with its newline; unterminated remainder);
     with_off o ls    each line paired with the offset just after its newline, o = offset of ls's first byte;
     st_at o sk       job state {curOffset = o; tail = []; shouldSkip = sk};
     nolimit          max_event_size = 0.                                                              *)
From Verif Require Import Base.Sx Base.GoSem Model.Worker Proofs.Worker Proofs.WorkerMaint Proofs.WorkerStreams.

(* --- the specification functions mean what their names say --------------------------------- *)
Theorem c06_split_lines_is_the_line_split :
  forall b, b = concat (fst (split_lines b)) ++ snd (split_lines b)
            /\ Forall is_line (fst (split_lines b)) /\ noNL (snd (split_lines b)).
Proof. exact split_lines_spec. Qed.
Print Assumptions c06_split_lines_is_the_line_split.

Theorem c06_line_split_unique :
  forall ls t, Forall is_line ls -> noNL t -> split_lines (concat ls ++ t) = (ls, t).
Proof. exact split_lines_of_lines. Qed.
Print Assumptions c06_line_split_unique.

Theorem c06_offset_is_end_of_line :
  forall ls base o l, In (o, l) (with_off base ls) ->
    exists before after, ls = before ++ l :: after /\ o = base + len (concat before) + len l.
Proof. exact with_off_sound. Qed.
Print Assumptions c06_offset_is_end_of_line.

(* --- no size limit: for every content, every append schedule, every split into reads, every
   start offset: exactly the complete lines, in order, once, each with its end offset; the saved
   tail is the unterminated remainder; curOffset = bytes consumed ------------------------------ *)
Theorem c06_worker_offsets_exact :
  forall o rs, let b := flat rs in
  rounds nolimit (st_at o false) rs =
  (with_off o (fst (split_lines b)), {| cur := o + len b; tail := snd (split_lines b); skip := false |}).
Proof. exact worker_offsets_exact. Qed.
Print Assumptions c06_worker_offsets_exact.

(* --- resume: a reader started at a line boundary [len pre] of the file pre ++ b delivers exactly
   the rest of the whole-file list (same data, same offsets) ------------------------------------ *)
Theorem c06_worker_resume :
  forall pre rs, snd (split_lines pre) = [] ->
  let b := flat rs in
  with_off 0 (fst (split_lines (pre ++ b))) =
  with_off 0 (fst (split_lines pre)) ++ fst (rounds nolimit (st_at (len pre) false) rs).
Proof. exact worker_resume. Qed.
Print Assumptions c06_worker_resume.

(* --- an unterminated tail is held back (not in E1, kept in job.tail) until later passes complete it *)
Theorem c06_worker_tail_held_back_until_completed :
  forall o rs1 rs2,
  let b1 := flat rs1 in let b2 := flat rs2 in
  let t1 := snd (split_lines b1) in
  let '(E1, st1) := rounds nolimit (st_at o false) rs1 in
  E1 = with_off o (fst (split_lines b1)) /\ tail st1 = t1 /\
  fst (rounds nolimit st1 rs2) = with_off (o + len b1 - len t1) (fst (split_lines (t1 ++ b2))) /\
  fst (rounds nolimit (st_at o false) (rs1 ++ rs2)) = E1 ++ fst (rounds nolimit st1 rs2).
Proof. exact worker_tail_completed. Qed.
Print Assumptions c06_worker_tail_held_back_until_completed.

(* --- max_event_size > 0, cut_off = false: exactly the lines whose length (newline included) exceeds
   max are missing; all others keep data and offsets. The saved tail is the true remainder or, once
   over the limit, a frozen prefix-length stand-in (it can only lead to the skip of that line) ------ *)
Theorem c06_worker_size_skip :
  forall c o rs, 0 < wmax c -> wcut c = false ->
  let b := flat rs in
  let '(E, st') := rounds c (st_at o false) rs in
  E = filter (fun e => len (snd e) <=? wmax c) (with_off o (fst (split_lines b)))
  /\ cur st' = o + len b /\ skip st' = false
  /\ (tail st' = snd (split_lines b)
      \/ (wmax c < len (tail st') /\ len (tail st') <= len (snd (split_lines b)))).
Proof. exact worker_size_skip. Qed.
Print Assumptions c06_worker_size_skip.

(* --- cut_off = true, worker composed with Pipeline.checkInputBytes: every line is admitted with its
   own offset exactly as checkInputBytes admits the true line (see c06_check_input_line: a line longer
   than max becomes its first max bytes + newline, flagged) --------------------------------------- *)
Theorem c06_worker_size_cut :
  forall c o rs, 0 < wmax c -> wcut c = true ->
  let b := flat rs in
  let '(E, st') := rounds c (st_at o false) rs in
  checked c E = checked c (with_off o (fst (split_lines b)))
  /\ Forall2 (emitR c) E (with_off o (fst (split_lines b)))
  /\ cur st' = o + len b /\ skip st' = false.
Proof. exact worker_size_cut. Qed.
Print Assumptions c06_worker_size_cut.

Theorem c06_check_input_line :
  forall c l0, 0 <= wmax c ->
  check_input c (l0 ++ [NL]) =
  match l0 with
  | [] => ([NL], false, false)
  | _ :: _ =>
      if check_max c && (len l0 + 1 >? wmax c) then
        if wcut c then (firstn (M c) (l0 ++ [NL]) ++ [NL], true, true)
        else (l0 ++ [NL], false, false)
      else (l0 ++ [NL], false, true)
  end.
Proof. exact (fun c l0 _ => check_input_line c l0). Qed.
Print Assumptions c06_check_input_line.

(* --- tail mode (job.shouldSkip): exactly the first line is dropped ------------------------------ *)
Theorem c06_worker_skip_first :
  forall o rs, let b := flat rs in
  rounds nolimit (st_at o true) rs =
  (tl (with_off o (fst (split_lines b))),
   {| cur := o + len b; tail := snd (split_lines b); skip := negb (has_line b) |}).
Proof. exact worker_skip_first. Qed.
Print Assumptions c06_worker_skip_first.

(* offsets_op = tail on an existing file pre ++ [x] (the reader re-reads the last byte x and skips one
   line): if x is a newline every line appended afterwards is delivered with its file offset *)
Theorem c06_worker_tail_mode :
  forall pre x rs, let b := flat rs in
  let '(E, _) := match rs with
                 | [] => rounds nolimit (st_at (len (pre ++ [x]) - 1) true) []
                 | r :: rs' => rounds nolimit (st_at (len (pre ++ [x]) - 1) true) (([x] :: r) :: rs')
                 end in
  E = if N.eqb x NL then with_off (len (pre ++ [x])) (fst (split_lines b))
      else tl (with_off (len (pre ++ [x]) - 1) (fst (split_lines (x :: b)))).
Proof. exact worker_tail_mode. Qed.
Print Assumptions c06_worker_tail_mode.

(* --- all configurations at once (size rule, cut-off, first-line skip, any start offset) ---------- *)
Theorem c06_worker_general :
  forall c o sk0 rs, 0 <= wmax c ->
  let b := flat rs in
  let '(E, st') := rounds c (st_at o sk0) rs in
  Forall2 (emitR c) E (spec_emits c sk0 o b)
  /\ cur st' = o + len b
  /\ skip st' = sk0 && negb (has_line b)
  /\ accR c (snd (split_lines b)) (tail st').
Proof. exact worker_general. Qed.
Print Assumptions c06_worker_general.

(* the executable predicate evaluated by the correspondence check is true of every model run *)
Theorem c06_pred_holds_on_model :
  forall c o sk0 rs, 0 <= wmax c ->
  let b := flat rs in
  let '(E, st') := rounds c (st_at o sk0) rs in
  forall2b (emit_okb c) (map (fun e => (e, None)) E) (spec_emits c sk0 o b) = true
  /\ tail_relb c (tail st') (snd (split_lines b)) = true.
Proof. exact worker_pred_holds. Qed.
Print Assumptions c06_pred_holds_on_model.

(* ============ histories with the job maintenance (provider.go maintenanceJob), Model/Worker.v h_step / h_run ============
   Vocabulary:
     hop                 HAppend a (writer appends) | HPass n (notification + worker pass, read buffer n) | HMaint n
                         (maintenance tick; a job it resumes is worked on with read buffer n) | HTrunc k | HMove (renamed
                         away / rotated);
     h_run c rd hs ops   everything handed to In during the history + the final state {h_job; h_done; h_deleted; h_moved;
                         h_file}; [rd n avail] = the pieces in which a pass reads the bytes behind the position — ANY
                         function whose pieces concatenate to its input (rd_sound), os.File's [chunks] is one
                         (c06_chunks_are_a_read_split);
     h_start o sk fc d   a job at offset o with empty tail, shouldSkip = sk, on a file with content fc, done flag d;
     appended ops        everything the writer appended during ops;  no_trunc ops: no HTrunc in ops;
     drop o b / take k b b[o:] / b[:k].                                                                                *)
Theorem c06_chunks_are_a_read_split :
  forall n b, (0 < n)%nat -> concat (chunks n b) = b.
Proof. exact chunks_concat. Qed.
Print Assumptions c06_chunks_are_a_read_split.

(* --- the maintenance tick of an idle job on an unchanged file that is still in place (close, re-open, seek to the
   saved position) hands nothing to In and leaves curOffset, the held-back tail and shouldSkip exactly as they were --- *)
Theorem c06_idle_maintenance_changes_nothing :
  forall c rd hs n,
  h_done hs = true -> h_deleted hs = false -> h_moved hs = false -> len (h_file hs) = cur (h_job hs) ->
  h_step c rd (HMaint n) hs = (Some 4, [], hs).
Proof. exact maint_idle_changes_nothing. Qed.
Print Assumptions c06_idle_maintenance_changes_nothing.

(* --- after ANY history of appends, passes, ticks and renames (any number of ticks at any position, in particular
   between the append that leaves an unterminated tail and the one that completes it), every configuration, every
   read shape: what was delivered is the specification of the bytes consumed so far, curOffset = bytes consumed, the
   saved tail stands for their unterminated remainder ------------------------------------------------------------ *)
Theorem c06_history_with_maintenance :
  forall c rd, 0 <= wmax c -> rd_sound rd ->
  forall o sk0 fc0 d0 ops, 0 <= o <= len fc0 -> no_trunc ops ->
  let '(E, hs) := h_run c rd (h_start o sk0 fc0 d0) ops in
  let b := take (cur (h_job hs) - o) (drop o (h_file hs)) in
  h_file hs = fc0 ++ appended ops
  /\ o <= cur (h_job hs) <= len (h_file hs)
  /\ Forall2 (emitR c) E (spec_emits c sk0 o b)
  /\ skip (h_job hs) = sk0 && negb (has_line b)
  /\ accR c (snd (split_lines b)) (tail (h_job hs)).
Proof. exact hist_general. Qed.
Print Assumptions c06_history_with_maintenance.

(* --- a history that ends with a worker pass has delivered every line written at any time: once, whole, in order,
   with its end offset (emitR: equal, or in cut-off mode the stand-in checkInputBytes treats alike) ---------------- *)
Theorem c06_history_every_line_once :
  forall c rd, 0 <= wmax c -> rd_sound rd ->
  forall o sk0 fc0 d0 ops n, 0 <= o <= len fc0 -> no_trunc ops ->
  let '(E, hs) := h_run c rd (h_start o sk0 fc0 d0) (ops ++ [HPass n]) in
  h_deleted hs = false ->
  let b := drop o (fc0 ++ appended ops) in
  h_file hs = fc0 ++ appended ops
  /\ cur (h_job hs) = len (fc0 ++ appended ops)
  /\ Forall2 (emitR c) E (spec_emits c sk0 o b)
  /\ skip (h_job hs) = sk0 && negb (has_line b)
  /\ accR c (snd (split_lines b)) (tail (h_job hs)).
Proof. exact hist_every_line_once. Qed.
Print Assumptions c06_history_every_line_once.

(* --- the same when the last reader is a tick on an idle job: a grown file is resumed and read to its end --------- *)
Theorem c06_history_tick_reads_all :
  forall c rd, 0 <= wmax c -> rd_sound rd ->
  forall o sk0 fc0 d0 ops n, 0 <= o <= len fc0 -> no_trunc ops ->
  h_done (snd (h_run c rd (h_start o sk0 fc0 d0) ops)) = true ->
  let '(E, hs) := h_run c rd (h_start o sk0 fc0 d0) (ops ++ [HMaint n]) in
  h_deleted hs = false ->
  let b := drop o (fc0 ++ appended ops) in
  h_file hs = fc0 ++ appended ops
  /\ cur (h_job hs) = len (fc0 ++ appended ops)
  /\ Forall2 (emitR c) E (spec_emits c sk0 o b)
  /\ skip (h_job hs) = sk0 && negb (has_line b)
  /\ accR c (snd (split_lines b)) (tail (h_job hs)).
Proof. exact hist_tick_reads_all. Qed.
Print Assumptions c06_history_tick_reads_all.

(* --- no size limit: exact equality, whatever ticks and renames are interleaved ---------------------------------- *)
Theorem c06_history_offsets_exact :
  forall rd o fc0 d0 ops n, rd_sound rd -> 0 <= o <= len fc0 -> no_trunc ops ->
  let '(E, hs) := h_run nolimit rd (h_start o false fc0 d0) (ops ++ [HPass n]) in
  h_deleted hs = false ->
  let b := drop o (fc0 ++ appended ops) in
  E = with_off o (fst (split_lines b))
  /\ h_job hs = {| cur := len (fc0 ++ appended ops); tail := snd (split_lines b); skip := false |}.
Proof. exact hist_offsets_exact. Qed.
Print Assumptions c06_history_offsets_exact.

(* --- truncation below the read position: the next pass — by notification or by a tick — delivers nothing and
   restarts the job at offset 0 with an EMPTY tail (the unterminated line of the old content no longer exists);
   from there c06_history_with_maintenance applies again (h_start 0 sk file true) -------------------------------- *)
Theorem c06_truncation_restarts_without_tail :
  forall c rd, 0 <= wmax c -> rd_sound rd ->
  forall hs n, h_deleted hs = false -> len (h_file hs) < cur (h_job hs) ->
  let hs' := {| h_job := st_at 0 (skip (h_job hs)); h_done := true; h_deleted := false; h_moved := h_moved hs;
                h_file := h_file hs |} in
  h_step c rd (HPass n) hs = (None, [], hs')
  /\ (h_done hs = true -> h_step c rd (HMaint n) hs = (Some 2, [], hs')).
Proof. exact (fun c rd _ => hist_truncation_restarts c rd). Qed.
Print Assumptions c06_truncation_restarts_without_tail.

(* --- the boolean relations evaluated by the history predicate of the correspondence check hold of every model run --- *)
Theorem c06_history_pred_holds_on_model :
  forall c rd o sk0 fc0 d0 ops, 0 <= wmax c -> rd_sound rd -> 0 <= o <= len fc0 -> no_trunc ops ->
  let '(E, hs) := h_run c rd (h_start o sk0 fc0 d0) ops in
  let b := take (cur (h_job hs) - o) (drop o (h_file hs)) in
  forall2b (emit_okb c) (map (fun e => (e, None)) E) (spec_emits c sk0 o b) = true
  /\ tail_relb c (tail (h_job hs)) (snd (split_lines b)) = true
  /\ cur (h_job hs) = o + len b.
Proof. exact hist_pred_holds. Qed.
Print Assumptions c06_history_pred_holds_on_model.

(* non-vacuity of the history theorems: "abc\ndef" | pass | tick (idle: re-open) | tick | "ghi\n" | tick (resumes and
   reads) | "x" | pass | truncate to 2 | tick (detects, restarts at 0) | tick (reads "ab" again into the tail);
   the second line arrives whole ("defghi\n"@11) although two ticks re-opened the file while "def" was held back *)
Example c06_history_nonvacuous :
  let ops := [HAppend [97;98;99;10;100;101;102]%N; HPass 2; HMaint 2; HMaint 2; HAppend [103;104;105;10]%N; HMaint 3;
              HAppend [120]%N; HPass 1] in
  h_run nolimit chunks (h_start 0 false [] false) ops
    = ([(4, [97;98;99;10]%N); (11, [100;101;102;103;104;105;10]%N)],
       {| h_job := {| cur := 12; tail := [120]%N; skip := false |}; h_done := true; h_deleted := false; h_moved := false;
          h_file := [97;98;99;10;100;101;102;103;104;105;10;120]%N |})
  /\ no_trunc ops
  /\ snd (h_run nolimit chunks (h_start 0 false [] false) (ops ++ [HTrunc 2; HMaint 1; HMaint 1]))
    = {| h_job := {| cur := 2; tail := [97;98]%N; skip := false |}; h_done := true; h_deleted := false; h_moved := false;
         h_file := [97;98]%N |}.
Proof. split; [vm_compute; reflexivity|]. split; [repeat constructor|vm_compute; reflexivity]. Qed.

(* ===================== round 5 (coverage): write notification, remove_after, compressed jobs =====================
   The op alphabet of the histories (hop) now also has HNotify n = the REAL write notification of the watcher
   (processNotification -> refreshFile -> checkFileWasTruncated -> tryResumeJobAndUnlock, then the pass) and HMaintExp n =
   the maintenance tick with remove_after expired; no_trunc ops allows both, so every c06_history_* theorem above holds
   for histories that contain them at any position. *)

(* --- a write notification on a file that was not truncated below the read position is exactly a worker pass ------ *)
Theorem c06_write_notification_is_a_pass :
  forall c rd hs n, cur (h_job hs) <= len (h_file hs) ->
  h_step c rd (HNotify n) hs = h_step c rd (HPass n) hs.
Proof. exact notify_is_pass. Qed.
Print Assumptions c06_write_notification_is_a_pass.

(* --- truncation below the read position seen by the write notification: the job restarts at 0 WITHOUT the old tail
   and the same pass delivers the whole new content: every line once, whole, in order, with its offset; curOffset = the
   new size; the tail stands for the new unterminated remainder ---------------------------------------------------- *)
Theorem c06_truncation_notify_rereads :
  forall c rd hs n, 0 <= wmax c -> rd_sound rd ->
  h_deleted hs = false -> len (h_file hs) < cur (h_job hs) ->
  let '(r, E, hs') := h_step c rd (HNotify n) hs in
  let sk := skip (h_job hs) in
  r = None /\ h_file hs' = h_file hs /\ h_done hs' = true
  /\ cur (h_job hs') = len (h_file hs)
  /\ Forall2 (emitR c) E (spec_emits c sk 0 (h_file hs))
  /\ skip (h_job hs') = sk && negb (has_line (h_file hs))
  /\ accR c (snd (split_lines (h_file hs))) (tail (h_job hs')).
Proof. exact hist_truncation_notify_rereads. Qed.
Print Assumptions c06_truncation_notify_rereads.

(* --- remove_after expired: the tick hands nothing to In and deletes an idle job (its file is removed) whether or not
   an unterminated tail is held back; a job that is not done or whose file changed size is handled as by the ordinary
   tick (left alone / read first) ---------------------------------------------------------------------------------- *)
Theorem c06_remove_after_tick_deletes_idle :
  forall c rd hs n,
  h_done hs = true -> h_deleted hs = false -> len (h_file hs) = cur (h_job hs) ->
  h_step c rd (HMaintExp n) hs =
  (Some 3, [], {| h_job := h_job hs; h_done := true; h_deleted := true; h_moved := h_moved hs; h_file := h_file hs |}).
Proof. exact maint_exp_removes_idle. Qed.
Print Assumptions c06_remove_after_tick_deletes_idle.

Theorem c06_remove_after_tick_reads_first :
  forall c rd hs n,
  h_deleted hs = false -> (h_done hs = false \/ len (h_file hs) <> cur (h_job hs)) ->
  h_step c rd (HMaintExp n) hs = h_step c rd (HMaint n) hs.
Proof. exact (fun c rd hs n _ => maint_exp_reads_first c rd hs n). Qed.
Print Assumptions c06_remove_after_tick_reads_first.

(* --- compressed (lz4) jobs: the skip loop of a resumed job stops at a position that is not behind the minimum saved
   offset m and leaves exactly the rest of the content to the pass (m inside the content; lz4_skip is called with
   L = 0 = len [] and the whole content) ---------------------------------------------------------------------------- *)
Theorem c06_lz4_skip_stops_before_offset :
  forall n m, 1 <= n -> forall fuel pre rest,
  (length rest < fuel)%nat -> len pre <= Z.max 0 m -> m <= len pre + len rest ->
  exists pre' rest', lz4_skip fuel n m (len pre) rest = (len pre', rest')
                     /\ pre ++ rest = pre' ++ rest' /\ len pre' <= Z.max 0 m.
Proof. exact lz4_skip_spec. Qed.
Print Assumptions c06_lz4_skip_stops_before_offset.

(* --- resume of a compressed job from ANY position L = len pre1 not behind the saved offset m = len (pre1 ++ pre2), m a
   line end of the file, every split of the rest into reads: what is handed over with an offset behind m is exactly
   the list of the lines of the whole file that end behind m, each with its offset in the decompressed stream; with
   the lines up to m (delivered before the restart) this is the line list of the whole file ----------------------- *)
Theorem c06_lz4_resume_exact :
  forall pre1 pre2 b reads,
  snd (split_lines (pre1 ++ pre2)) = [] -> concat reads = pre2 ++ b ->
  let m := len (pre1 ++ pre2) in
  let E := fst (round nolimit (st_at (len pre1) false) reads) in
  filter (fun e : emit => m <? fst e) E = with_off m (fst (split_lines b))
  /\ with_off 0 (fst (split_lines (pre1 ++ pre2 ++ b)))
     = with_off 0 (fst (split_lines (pre1 ++ pre2))) ++ with_off m (fst (split_lines b)).
Proof. exact lz4_resume_exact. Qed.
Print Assumptions c06_lz4_resume_exact.

(* --- the model of the whole compressed pass (skip loop + reads of the buffer size), every content, every buffer size,
   every list of saved stream offsets whose minimum m is a line end inside the content --------------------------- *)
Theorem c06_lz4_pass_exact :
  forall n content offs (o : Z),
  (0 < n)%nat -> let m := min_list o offs in
  0 <= m <= len content -> snd (split_lines (take m content)) = [] ->
  let k := {| z_cfg := nolimit; z_offs := o :: offs; z_frames := [content]; z_n := n |} in
  let '(L, es, st) := z_pass k in
  0 <= L <= m
  /\ filter (fun e : emit => m <? fst e) es = with_off m (fst (split_lines (drop m content)))
  /\ with_off 0 (fst (split_lines content))
     = with_off 0 (fst (split_lines (take m content))) ++ with_off m (fst (split_lines (drop m content))).
Proof. exact lz4_pass_exact. Qed.
Print Assumptions c06_lz4_pass_exact.

(* --- end to end (which 8: the real Pipeline.In behind the worker): what reaches the OUTPUT are exactly the accepted
   complete lines of the content, every configuration, start offset, pass and read structure; events_of = what
   checkInputBytes + the raw decoder make of a delivered (offset, data): (offset, accepted bytes without the newline,
   cut flag), nothing for a rejected line ------------------------------------------------------------------------ *)
Theorem c06_events_do_not_depend_on_the_stand_in :
  forall c E E', 0 <= wmax c -> Forall2 (emitR c) E E' -> events_of c E = events_of c E'.
Proof. exact events_of_emitR. Qed.
Print Assumptions c06_events_do_not_depend_on_the_stand_in.

Theorem c06_worker_events :
  forall c o sk0 rs, 0 <= wmax c ->
  events_of c (fst (rounds c (st_at o sk0) rs)) = events_of c (spec_emits c sk0 o (flat rs)).
Proof. exact worker_events. Qed.
Print Assumptions c06_worker_events.

Theorem c06_event_of_a_line :
  forall c o l0, 0 <= wmax c -> noNL l0 ->
  events_of c [(o, l0 ++ [NL])] =
  match l0 with
  | [] => []
  | _ :: _ =>
      if check_max c && (len l0 + 1 >? wmax c)
      then (if wcut c then [(o, firstn (Z.to_nat (wmax c)) l0, true)] else [])
      else [(o, l0, false)]
  end.
Proof. exact (fun c o l0 _ _ => events_of_line c o l0). Qed.
Print Assumptions c06_event_of_a_line.

(* --- streams (which 9 | 10: the real file Plugin as the pipeline's input, a job resumed from the saved offsets of several
   streams). dc = ANY decoder function (accepted bytes -> stream name, payload, partial flag; None = undecodable), sv = ANY
   table of saved stream offsets, sc = the CRI short-cut of Pipeline.In on / off.
     pass_event sv s off   Plugin.PassEvent: above (saved_get sv s) off, i.e. no saved offset for s, or saved(s) < off
     sdecoded dc c es      the (offset, stream, payload) of the accepted, decodable ones among the (offset, data) pairs es
     sdeliver dc sc sv c es  what reaches the output: short-cut, then PassEvent, on every accepted decoded line
     passed sv e           pass_event sv (stream of e) (offset of e);   of_stream s e   e belongs to stream s ------------- *)
(* the line that ends exactly AT the saved offset of its stream - the last one committed before the restart - is not
   delivered again; exactly the offsets above it are *)
Theorem c06_line_at_the_saved_offset_is_not_delivered_again :
  forall sv s o, saved_get sv s = Some o ->
  pass_event sv s o = false /\ (forall off, pass_event sv s off = true <-> o < off).
Proof. exact pass_event_at_saved_offset. Qed.
Print Assumptions c06_line_at_the_saved_offset_is_not_delivered_again.

Theorem c06_delivered_is_the_pass_event_filter :
  forall dc sc sv c es, sdeliver dc sc sv c es = filter (passed sv) (sdecoded dc c es).
Proof. exact sdeliver_filter. Qed.
Print Assumptions c06_delivered_is_the_pass_event_filter.

Theorem c06_in_shortcut_is_never_a_decision :
  forall dc sc sc' sv c es, sdeliver dc sc sv c es = sdeliver dc sc' sv c es.
Proof. exact sdeliver_shortcut_irrelevant. Qed.
Print Assumptions c06_in_shortcut_is_never_a_decision.

(* every configuration, start offset, pass and read structure, decoder, table of saved offsets: the events of stream s that
   reach the output = the complete lines of s in the content (accepted, decodable) that end ABOVE saved(s) - all of them
   when s has no saved offset -, in order *)
Theorem c06_stream_gets_exactly_its_lines_above_the_saved_offset :
  forall dc sc sv c o sk0 rs s, 0 <= wmax c ->
  filter (of_stream s) (sdeliver dc sc sv c (fst (rounds c (st_at o sk0) rs)))
  = filter (fun e => above (saved_get sv s) (ev_off e))
           (filter (of_stream s) (sdecoded dc c (spec_emits c sk0 o (flat rs)))).
Proof. exact worker_stream_events. Qed.
Print Assumptions c06_stream_gets_exactly_its_lines_above_the_saved_offset.

Theorem c06_worker_stream_events :
  forall dc sc sv c o sk0 rs, 0 <= wmax c ->
  sdeliver dc sc sv c (fst (rounds c (st_at o sk0) rs)) = filter (passed sv) (sdecoded dc c (spec_emits c sk0 o (flat rs))).
Proof. exact worker_events_filtered. Qed.
Print Assumptions c06_worker_stream_events.

(* once: the offsets of the delivered events increase strictly (asc o l: every element of l is above its predecessor, the
   first above o) *)
Theorem c06_delivered_offsets_increase :
  forall dc sc sv c o sk0 rs, 0 <= wmax c ->
  asc o (map ev_off (sdeliver dc sc sv c (fst (rounds c (st_at o sk0) rs)))).
Proof. exact delivered_offsets_increase. Qed.
Print Assumptions c06_delivered_offsets_increase.

(* whatever is handed over (a compressed job re-reads from in front of the smallest saved offset): nothing that ends at or
   below the saved offset of its stream reaches the output *)
Theorem c06_nothing_committed_is_delivered_again :
  forall dc sc sv c es, Forall (fun e => passed sv e = true) (sdeliver dc sc sv c es).
Proof. exact sdeliver_all_passed. Qed.
Print Assumptions c06_nothing_committed_is_delivered_again.

(* jobProvider.commit moves the saved offset of a delivered event's stream at some time during the pass: committing every
   event at once (sdeliver_upd) and not at all (sdeliver) give the same events *)
Theorem c06_commit_timing_is_irrelevant :
  forall dc sc sv c o sk0 b,
  sdeliver_upd dc sc sv c (spec_emits c sk0 o b) = sdeliver dc sc sv c (spec_emits c sk0 o b).
Proof. exact commit_timing_irrelevant. Qed.
Print Assumptions c06_commit_timing_is_irrelevant.

(* saved offsets behind the end of the file (truncateJob sets every saved offset to 0): every line passes again *)
Theorem c06_after_truncation_everything_passes :
  forall sv s off, 0 < off -> pass_event (saved_zero sv) s off = true /\ in_shortcut (saved_zero sv) s off = false.
Proof. exact saved_zero_passes. Qed.
Print Assumptions c06_after_truncation_everything_passes.

(* the compressed pass of a job resumed from the saved offsets sv whose minimum m is a line end of the content *)
Theorem c06_lz4_stream_events :
  forall dc sc (sv : saved) n content offs (o : Z),
  (0 < n)%nat -> map snd sv = o :: offs -> let m := min_list o offs in
  0 <= m <= len content -> snd (split_lines (take m content)) = [] ->
  let k := {| z_cfg := nolimit; z_offs := map snd sv; z_frames := [content]; z_n := n |} in
  let '(L, es, st) := z_pass k in
  filter (fun e => m <? ev_off e) (sdeliver dc sc sv nolimit es)
  = filter (passed sv) (sdecoded dc nolimit (with_off m (fst (split_lines (drop m content))))).
Proof. exact lz4_stream_events. Qed.
Print Assumptions c06_lz4_stream_events.

(* the predicate the correspondence check applies to what the implementation did (s_pred: after every pass everything delivered
   so far = the PassEvent-rule filter of the specification's lines behind the start position, position and tail the
   specification's) holds of every run of the model: any decoder, any saved offsets whose minimum lies inside what the file
   holds when the job is added, any appends and read buffer sizes *)
Theorem c06_streams_model_satisfies_the_check_predicate :
  forall dc sc c sv pre rl, 0 <= wmax c ->
  0 <= s_start sv <= len pre -> Forall (fun r : bytes * nat => (0 < snd r)%nat) rl ->
  s_pred dc sc c (s_start sv) sv pre [] rl
         (map sx_of_spass (s_trace dc sc c {| cur := s_start sv; tail := []; skip := false |} sv pre rl)) = true.
Proof. exact streams_model_satisfies_pred. Qed.
Print Assumptions c06_streams_model_satisfies_the_check_predicate.

(* non-vacuity: five json lines of 24 bytes, streams a b a b a; the previous run committed a through line 3 (offset 72) and
   b through line 2 (offset 48): reading restarts at 48, lines 3 4 5 are read, line 3 (a, ends AT 72) is recognised as
   delivered, lines 4 (b) and 5 (a) reach the output; with b unsaved line 3 is still dropped *)
Example c06_streams_nonvacuous :
  let rest := [123;34;115;116;114;101;97;109;34;58;34;97;34;44;34;109;34;58;34;110;50;34;125;10;123;34;115;116;114;101;97;109;34;58;34;98;34;44;34;109;34;58;34;110;51;34;125;10;123;34;115;116;114;101;97;109;34;58;34;97;34;44;34;109;34;58;34;110;52;34;125;10]%N in
  let sv := [([97]%N, 72); ([98]%N, 48)] in
  let E := fst (rounds nolimit (st_at 48 false) [chunks 7 rest]) in
  map ev_off (sdecoded json_decode nolimit E) = [72; 96; 120]
  /\ sdeliver json_decode false sv nolimit E = [(96, [98]%N, [110;51]%N); (120, [97]%N, [110;52]%N)]
  /\ map ev_off (sdeliver json_decode false [([97]%N, 72)] nolimit E) = [96; 120]
  /\ map ev_off (sdeliver json_decode false [([97]%N, 71)] nolimit E) = [72; 96; 120].
Proof. repeat split; vm_compute; reflexivity. Qed.

(* non-vacuity: "ab\ncd" | pass | truncate to 1 | write notification (detects, restarts at 0, reads "a" into the tail in
   the same step) | "\n" | remove_after tick on the grown file (reads "a\n"@2 first) | remove_after tick (idle: deleted);
   compressed: content "ab\ncd\nef\ngh", saved offsets (6 9), buffer 2: skipping stops at 4, "d\n"@6 is handed over again
   (dropped by its offset), "ef\n"@9 follows, curOffset counts the 7 bytes read after the skipping *)
Example c06_round5_nonvacuous :
  h_run nolimit chunks (h_start 0 false [] false)
    [HAppend [97;98;10;99;100]%N; HPass 2; HTrunc 1; HNotify 3; HAppend [10]%N; HMaintExp 2; HMaintExp 2]
    = ([(3, [97;98;10]%N); (2, [97;10]%N)],
       {| h_job := {| cur := 2; tail := []; skip := false |}; h_done := true; h_deleted := true; h_moved := false;
          h_file := [97;10]%N |})
  /\ z_pass {| z_cfg := nolimit; z_offs := [6; 9]; z_frames := [[97;98;10;99]%N; [100;10;101;102;10;103;104]%N]; z_n := 2%nat |}
    = (4, [(6, [100;10]%N); (9, [101;102;10]%N)], {| cur := 11; tail := [103;104]%N; skip := false |}).
Proof. split; vm_compute; reflexivity. Qed.

(* non-vacuity: content "ab\n\ncdefg\nh" read from offset 100 in two passes, reads of odd sizes, a line
   split over three reads and two passes; with max = 3: skip mode drops "cdefg\n", cut mode + admission
   delivers "cde\n" flagged, the empty line is delivered by the worker and dropped by checkInputBytes *)
Example c06_nonvacuous :
  let rs := [[[97;98;10;10;99]; [100]]; [[101;102]; []; [103;10;104]]]%N in
  rounds nolimit (st_at 100 false) rs
    = ([(103, [97;98;10]%N); (104, [10]%N); (110, [99;100;101;102;103;10]%N)],
       {| cur := 111; tail := [104]%N; skip := false |})
  /\ fst (rounds {| wmax := 3; wcut := false |} (st_at 100 false) rs)
    = [(103, [97;98;10]%N); (104, [10]%N)]
  /\ checked {| wmax := 3; wcut := true |} (fst (rounds {| wmax := 3; wcut := true |} (st_at 100 false) rs))
    = [(103, ([97;98;10]%N, false, true)); (104, ([10]%N, false, false)); (110, ([99;100;101;10]%N, true, true))]
  /\ fst (rounds nolimit (st_at 100 true) rs) = [(104, [10]%N); (110, [99;100;101;102;103;10]%N)].
Proof. repeat split; vm_compute; reflexivity. Qed.
