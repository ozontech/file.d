(* C19 — output payloads carry every deliverable event of a batch exactly once, well-formed.
   Only statements, each closed by [exact]; proofs live in Proofs/Payload.v.
   Modelled sinks: elasticsearch (repaired: index values escaped), file, http (json and raw encoder,
   repaired: a missing field keeps the buffer), kafka, splunk (incl. copy_fields: the envelope of one
   event as a function of that event and the configuration), gelf (framing; the GELF rewrite of the
   event is an oracle).  loki: the envelope around oracle pieces. *)
From Verif Require Import Base.Sx Base.GoSem Model.Payload Proofs.Payload.
Local Open Scope Z_scope.

(* Batch.ForEach visits exactly the non-parent events, in batch order *)
Theorem c19_foreach_skips_parents :
  forall (A : Type) (b : list ev) (cb : A -> ev -> A) (acc : A),
    for_each b cb acc = fold_left cb (deliverable b) acc
    /\ (forall e, In e (deliverable b) <-> In e b /\ is_parent e = false)
    /\ (forall b1 b2, b = b1 ++ b2 -> deliverable b = deliverable b1 ++ deliverable b2).
Proof. exact foreach_skips_parents. Qed.
Print Assumptions c19_foreach_skips_parents.

(* ES: the frame of an event is  action line, newline, document, newline *)
Theorem c19_es_frame_shape :
  forall c e, es_cfg_ok c ->
    es_header c e = Ok (es_header_of c e)
    /\ es_frame_of c e = es_header_of c e ++ [NL] ++ enc e ++ [NL].
Proof. exact es_frame_shape. Qed.
Print Assumptions c19_es_frame_shape.

(* ES: for every previous buffer content and every script of answers, out() builds the concatenation,
   in batch order, of one frame per deliverable event; without split_batch that is the one request;
   with it every request carries the frames of a range, and when the exchange ends without error the
   successfully answered ranges tile [0,n) from left to right and their bodies add up to the payload *)
Theorem c19_es_frames :
  forall c batch prev script, es_cfg_ok c ->
  let fs := map (es_frame_of c) (deliverable batch) in
  exists a, es_out c batch prev script = Ok a
    /\ at_buf a = concat fs
    /\ (es_split c = false -> at_reqs a = [mkReq 0 (len fs) (concat fs) (fst (next_status script))])
    /\ Forall (fun q => 0 <= rq_l q /\ rq_r q <= len fs /\ rq_body q = frames_range fs (rq_l q) (rq_r q)) (at_reqs a)
    /\ (at_err a = false ->
        chain 0 (len fs) (ok_ranges (at_reqs a)) /\ concat (map rq_body (filter ok_req (at_reqs a))) = concat fs).
Proof. exact es_out_spec. Qed.
Print Assumptions c19_es_frames.

Theorem c19_http_frames :
  forall raw split batch prev script,
  let fs := map (frame_http raw) (deliverable batch) in
  exists a, http_out raw split batch prev script = Ok a
    /\ at_buf a = concat fs
    /\ (split = false -> at_reqs a = [mkReq 0 (len fs) (concat fs) (fst (next_status script))])
    /\ Forall (fun q => 0 <= rq_l q /\ rq_r q <= len fs /\ rq_body q = frames_range fs (rq_l q) (rq_r q)) (at_reqs a)
    /\ (at_err a = false ->
        chain 0 (len fs) (ok_ranges (at_reqs a)) /\ concat (map rq_body (filter ok_req (at_reqs a))) = concat fs).
Proof. exact http_out_spec. Qed.
Print Assumptions c19_http_frames.

Theorem c19_file_frames :
  forall batch prev script,
  exists a, file_out batch prev script = Ok a
    /\ at_buf a = concat (map frame_file (deliverable batch))
    /\ map rq_body (at_reqs a) = [concat (map frame_file (deliverable batch))].
Proof. exact file_out_spec. Qed.
Print Assumptions c19_file_frames.

(* splunk without copy_fields: a row of {"event":<the event>} objects *)
Theorem c19_splunk_frames :
  forall batch prev script,
  exists a, splunk_out [] batch prev script = Ok a
    /\ at_buf a = concat (map frame_splunk (deliverable batch))
    /\ map rq_body (at_reqs a) = [concat (map frame_splunk (deliverable batch))].
Proof. exact splunk_out_nocopy_spec. Qed.
Print Assumptions c19_splunk_frames.

(* splunk with any copy_fields configuration: for every previous buffer content and every answer the
   one request carries, in batch order, one envelope per deliverable event *)
Theorem c19_splunk_envelopes :
  forall cfg batch prev script,
  exists a, splunk_out cfg batch prev script = Ok a
    /\ at_buf a = concat (map (envelope cfg) (deliverable batch))
    /\ map rq_body (at_reqs a) = [concat (map (envelope cfg) (deliverable batch))].
Proof. exact splunk_out_spec. Qed.
Print Assumptions c19_splunk_envelopes.

(* envelope independence: inside the request of ANY batch that contains the deliverable event e — any
   events before it, any after it, any buffer history, any answers — the bytes at e's place are
   [envelope cfg e], a function of e and the configuration alone *)
Theorem c19_splunk_envelope_independent :
  forall cfg e pre post prev script,
  is_parent e = false ->
  exists a, splunk_out cfg (pre ++ e :: post) prev script = Ok a
    /\ map rq_body (at_reqs a) = [at_buf a]
    /\ at_buf a = splunk_payload cfg pre ++ envelope cfg e ++ splunk_payload cfg post
    /\ slice (at_buf a) (len (splunk_payload cfg pre)) (len (splunk_payload cfg pre) + len (envelope cfg e))
       = Ok (envelope cfg e).
Proof. exact splunk_envelope_independent. Qed.
Print Assumptions c19_splunk_envelope_independent.

(* no cross-event leakage: permuting, replacing or removing the OTHER events of the batch (and changing
   the buffer history or the answers) does not change the bytes sent for e *)
Theorem c19_splunk_no_cross_event_leak :
  forall cfg e pre1 post1 pre2 post2 p1 s1 p2 s2,
  is_parent e = false ->
  exists a1 a2,
    splunk_out cfg (pre1 ++ e :: post1) p1 s1 = Ok a1 /\ splunk_out cfg (pre2 ++ e :: post2) p2 s2 = Ok a2
    /\ slice (at_buf a1) (len (splunk_payload cfg pre1)) (len (splunk_payload cfg pre1) + len (envelope cfg e))
       = slice (at_buf a2) (len (splunk_payload cfg pre2)) (len (splunk_payload cfg pre2) + len (envelope cfg e))
    /\ slice (at_buf a1) (len (splunk_payload cfg pre1)) (len (splunk_payload cfg pre1) + len (envelope cfg e))
       = Ok (envelope cfg e).
Proof. exact splunk_no_cross_event_leak. Qed.
Print Assumptions c19_splunk_no_cross_event_leak.

(* the envelope reads nothing of an event but its encoding and the values of its own source fields *)
Theorem c19_splunk_envelope_local :
  forall cfg e1 e2, enc e1 = enc e2 -> ev_copy e1 = ev_copy e2 -> envelope cfg e1 = envelope cfg e2.
Proof. exact envelope_local. Qed.
Print Assumptions c19_splunk_envelope_local.

(* an event without any of the configured source fields gets the bare {"event":...} envelope,
   whatever the configuration and whatever its neighbours carry *)
Theorem c19_splunk_envelope_no_sources :
  forall cfg e, Forall (fun v => v = None) (ev_copy e) -> envelope cfg e = frame_splunk e.
Proof. exact envelope_no_sources. Qed.
Print Assumptions c19_splunk_envelope_no_sources.

(* every configuration the exchange glue accepts is as Start() leaves it (cp_ok), and then every
   envelope begins with {"event":<the event's encoding>, followed by the closing brace or by a comma
   and the copied fields: copy_fields never displaces or rewrites the event *)
Theorem c19_splunk_envelope_carries_event :
  (forall s c, cp_entry_of_sx s = Some c -> cp_ok c)
  /\ forall cfg e, Forall cp_ok cfg ->
     exists tail, envelope cfg e = SPLUNK_PRE ++ enc e ++ tail
       /\ (tail = [125]%N \/ exists t, tail = 44%N :: t).
Proof. exact (conj cp_entry_of_sx_ok envelope_carries_event). Qed.
Print Assumptions c19_splunk_envelope_carries_event.

Theorem c19_gelf_frames :
  forall batch prev script,
  exists a, gelf_out batch prev script = Ok a
    /\ at_buf a = concat (map frame_gelf (deliverable batch))
    /\ map rq_body (at_reqs a) = [concat (map frame_gelf (deliverable batch))].
Proof. exact gelf_out_spec. Qed.
Print Assumptions c19_gelf_frames.

(* kafka: record i's value is the encoding of the i-th deliverable event, its topic the event's
   topic field or the default; the value slices tile the shared buffer (pairwise disjoint, in order) *)
Theorem c19_kafka_one_record_per_event :
  forall c batch prev, len (deliverable batch) <= k_batch_size c ->
  exists data recs,
    kafka_build c batch prev = Ok (data, recs)
    /\ Forall2 (fun r e => k_value data r = Ok (enc e) /\ kr_topic r = k_topic c e) recs (deliverable batch)
    /\ chain 0 (len data) (map (fun r => (kr_start r, kr_end r)) recs).
Proof. exact kafka_records. Qed.
Print Assumptions c19_kafka_one_record_per_event.

(* sendSplit over the begin table of any frames, for EVERY pattern of answers: never panics, never
   runs out of fuel; every request carries exactly the frames of its range; whenever it returns OK the
   successfully sent ranges are non-empty, partition [0,n) in order, and their bodies are the payload *)
Theorem c19_split_covers_once :
  forall (fs : list bytes) (script : list Z),
  let n := len fs in
  exists log script' st err,
    send_split (Z.to_nat n) script 0 n (offsets 0 fs) (concat fs) = Ok (log, script', st, err)
    /\ Forall (req_ok fs 0 n) log
    /\ (err = false ->
        chain 0 n (ok_ranges log)
        /\ Forall (fun ab => fst ab < snd ab) (ok_ranges log)
        /\ concat (map rq_body (filter (fun q => is_ok_status (rq_status q)) log)) = concat fs).
Proof. exact split_covers_once. Qed.
Print Assumptions c19_split_covers_once.

(* the ES action line of the repaired code, for every event whatever its values: one valid JSON
   document on one line, whose index string literal closes exactly at the template's quote *)
Theorem c19_es_header_valid :
  forall c e hdr,
  es_cfg_ok c -> es_cfg_plain c -> esc_safe e ->
  es_header c e = Ok hdr ->
  json_valid hdr = true /\ has_nl hdr = false
  /\ exists name, hdr = es_prefix (es_op c) ++ name ++ es_suffix /\ str_body_ok name = true
                  /\ scan_str (name ++ es_suffix) = Some [125; 125]%N.
Proof. exact es_header_valid. Qed.
Print Assumptions c19_es_header_valid.

(* ... and string-safety of the spliced text is exactly what is needed: the literal closes at the
   intended quote iff the text is JSON-string-safe *)
Theorem c19_es_header_string_iff :
  forall s rest, scan_str (s ++ QUOTE :: rest) = Some rest <-> str_body_ok s = true.
Proof. exact scan_str_exact. Qed.
Print Assumptions c19_es_header_string_iff.

(* the template with an unescaped quote / newline (the code before the repair) is not a JSON line *)
Theorem c19_es_header_needs_escape :
  json_valid (es_prefix [105]%N ++ [97; 34; 98]%N ++ es_suffix) = false
  /\ has_nl (es_prefix [105]%N ++ [97; 10; 98]%N ++ es_suffix) = true
  /\ json_valid (es_prefix [105]%N ++ [97; 10; 98]%N ++ es_suffix) = false.
Proof. exact es_header_needs_escape. Qed.
Print Assumptions c19_es_header_needs_escape.

(* well-formedness of the splunk envelope: under the oracle hypotheses (the event's encoding and every
   copied value are JSON documents, the key literals are JSON string literals — checked on every run)
   the envelope of every event is one valid JSON document, an object, whatever copy_fields puts where
   (nested targets, targets written twice, targets below or above earlier ones) *)
Theorem c19_splunk_envelope_valid :
  forall cfg e,
  Forall cp_lits_ok cfg -> json_valid (enc e) = true -> Forall opt_wf (ev_copy e) ->
  json_valid (envelope cfg e) = true /\ exists rest, envelope cfg e = 123%N :: rest.
Proof. exact envelope_valid. Qed.
Print Assumptions c19_splunk_envelope_valid.

(* ... and the request body of a batch is cut by the predicate's own cutter (docs_of_body: the JSON
   automaton back at depth 0) into exactly the envelopes of the deliverable events — one document per
   event, in batch order, nothing else — each a valid JSON document *)
Theorem c19_splunk_payload_docs :
  forall cfg batch prev script,
  Forall cp_lits_ok cfg -> Forall ev_copy_ok (deliverable batch) ->
  exists a, splunk_out cfg batch prev script = Ok a
    /\ (forall cfgsx, splunk_cfg_of_sx cfgsx = Some cfg ->
        Forall (fun q => docs_of_body 4 cfgsx (rq_body q) = Some (expected_docs 4 cfgsx batch)) (at_reqs a))
    /\ Forall (fun d => json_valid d = true) (map (envelope cfg) (deliverable batch)).
Proof. exact splunk_payload_docs. Qed.
Print Assumptions c19_splunk_payload_docs.

(* buffer reuse across successive batches and retries: the payload does not depend on what the
   worker's buffer held nor on earlier answers *)
Theorem c19_payload_independent_of_prev_buf :
  forall batch,
  (forall c, es_cfg_ok c -> forall p1 s1 p2 s2 a1 a2,
      es_out c batch p1 s1 = Ok a1 -> es_out c batch p2 s2 = Ok a2 -> at_buf a1 = at_buf a2)
  /\ (forall raw sp p1 s1 p2 s2 a1 a2,
      http_out raw sp batch p1 s1 = Ok a1 -> http_out raw sp batch p2 s2 = Ok a2 -> at_buf a1 = at_buf a2)
  /\ (forall p1 s1 p2 s2 a1 a2,
      file_out batch p1 s1 = Ok a1 -> file_out batch p2 s2 = Ok a2 -> at_buf a1 = at_buf a2)
  /\ (forall cfg p1 s1 p2 s2 a1 a2,
      splunk_out cfg batch p1 s1 = Ok a1 -> splunk_out cfg batch p2 s2 = Ok a2 -> at_buf a1 = at_buf a2)
  /\ (forall p1 s1 p2 s2 a1 a2,
      gelf_out batch p1 s1 = Ok a1 -> gelf_out batch p2 s2 = Ok a2 -> at_buf a1 = at_buf a2)
  /\ (forall c p1 p2, len (deliverable batch) <= k_batch_size c -> kafka_build c batch p1 = kafka_build c batch p2).
Proof. exact payload_independent. Qed.
Print Assumptions c19_payload_independent_of_prev_buf.

(* under the oracle hypotheses on Event.Encode and on the escaper, the ES bulk body splits into exactly
   2n lines — action line, document, ... — each a valid JSON document *)
Theorem c19_es_payload_lines :
  forall c batch prev,
  es_cfg_ok c -> es_cfg_plain c ->
  Forall esc_safe (deliverable batch) -> Forall enc_line_safe (deliverable batch) -> Forall enc_valid (deliverable batch) ->
  exists data begin n,
    es_build c batch prev = Ok (data, begin, n)
    /\ lines_tail data = (flat_map (fun e => [es_header_of c e; enc e]) (deliverable batch), [])
    /\ Forall (fun l => json_valid l = true) (flat_map (fun e => [es_header_of c e; enc e]) (deliverable batch)).
Proof. exact es_payload_lines. Qed.
Print Assumptions c19_es_payload_lines.

(* file / http (json): the lines of the payload are exactly the documents of the deliverable events *)
Theorem c19_ndjson_payload_lines :
  forall batch prev,
  Forall enc_line_safe (deliverable batch) ->
  lines_tail (build_frames frame_file batch prev) = (map enc (deliverable batch), []).
Proof. exact ndjson_payload_lines. Qed.
Print Assumptions c19_ndjson_payload_lines.

(* the answers: 200..202 with the plain body or with a body the sink's response reader accepts (the odd
   kinds of the table answer_ok) are the successes; a 2xx answer whose body the reader rejects (the even
   kinds: ES reportESErrors / splunk parseSplunkError returning an error) is a failed request like 413, 400,
   204, 199 — c19_split_covers_once and the *_frames theorems are stated over is_ok_status, so they cover
   these answers — and it makes out() return the error: the batch is offered again *)
Theorem c19_answer_kinds :
  (forall st, is_ok_status st = true <->
     exists k s, st = 1000 * k + s /\ 200 <= s <= 202 /\ (k = 0 \/ k = 1 \/ k = 3 \/ k = 5 \/ k = 7))
  /\ (forall k s, 200 <= s <= 202 -> (k = 2 \/ k = 4 \/ k = 6) -> is_ok_status (1000 * k + s) = false)
  /\ is_ok_status 413 = false /\ is_ok_status 400 = false /\ is_ok_status 204 = false /\ is_ok_status 199 = false.
Proof. exact answer_kinds. Qed.
Print Assumptions c19_answer_kinds.

Theorem c19_rejected_answer_is_retried :
  forall k s, 200 <= s <= 202 -> (k = 2 \/ k = 4 \/ k = 6) ->
  out_ret_es (1000 * k + s) true = 1 /\ out_ret_splunk (1000 * k + s) true = 1.
Proof. exact (fun k s Hs _ => rejected_answer_is_retried k s Hs). Qed.
Print Assumptions c19_rejected_answer_is_retried.

(* a batch that the retrying batcher offers again (any number of calls, any buffer history, any answers):
   the exchange never breaks off, every call of out() makes exactly one request and its body is the payload
   of the batch — one frame per deliverable event, in batch order — and the worker's buffer holds that
   payload afterwards; ES and http without split_batch, file, splunk with any copy_fields, gelf *)
Theorem c19_retried_batch_same_payload :
  forall tries batch prev script,
  (forall c, es_cfg_ok c -> es_split c = false ->
     let '(atts, p, s, ok) := attempts (es_out c) tries batch prev script in
     ok = true
     /\ Forall (fun r => exists a, r = Ok a /\ map rq_body (at_reqs a) = [concat (map (es_frame_of c) (deliverable batch))]) atts
     /\ (tries <> O -> atts <> [] /\ p = concat (map (es_frame_of c) (deliverable batch)))
     /\ (length atts <= tries)%nat)
  /\ (forall raw, retried (http_out raw false) (fun b => concat (map (frame_http raw) (deliverable b))) tries batch prev script)
  /\ retried file_out (fun b => concat (map frame_file (deliverable b))) tries batch prev script
  /\ (forall cfg, retried (splunk_out cfg) (fun b => concat (map (envelope cfg) (deliverable b))) tries batch prev script)
  /\ retried gelf_out (fun b => concat (map frame_gelf (deliverable b))) tries batch prev script.
Proof. exact retried_batch_same_payload. Qed.
Print Assumptions c19_retried_batch_same_payload.

(* the plugin behind its own batcher (Start / Out): a batch without a deliverable event never reaches out()
   — no request, buffer and answers untouched —, every other batch is offered exactly as in the direct
   drive, every attempt carrying the payload *)
Theorem c19_via_batcher :
  forall out payload, sends_whole out payload ->
  forall tries batch prev script,
  (deliverable batch = [] -> tries <> O ->
     attempts (via_out out) tries batch prev script = ([Ok (mkAtt [] false 0 prev script)], prev, script, true))
  /\ (deliverable batch <> [] ->
      attempts (via_out out) tries batch prev script = attempts out tries batch prev script
      /\ retried out payload tries batch prev script).
Proof. exact via_batcher. Qed.
Print Assumptions c19_via_batcher.

(* Start(): an empty index_values list stands for ["@time"]; the configuration then is well formed iff the
   format has at most one placeholder, and the action line is the same for every event *)
Theorem c19_es_default_index_value :
  forall op fmt time sp,
  let c := mkEs op fmt (es_default_vals []) time sp in
  es_vals c = [ITime]
  /\ ((count_pct fmt <= 1)%nat <-> es_cfg_ok c)
  /\ forall e1 e2, es_header c e1 = es_header c e2.
Proof. exact es_default_index_value. Qed.
Print Assumptions c19_es_default_index_value.

(* non-vacuity: a batch [regular with svc = a, quote, b ; parent ; regular without svc] through ES with split_batch and
   the answers 413, 200, 413(single event: gives up) — and the same batch answered 413, 200, 200 *)
Example c19_nonvacuous :
  (es_cfg_ok ex_cfg /\ es_cfg_plain ex_cfg /\ esc_safe ex_e1)
  /\ es_header ex_cfg ex_e1 = Ok [123; 34; 105; 34; 58; 123; 34; 95; 105; 110; 100; 101; 120; 34; 58; 34; 120; 45; 97; 92; 34; 98; 34; 125; 125]%N
  /\ deliverable [ex_e1; ex_e2; ex_e3] = [ex_e1; ex_e3]
  /\ (match es_out ex_cfg [ex_e1; ex_e2; ex_e3] [1; 2; 3]%N [413; 200; 200] with
      | Ok a => (map (fun q => (rq_l q, rq_r q, rq_status q)) (at_reqs a), at_err a)
      | _ => ([], true) end) = ([(0, 2, 413); (0, 1, 200); (1, 2, 200)], false)
  /\ (match es_out ex_cfg [ex_e1; ex_e2; ex_e3] [] [413; 200; 413] with
      | Ok a => (map (fun q => (rq_l q, rq_r q, rq_status q)) (at_reqs a), at_err a, at_ret a)
      | _ => ([], true, 9) end) = ([(0, 2, 413); (0, 1, 200); (1, 2, 413)], true, 0).
Proof. split; [exact ex_hyps_ok|repeat split; vm_compute; reflexivity]. Qed.

(* non-vacuity of the coverage-round theorems: splunk offered [first; parent; third] three times with the
   answers 2200 (a 2xx answer whose body parseSplunkError rejects), 500, 1200 (accepted): three attempts
   with the same body, the last one ends the exchange; the all-parent batch through the batcher makes no
   request; the default index value *)
Example c19_retry_nonvacuous :
  is_ok_status 2200 = false /\ is_ok_status 1200 = true
  /\ (let '(atts, p, s, ok) := attempts (splunk_out []) 3 [ex_e1; ex_e2; ex_e3] [9]%N [2200; 500; 1200] in
      (map (fun r => match r with Ok a => (map rq_status (at_reqs a), at_ret a) | _ => ([], 9) end) atts,
       list_bytes_eqb (map (fun r => match r with Ok a => concat (map rq_body (at_reqs a)) | _ => [] end) atts)
                      [p; p; p], s, ok))
     = ([([2200], 1); ([500], 1); ([1200], 0)], true, [], true)
  /\ attempts (via_out (splunk_out [])) 3 [ex_e2] [9]%N [500] = ([Ok (mkAtt [] false 0 [9]%N [500])], [9]%N, [500], true)
  /\ es_header (mkEs [105]%N [116; 45; 37]%N (es_default_vals []) [116; 116]%N false) ex_e1
     = Ok (es_prefix [105]%N ++ [116; 45; 116; 116]%N ++ es_suffix).
Proof. repeat split; vm_compute; reflexivity. Qed.

(* non-vacuity of the splunk theorems: the documented configuration ts -> time, service -> fields.service_name
   (plus an entry to event.x, which Start() drops) on the batch [first with ts and service; second
   without either; third with service only]: the second envelope is bare although its neighbours carry
   the copied fields *)
Example c19_splunk_nonvacuous :
  Forall cp_ok ex_scfg
  /\ (Forall cp_lits_ok ex_scfg /\ Forall ev_copy_ok [ex_s1; ex_s2; ex_s3])
  /\ envelope ex_scfg ex_s1 = [123; 34; 101; 118; 101; 110; 116; 34; 58; 123; 34; 109; 115; 103; 34; 58; 34; 102; 105; 114; 115; 116; 34; 44; 34; 116; 115; 34; 58; 34; 49; 55; 34; 44; 34; 115; 101; 114; 118; 105; 99; 101; 34; 58; 34; 97; 34; 125; 44; 34; 116; 105; 109; 101; 34; 58; 34; 49; 55; 34; 44; 34; 102; 105; 101; 108; 100; 115; 34; 58; 123; 34; 115; 101; 114; 118; 105; 99; 101; 95; 110; 97; 109; 101; 34; 58; 34; 97; 34; 125; 125]%N
  /\ envelope ex_scfg ex_s2 = [123; 34; 101; 118; 101; 110; 116; 34; 58; 123; 34; 109; 115; 103; 34; 58; 34; 115; 101; 99; 111; 110; 100; 34; 125; 125]%N
  /\ envelope ex_scfg ex_s3 = [123; 34; 101; 118; 101; 110; 116; 34; 58; 123; 34; 109; 115; 103; 34; 58; 34; 116; 104; 105; 114; 100; 34; 44; 34; 115; 101; 114; 118; 105; 99; 101; 34; 58; 34; 99; 34; 125; 44; 34; 102; 105; 101; 108; 100; 115; 34; 58; 123; 34; 115; 101; 114; 118; 105; 99; 101; 95; 110; 97; 109; 101; 34; 58; 34; 99; 34; 125; 125]%N
  /\ (match splunk_out ex_scfg [ex_s1; ex_s2; ex_s3] [1; 2; 3]%N [500] with
      | Ok a => (map rq_body (at_reqs a), at_ret a) | _ => ([], 9) end)
     = ([envelope ex_scfg ex_s1 ++ envelope ex_scfg ex_s2 ++ envelope ex_scfg ex_s3], 1).
Proof. split; [exact ex_scfg_ok|split; [exact ex_scopy_ok|repeat split; vm_compute; reflexivity]]. Qed.

(* ---- round 5 (seed C19-r5-kafka-stale-topic): routing -------------------------------------------
   The predicate's routing clause (route_pred): every carried document travels with the routing value of
   its own event.  kafka: the topic of a record is the event's own topic_field value when use_topic_field
   is set and that value is a non-empty string, default_topic otherwise *)
Theorem c19_kafka_topic_of_event :
  forall c e,
  (k_use_field c = true -> ev_topic e <> [] -> k_topic c e = ev_topic e)
  /\ (k_use_field c = false \/ ev_topic e = [] -> k_topic c e = k_default c)
  /\ (forall e2, ev_topic e2 = ev_topic e -> k_topic c e2 = k_topic c e).
Proof. exact k_topic_spec. Qed.
Print Assumptions c19_kafka_topic_of_event.

(* one call of out(), any previous content of the worker's buffer / records, any answer: the producer is
   handed, per deliverable event of THIS batch and in batch order, one record with that event's topic
   (observed with status -1) and that event's encoding (observed with the answer) — nothing else *)
Theorem c19_kafka_out_routing :
  forall c batch prev script, len (deliverable batch) <= k_batch_size c ->
  exists a, kafka_out c batch prev script = Ok a
    /\ map req_obs (at_reqs a)
       = flat_map (fun e => [(k_topic c e, -1); (enc e, fst (next_status script))]) (deliverable batch)
    /\ at_buf a = concat (map enc (deliverable batch)).
Proof. exact kafka_out_routing. Qed.
Print Assumptions c19_kafka_out_routing.

(* topic independence: inside ANY batch that contains the deliverable event e the record at e's place
   carries k_topic c e and enc e — functions of e and the configuration alone *)
Theorem c19_kafka_topic_independent :
  forall c e pre post prev script,
  is_parent e = false -> len (deliverable (pre ++ e :: post)) <= k_batch_size c ->
  exists a, kafka_out c (pre ++ e :: post) prev script = Ok a
    /\ map req_obs (at_reqs a)
       = k_obs c (fst (next_status script)) (deliverable pre)
         ++ [(k_topic c e, -1); (enc e, fst (next_status script))]
         ++ k_obs c (fst (next_status script)) (deliverable post).
Proof. exact kafka_topic_independent. Qed.
Print Assumptions c19_kafka_topic_independent.

(* no cross-event leakage: permuting, replacing or removing the OTHER events of the batch (and changing
   the buffer history or the answers) changes neither the topic nor the value of e's record *)
Theorem c19_kafka_no_cross_event_leak :
  forall c e pre1 post1 pre2 post2 p1 s1 p2 s2,
  is_parent e = false ->
  len (deliverable (pre1 ++ e :: post1)) <= k_batch_size c ->
  len (deliverable (pre2 ++ e :: post2)) <= k_batch_size c ->
  exists a1 a2,
    kafka_out c (pre1 ++ e :: post1) p1 s1 = Ok a1 /\ kafka_out c (pre2 ++ e :: post2) p2 s2 = Ok a2
    /\ nth_error (map rq_body (at_reqs a1)) (2 * length (deliverable pre1)) = Some (k_topic c e)
    /\ nth_error (map rq_body (at_reqs a2)) (2 * length (deliverable pre2)) = Some (k_topic c e)
    /\ nth_error (map rq_body (at_reqs a1)) (S (2 * length (deliverable pre1))) = Some (enc e)
    /\ nth_error (map rq_body (at_reqs a2)) (S (2 * length (deliverable pre2))) = Some (enc e).
Proof. exact kafka_no_cross_event_leak. Qed.
Print Assumptions c19_kafka_no_cross_event_leak.

(* no cross-batch leakage: through ANY history of batches on one worker (records and buffer reused, failed
   attempts offered again, any answers) every call of out() hands the producer exactly the (topic, value)
   records of the batch it was called with, and every batch of the history is offered *)
Theorem c19_kafka_history_routing :
  forall c batches prev script,
  Forall (fun b => len (deliverable b) <= k_batch_size c) batches ->
  Forall (fun ba => exists a st, snd ba = Ok a
                    /\ map req_obs (at_reqs a)
                       = flat_map (fun e => [(k_topic c e, -1); (enc e, st)]) (deliverable (fst ba)))
         (run_batches (kafka_out c) batches prev script)
  /\ (forall b, In b batches -> In b (map fst (run_batches (kafka_out c) batches prev script))).
Proof. exact kafka_history_routing. Qed.
Print Assumptions c19_kafka_history_routing.

(* the executable routing clause, on ANY observation of a kafka attempt, says exactly this: the observed
   records are, in order, (k_topic c e, enc e) for the deliverable events of the batch *)
Theorem c19_kafka_route_pred_iff :
  forall cfgsx c batch m reqs ret,
  kafka_of_sx cfgsx = Some c ->
  (route_pred 3 cfgsx batch m (SL [SZ 0; SL reqs; SZ ret]) = true
   <-> kafka_pairs reqs = Some (map (fun e => (k_topic c e, enc e)) (deliverable batch))).
Proof. exact kafka_route_pred_iff. Qed.
Print Assumptions c19_kafka_route_pred_iff.

(* ... and the model satisfies it for every buffer history and every answer *)
Theorem c19_kafka_model_routes :
  forall cfgsx c batch prev script,
  kafka_of_sx cfgsx = Some c -> len (deliverable batch) <= k_batch_size c -> fst (next_status script) <> -1 ->
  route_pred 3 cfgsx batch (kafka_out c batch prev script) (sx_flat (kafka_out c batch prev script)) = true.
Proof. exact kafka_model_routes. Qed.
Print Assumptions c19_kafka_model_routes.

(* elasticsearch: the action line (index name) reads nothing of an event but its own index values *)
Theorem c19_es_action_line_local :
  forall c e1 e2, ev_raw e1 = ev_raw e2 -> ev_esc e1 = ev_esc e2 -> es_header_of c e1 = es_header_of c e2.
Proof. exact es_header_local. Qed.
Print Assumptions c19_es_action_line_local.

(* action-line independence: in the payload of ANY batch that contains the deliverable event e, whatever
   the other events, the buffer history and the answers are, e's place holds its own action line followed
   by its own document *)
Theorem c19_es_action_line_independent :
  forall c e pre post prev script,
  es_cfg_ok c -> is_parent e = false ->
  exists a, es_out c (pre ++ e :: post) prev script = Ok a
    /\ at_buf a = es_payload c pre ++ (es_header_of c e ++ [NL] ++ enc e ++ [NL]) ++ es_payload c post
    /\ slice (at_buf a) (len (es_payload c pre)) (len (es_payload c pre) + len (es_header_of c e))
       = Ok (es_header_of c e).
Proof. exact es_action_line_independent. Qed.
Print Assumptions c19_es_action_line_independent.

(* the routing clause's cutter reads from the frames of any events exactly their (action line, document)
   pairs (hypotheses = the oracle checks), and the model's observation satisfies the clause *)
Theorem c19_es_route_pairs :
  forall c evs,
  es_cfg_ok c -> es_cfg_plain c -> Forall esc_safe evs -> Forall enc_line_safe evs ->
  es_pairs (concat (map (es_frame_of c) evs)) = Some (map (fun e => (es_route c e, enc e)) evs)
  /\ forall e, es_route c e = es_header_of c e.
Proof. exact (fun c evs Hc Hp He Hl => conj (es_pairs_frames c evs Hc Hp He Hl) (fun e => es_route_ok c e Hc)). Qed.
Print Assumptions c19_es_route_pairs.

Theorem c19_es_model_routes :
  forall cfgsx c pr batch prev script,
  es_of_sx cfgsx = Some (c, pr) -> es_cfg_ok c -> es_cfg_plain c -> es_split c = false ->
  Forall esc_safe (deliverable batch) -> Forall enc_line_safe (deliverable batch) ->
  route_pred 0 cfgsx batch (es_out c batch prev script) (sx_flat (es_out c batch prev script)) = true.
Proof. exact es_model_routes. Qed.
Print Assumptions c19_es_model_routes.

(* with or without split_batch, for every buffer history and every script of answers: every request out()
   makes — also one answered 413 / 5xx / with a rejected body — consists, in order, of (action line,
   document) pairs of the batch's deliverable events, each action line the event's own (the third
   conjunct of the routing clause) *)
Theorem c19_es_requests_routed :
  forall c batch prev script,
  es_cfg_ok c -> es_cfg_plain c ->
  Forall esc_safe (deliverable batch) -> Forall enc_line_safe (deliverable batch) ->
  exists a, es_out c batch prev script = Ok a
    /\ es_all_routed (map (fun e => (es_route c e, enc e)) (deliverable batch)) (map sx_of_req (at_reqs a)) = true.
Proof. exact es_requests_routed. Qed.
Print Assumptions c19_es_requests_routed.

(* non-vacuity: kafka with use_topic_field, default "d", on one worker first [topic a; parent (topic x); no
   topic], then [no topic; topic b] after a failed produce of the first batch: the records are
   a, d | a, d (offered again) | d, b — and an observation in which the second batch's first record kept the
   topic "a" of the slot's earlier occupant is rejected by the routing clause *)
Example c19_routing_nonvacuous :
  map (fun ba => match snd ba with Ok a => map rq_body (filter (fun q => rq_status q =? -1) (at_reqs a)) | _ => [] end)
      (run_batches (kafka_out ex_kcfg) [[ex_k1; ex_k2; ex_k3]; [ex_k3; ex_k4]] [] [500])
    = [[[97]; [100]]; [[97]; [100]]; [[100]; [98]]]%N
  /\ route_pred 3 (SL [SB [100]%N; SZ 1; SZ 4]) [ex_k3; ex_k4] (kafka_out ex_kcfg [ex_k3; ex_k4] [] [])
       (SL [SZ 0; SL [SL [SB [100]%N; SZ (-1)]; SL [SB (enc ex_k3); SZ 200]; SL [SB [98]%N; SZ (-1)]; SL [SB (enc ex_k4); SZ 200]]; SZ 0]) = true
  /\ route_pred 3 (SL [SB [100]%N; SZ 1; SZ 4]) [ex_k3; ex_k4] (kafka_out ex_kcfg [ex_k3; ex_k4] [] [])
       (SL [SZ 0; SL [SL [SB [97]%N; SZ (-1)]; SL [SB (enc ex_k3); SZ 200]; SL [SB [98]%N; SZ (-1)]; SL [SB (enc ex_k4); SZ 200]]; SZ 0]) = false
  /\ att_docs_pred 3 (SL [SB [100]%N; SZ 1; SZ 4]) [ex_k3; ex_k4] (kafka_out ex_kcfg [ex_k3; ex_k4] [] [])
       (SL [SZ 0; SL [SL [SB [97]%N; SZ (-1)]; SL [SB (enc ex_k3); SZ 200]; SL [SB [98]%N; SZ (-1)]; SL [SB (enc ex_k4); SZ 200]]; SZ 0]) = true.
Proof. repeat split; vm_compute; reflexivity. Qed.
