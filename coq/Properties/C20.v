(* C20 — admission control drops only what the settings say, and only that.
   Only statements, each closed by [exact]; proofs live in Proofs/Admission.v, Proofs/Antispam.v and Proofs/AntispamCov.v. *)
From Verif Require Import Base.Sx Base.GoSem Model.Admission Model.Antispam Proofs.Admission Proofs.Antispam Proofs.AntispamCov.

(* ---- checkInputBytes ------------------------------------------------------------------------ *)

(* a record is refused by the size check exactly when it is empty / a lone newline, or longer than a
   non-zero max_event_size while cutting is disabled (every limit, every record) *)
Theorem c20_admit_refuse_iff :
  forall b max cutoff,
    (exists w, admit_bytes b max cutoff = Ok (Refuse w)) <->
    (empty_record b \/ (max <> 0 /\ max < len b /\ cutoff = false)).
Proof. exact admit_refuse_iff. Qed.
Print Assumptions c20_admit_refuse_iff.

(* cutting: exactly the first max bytes, plus the newline iff the record ended with one *)
Theorem c20_admit_cut_exact :
  forall b max, 0 < max -> max < len b ->
    admit_bytes b max true = Ok (Cut (firstn (Z.to_nat max) b ++ (if ends_nl b then [NL] else []))).
Proof. exact admit_cut_exact. Qed.
Print Assumptions c20_admit_cut_exact.

(* records within the limit are never altered *)
Theorem c20_admit_identity_within_limit :
  forall b max cutoff, ~ empty_record b -> (max = 0 \/ len b <= max) ->
    admit_bytes b max cutoff = Ok (Keep b).
Proof. exact admit_identity_within_limit. Qed.
Print Assumptions c20_admit_identity_within_limit.

(* the slice bytes[:max] is in range for every non-negative limit; a negative max_event_size with
   cutting enabled panics on every non-empty record (the settings are not validated) *)
Theorem c20_admit_no_panic :
  forall b max cutoff, 0 <= max -> is_panic (admit_bytes b max cutoff) = false.
Proof. exact admit_no_panic. Qed.
Print Assumptions c20_admit_no_panic.

Theorem c20_admit_negative_max_panics :
  forall b max, max < 0 -> ~ empty_record b -> is_panic (admit_bytes b max true) = true.
Proof. exact admit_negative_max_panics. Qed.
Print Assumptions c20_admit_negative_max_panics.

(* ---- the refusal chain of Pipeline.In, for every CRI parser, decoder and antispam verdict ------
   (the code after repair a380cb6: "recognised by its input as already committed" refuses CRI rows only,
   and only inside the antispam-enabled, non-partial branch) *)
Theorem c20_in_refuse_iff :
  forall c cri decode_ok spam cur soff b, 0 <= max_size c ->
    ((exists w, pipeline_in c cri decode_ok spam cur soff b = Refused w) <->
     (empty_record b \/ (oversize c b /\ cut_on c = false) \/
      (let b' := seen_bytes c b in
       cri b' = None \/
       (cri b' = Some false /\ 0 <= as_thr c /\ ((is_cri c = true /\ 0 < soff /\ cur < soff) \/ spam b' = true)) \/
       decode_ok b' = false))).
Proof. exact in_refuse_iff. Qed.
Print Assumptions c20_in_refuse_iff.

(* delivered = the record itself within the limit, else its cut form; still accepted by the decoder;
   marked iff it was cut and a mark field is configured *)
Theorem c20_in_delivered_spec :
  forall c cri decode_ok spam cur soff b d mark, 0 <= max_size c ->
    pipeline_in c cri decode_ok spam cur soff b = Delivered d mark ->
    d = seen_bytes c b /\ decode_ok d = true /\
    mark = (negb (max_size c =? 0) && (max_size c <? len b)) && mark_on c.
Proof.
  exact (fun c cri decode_ok spam cur soff b d mark _ => in_delivered_spec c cri decode_ok spam cur soff b d mark).
Qed.
Print Assumptions c20_in_delivered_spec.

(* antispam threshold < 0 at the pipeline: neither IsSpam nor the committed-offset test matters *)
Theorem c20_in_disabled_antispam_never :
  forall c cri decode_ok spam1 spam2 cur1 soff1 cur2 soff2 b, as_thr c < 0 ->
    pipeline_in c cri decode_ok spam1 cur1 soff1 b = pipeline_in c cri decode_ok spam2 cur2 soff2 b.
Proof. exact in_disabled_antispam_never. Qed.
Print Assumptions c20_in_disabled_antispam_never.

(* ---- Antispammer ------------------------------------------------------------------------------ *)

(* threshold -1 and no rules: IsSpam is false and leaves every state alone, whatever the exceptions *)
Theorem c20_antispam_disabled_never :
  forall MI U s exc isNew t, astep MI U s (Ev (resolve (-1) None exc) isNew t) = (s, false).
Proof. exact antispam_disabled_never. Qed.
Print Assumptions c20_antispam_disabled_never.

(* a matching exception: never flagged, never counted, for every threshold (0 = "discard all" included) *)
Theorem c20_antispam_exception_never :
  forall T MI U s exc isNew t, existsb (fun m => m) exc = true ->
    astep MI U s (Ev (resolve T None exc) isNew t) = (s, false).
Proof. exact antispam_exception_never. Qed.
Print Assumptions c20_antispam_exception_never.

Theorem c20_antispam_rule_unlimited_never :
  forall T MI U s rs exc isNew t, first_rule rs = Some (-1) ->
    astep MI U s (Ev (resolve T (Some rs) exc) isNew t) = (s, false).
Proof. exact antispam_rule_unlimited_never. Qed.
Print Assumptions c20_antispam_rule_unlimited_never.

(* Ban onset, the true statement: after ANY history that ends with a Maintenance round leaving the
   source not banned, a call is flagged only if the counter r that round left behind plus the number of
   quick calls (gap to the source's previous event < MI) since the round, this call included, reaches T. *)
Theorem c20_ban_onset_partial :
  forall MI U T ops0 seg i, 0 < T -> 0 <= U ->
    forallb (uniform_op T) ops0 = true -> forallb (is_count_ev T) seg = true ->
    let s := fst (arun MI U None (ops0 ++ [Maint])) in
    banned T s = false ->
    nth_error (snd (arun MI U s seg)) i = Some true ->
    T <= counter_of s + quick_count MI (ts_of s) (firstn (S i) seg).
Proof. exact ban_onset_reachable. Qed.
Print Assumptions c20_ban_onset_partial.

(* the property's wording holds whenever that round left nothing behind ... *)
Theorem c20_ban_onset_needs_T :
  forall MI U T ops0 seg i, 0 < T -> 0 <= U ->
    forallb (uniform_op T) ops0 = true -> forallb (is_count_ev T) seg = true ->
    let s := fst (arun MI U None (ops0 ++ [Maint])) in
    counter_of s = 0 ->
    nth_error (snd (arun MI U s seg)) i = Some true ->
    T <= quick_count MI (ts_of s) (firstn (S i) seg).
Proof. exact ban_onset_needs_T. Qed.
Print Assumptions c20_ban_onset_needs_T.

(* ... which is the case for every source that was not banned before the round ... *)
Theorem c20_unbanned_round_leaves_zero :
  forall U T s, 0 < T -> 0 <= U -> wf T s -> banned T s = false -> counter_of (maint_step U s) = 0.
Proof. exact maint_unbanned_leaves_zero. Qed.
Print Assumptions c20_unbanned_round_leaves_zero.

(* ... but a ban that ends with the round leaves x - T behind ... *)
Theorem c20_unban_round_leaves_residual :
  forall U T x, 0 < T -> 1 <= U -> sthr x = T -> T <= counter x < 2 * T ->
    maint_step U (Some x) = Some {| counter := counter x - T; ts := ts x; sthr := T |}.
Proof. exact (fun U T x _ => maint_residual U T x). Qed.
Print Assumptions c20_unban_round_leaves_residual.

(* ... so the property's wording is FALSE of the code: T = 10, U = 4: 15 quick events (banned at the
   10th, counter 40, then 45), 4 rounds (35, 25, 15, 5: unbanned, residual 5), and the 5th event after
   that is flagged although only 5 < 10 events arrived since the previous round. *)
Theorem c20_ban_onset_residual_refuted :
  exists T MI U ops0 seg i,
    0 < T /\ 0 <= U /\
    forallb (uniform_op T) ops0 = true /\ forallb (is_count_ev T) seg = true /\
    let s := fst (arun MI U None (ops0 ++ [Maint])) in
    banned T s = false /\
    nth_error (snd (arun MI U s seg)) i = Some true /\
    quick_count MI (ts_of s) (firstn (S i) seg) < T.
Proof. exact ban_onset_residual_refuted. Qed.
Print Assumptions c20_ban_onset_residual_refuted.

(* a flagged call leaves the source banned; a banned source is flagged; Maintenance never bans *)
Theorem c20_flagged_iff_banned_after :
  forall MI U T s t, 0 < T -> 1 <= U ->
    snd (count_step MI U T s false t) = banned T (fst (count_step MI U T s false t)).
Proof. exact flagged_iff_banned_after. Qed.
Print Assumptions c20_flagged_iff_banned_after.

Theorem c20_maint_never_bans :
  forall U T s, 0 < T -> 0 <= U -> wf T s -> banned T s = false -> banned T (maint_step U s) = false.
Proof. exact maint_never_bans. Qed.
Print Assumptions c20_maint_never_bans.

(* from any reachable state, U+1 rounds without an IsSpam call leave the source unbanned with counter 0,
   and the next round deletes its entry *)
Theorem c20_unban_within_U_plus_1 :
  forall MI U T ops, 0 < T -> 0 <= U -> forallb (uniform_op T) ops = true ->
    let s := fst (arun MI U None ops) in
    let s' := fst (arun MI U s (repeat Maint (Z.to_nat (U + 1)))) in
    banned T s' = false /\ counter_of s' = 0 /\ fst (arun MI U s' [Maint]) = None.
Proof. exact unban_within_U_plus_1. Qed.
Print Assumptions c20_unban_within_U_plus_1.

(* sources do not influence each other: in a table of sources, source id evolves as if it saw only
   its own IsSpam calls and the Maintenance rounds *)
Theorem c20_sources_independent :
  forall MI U ops ms id s, nth_error ms id = Some s ->
    nth_error (fst (mrun MI U ms ops)) id = Some (fst (arun MI U s (flat_map (proj id) ops))).
Proof. exact sources_independent. Qed.
Print Assumptions c20_sources_independent.

(* ---- the last stage of In: the input's PassEvent ("recognised by its input as already committed") ---- *)

(* the input refuses an event exactly when the rest of In let it through (c20_in_refuse_iff says when that is), streams
   are enabled and PassEvent answered false *)
Theorem c20_in_refused_by_input_iff :
  forall c cri decode_ok spam cur soff b streams_on pass,
    pipeline_in3 c cri decode_ok spam cur soff b streams_on pass = RefusedByInput <->
    ((exists d mark, pipeline_in c cri decode_ok spam cur soff b = Delivered d mark) /\ streams_on = true /\ pass = false).
Proof. exact in3_refused_by_input_iff. Qed.
Print Assumptions c20_in_refused_by_input_iff.

(* with DisableStreams, or an input that passes the event, nothing is added to the chain of c20_in_refuse_iff *)
Theorem c20_in_input_pass_or_streams_off :
  forall c cri decode_ok spam cur soff b streams_on pass,
    streams_on = false \/ pass = true ->
    pipeline_in3 c cri decode_ok spam cur soff b streams_on pass = R3 (pipeline_in c cri decode_ok spam cur soff b).
Proof. exact in3_pass_is_in. Qed.
Print Assumptions c20_in_input_pass_or_streams_off.

Theorem c20_in_refusal_independent_of_input :
  forall c cri decode_ok spam cur soff b streams_on pass w,
    pipeline_in c cri decode_ok spam cur soff b = Refused w ->
    pipeline_in3 c cri decode_ok spam cur soff b streams_on pass = R3 (Refused w).
Proof. exact in3_refusal_independent_of_input. Qed.
Print Assumptions c20_in_refusal_independent_of_input.

(* the antispam counted the event before the input was asked: its state does not depend on the answer *)
Theorem c20_in_antispam_state_independent_of_input :
  forall pc streams_on meta_on nsrc ms id isNew cur soff hdr b valid pass1 pass2 meta,
    fst (pstep6 pc streams_on meta_on nsrc ms (P6In id isNew cur soff hdr b valid pass1 meta)) =
    fst (pstep6 pc streams_on meta_on nsrc ms (P6In id isNew cur soff hdr b valid pass2 meta)).
Proof. exact pstep6_state_independent_of_pass. Qed.
Print Assumptions c20_in_antispam_state_independent_of_input.

(* source_name_meta_field: events that carry the field share the entry of the meta value, whatever their source id, and
   are never the "first event of a new source"; the others keep the entry of their source id *)
Theorem c20_source_key_meta :
  forall nsrc id1 id2 isNew1 isNew2 meta,
    0 <= meta -> source_key true nsrc id1 isNew1 meta = source_key true nsrc id2 isNew2 meta /\
                 snd (source_key true nsrc id1 isNew1 meta) = false /\
                 (nsrc <= fst (source_key true nsrc id1 isNew1 meta))%nat.
Proof. exact source_key_meta. Qed.
Print Assumptions c20_source_key_meta.

Theorem c20_source_key_plain :
  forall meta_on nsrc id isNew meta,
    meta_on = false \/ meta < 0 -> source_key meta_on nsrc id isNew meta = (id, isNew).
Proof. exact source_key_plain. Qed.
Print Assumptions c20_source_key_plain.

(* ---- the counter is an int32 in the code, an unbounded integer in the theorems above --------------------------
   On every run of IsSpam calls (all counted against T) and Maintenance rounds that starts with room for its length
   below MaxInt32, the model with a wrapping Inc and the clamped ban value (clampInt32) computes the same verdicts and
   the same state as the unbounded one; from the empty state: every run of at most 2^31 - 1 - U*T ops. *)
Theorem c20_int32_run_exact :
  forall MI U T ops s,
    0 < T -> 0 <= U -> forallb (uniform_op T) ops = true -> wf T s ->
    Z.max (counter_of s) (U * T) + Z.of_nat (length ops) <= MAX32 ->
    arun32 MI U s ops = arun MI U s ops.
Proof. exact arun32_exact. Qed.
Print Assumptions c20_int32_run_exact.

Theorem c20_int32_run_exact_fresh :
  forall MI U T ops,
    0 < T -> 0 <= U -> forallb (uniform_op T) ops = true ->
    U * T + Z.of_nat (length ops) <= MAX32 ->
    arun32 MI U None ops = arun MI U None ops.
Proof. exact arun32_exact_fresh. Qed.
Print Assumptions c20_int32_run_exact_fresh.

Theorem c20_int32_step_exact :
  forall MI U T s isNew t,
    0 < T -> 0 <= U -> U * T <= MAX32 -> wf T s -> counter_of s < MAX32 ->
    count_step32 MI U T s isNew t = count_step MI U T s isNew t.
Proof. exact count_step32_exact. Qed.
Print Assumptions c20_int32_step_exact.

Theorem c20_int32_round_exact :
  forall U T s, 0 < T -> 0 <= U -> wf T s -> counter_of s <= MAX32 -> maint_step32 U s = maint_step U s.
Proof. exact maint_step32_exact. Qed.
Print Assumptions c20_int32_round_exact.

(* ---- non-vacuity ------------------------------------------------------------------------------ *)
(* cut with and without newline, identity at the limit, refusals *)
Example c20_admit_nonvacuous :
  admit_bytes [97;98;99;100;10]%N 2 true = Ok (Cut [97;98;10]%N) /\
  admit_bytes [97;98;99;100]%N 2 true = Ok (Cut [97;98]%N) /\
  admit_bytes [97;98;10]%N 3 true = Ok (Keep [97;98;10]%N) /\
  admit_bytes [97;98;99]%N 2 false = Ok (Refuse ROversize) /\
  admit_bytes [10]%N 0 false = Ok (Refuse REmpty).
Proof. vm_compute. repeat split. Qed.

(* U+1 is tight: T = 10, U = 4, 20 quick events (counter 50); after U = 4 rounds the source is still
   banned (counter 10), after the 5th it is free, the 6th deletes it *)
Example c20_unban_tight_nonvacuous :
  let s := fst (arun 1 4 None (repeat (Ev (Count 10) false 0) 20)) in
  counter_of s = 50 /\
  banned 10 (fst (arun 1 4 s (repeat Maint 4))) = true /\
  banned 10 (fst (arun 1 4 s (repeat Maint 5))) = false /\
  fst (arun 1 4 s (repeat Maint 6)) = None.
Proof. vm_compute. repeat split. Qed.

(* ban onset with r = 0: the hypotheses are met by a never-banned source and exactly the T-th quick
   event is the first flagged one; slow events (gap >= MI) are not counted *)
Example c20_ban_onset_nonvacuous :
  let ops0 := repeat (Ev (Count 3) false 0) 2 in
  let s := fst (arun 5 4 None (ops0 ++ [Maint])) in
  counter_of s = 0 /\
  snd (arun 5 4 s [Ev (Count 3) false 0; Ev (Count 3) false 1; Ev (Count 3) false 9; Ev (Count 3) false 10])
    = [false; false; false; true].
Proof. vm_compute. repeat split. Qed.

(* exceptions beat threshold 0 ("discard all"); without a match threshold 0 flags everything *)
Example c20_exception_nonvacuous :
  resolve 0 None [false; true] = Pass /\ resolve 0 None [false; false] = Block /\
  resolve 7 (Some [(false, 0); (true, 3)]) [true] = Count 3.
Proof. vm_compute. repeat split. Qed.

(* the input's refusal: a record that everything else lets through is refused iff streams are on and PassEvent says no *)
Example c20_input_refusal_nonvacuous :
  let c := {| max_size := 0; cut_on := false; mark_on := false; as_thr := -1; is_cri := false |} in
  let run := fun streams pass => pipeline_in3 c (fun _ => Some false) (fun _ => true) (fun _ => false) 0 0 [97;10]%N streams pass in
  run true false = RefusedByInput /\ run false false = R3 (Delivered [97;10]%N false) /\
  run true true = R3 (Delivered [97;10]%N false).
Proof. vm_compute. repeat split. Qed.

(* outside the range of c20_int32_run_exact the int32 model (and the code: stream antispam-int32-clamp) leaves the
   unbounded one: T = 3, U = 2^30 - the ban value is clamped to MaxInt32 and the next quick event wraps the counter *)
Example c20_int32_clamp_nonvacuous :
  let U := 1073741824 in
  let ban := repeat (Ev (Count 3) false 0) 3 in
  counter_of (fst (arun32 2 U None ban)) = MAX32 /\
  snd (arun32 2 U None (ban ++ [Ev (Count 3) false 0])) = [false; false; true; false] /\
  snd (arun 2 U None (ban ++ [Ev (Count 3) false 0])) = [false; false; true; true] /\
  arun32 2 4 None (ban ++ [Ev (Count 3) false 0; Maint]) = arun 2 4 None (ban ++ [Ev (Count 3) false 0; Maint]).
Proof. vm_compute. repeat split. Qed.
